(** C05: the invariant of the main induction ([good]) and its proof, class by class.  Maps are
    the hard case: immutables' one-sided test (every entry of one map is found in the other,
    equal sizes, keys distinct for the map) is symmetric, transitive and preserves the hash.
    Sets are maps from their members to a dummy value, as PersistentSet is implemented. *)
From Coq Require Import List QArith Permutation.
Import ListNotations.
From Verif Require Import Common.ListX Gen.Tables C05.Model C05.Unfold C05.Lemmas
  C05.Coherence C05.StrSort.

(** What is proved of every well-formed value [x], for all well-formed [y], [z]:
    - [a == b] and [b == a] agree;
    - [==] is transitive and Euclidean through [x], whichever way round the second
      comparison is evaluated;
    - values that are [==] have the same hash. *)
Record good (x : val) : Prop := {
  g_fi : forall y, wf y = true -> eqd true x y = eqd false x y;
  g_t : forall sw y z, wf y = true -> wf z = true ->
        py_eq x y = true -> eqd sw y z = true -> py_eq x z = true;
  g_e : forall sw y z, wf y = true -> wf z = true ->
        py_eq x y = true -> py_eq x z = true -> eqd sw y z = true;
  g_h : forall y, wf y = true -> py_eq x y = true -> hash_of x = hash_of y;
}.

Lemma good_any x sw y : good x -> wf y = true -> eqd sw x y = py_eq x y.
Proof. intros G W. destruct sw; [apply (g_fi x G y W)|reflexivity]. Qed.
Lemma good_sym x y : good x -> wf y = true -> py_eq y x = py_eq x y.
Proof. intros G W. rewrite py_eq_flip. apply (g_fi x G y W). Qed.
Lemma good_km x y : good x -> wf y = true -> km py_eq x y = py_eq x y.
Proof.
  intros G W. unfold km. destruct (py_eq x y) eqn:E; [|apply andb_false_r].
  rewrite andb_true_r. apply heq_eq. apply (g_h x G y W E).
Qed.

Lemma km_of x y : heq x y = true -> py_eq x y = true -> km py_eq x y = true.
Proof. intros H1 H2. unfold km. rewrite H1, H2. reflexivity. Qed.
Lemma km_coh x y : km py_eq x y = km (eqd true) y x.
Proof. unfold km, py_eq. rewrite heq_sym, (eqd_coh y true x). reflexivity. Qed.
Lemma good_km_sym x y : good x -> wf y = true -> km py_eq y x = km py_eq x y.
Proof. intros G W. unfold km. rewrite heq_sym, (good_sym x y G W). reflexivity. Qed.

Lemma key_trans sw ka kb kc : good ka -> wf kb = true -> wf kc = true ->
  km py_eq ka kb = true -> km (eqd sw) kb kc = true -> km py_eq ka kc = true.
Proof.
  unfold km. rewrite !andb_true_iff. intros G Wb Wc [H1 E1] [H2 E2]. split.
  - eapply heq_trans; eauto.
  - apply (g_t ka G sw kb kc); auto.
Qed.
Lemma key_eucl sw ka kb kc : good ka -> wf kb = true -> wf kc = true ->
  km py_eq ka kb = true -> km py_eq ka kc = true -> km (eqd sw) kb kc = true.
Proof.
  unfold km. rewrite !andb_true_iff. intros G Wb Wc [H1 E1] [H2 E2]. split.
  - apply (heq_trans _ ka); auto. rewrite heq_sym; auto.
  - apply (g_e ka G sw kb kc); auto.
Qed.

(** [same_key] is [km py_eq] *)
Lemma good_common_r x x' y :
  good x -> good x' -> wf x' = true -> wf y = true ->
  km py_eq x y = true -> km py_eq x' y = true -> same_key x x' = true.
Proof.
  intros G G' W' Wy H H'. apply (key_trans false x y x'); auto.
  change (km py_eq y x' = true). rewrite (good_km_sym x' y); auto.
Qed.
Lemma good_common_l x y y' :
  good x -> wf y = true -> wf y' = true ->
  km py_eq x y = true -> km py_eq x y' = true -> same_key y y' = true.
Proof. intros G W W'. apply (key_eucl false x y y'); auto. Qed.

Lemma atom_good a : is_coll a = false -> good a.
Proof.
  intro A. split.
  - intros y _. rewrite !(eqd_atom_l _ a y A). reflexivity.
  - intros sw y z _ _. unfold py_eq. rewrite !(eqd_atom_l _ a _ A). intros H1 H2.
    destruct (atom_eq_atoms _ _ H1) as [_ Ay]. rewrite (eqd_atom_l sw y z Ay) in H2.
    eapply atom_eq_trans; eauto.
  - intros sw y z _ _. unfold py_eq. rewrite !(eqd_atom_l _ a _ A). intros H1 H2.
    destruct (atom_eq_atoms _ _ H1) as [_ Ay]. rewrite (eqd_atom_l sw y z Ay).
    rewrite atom_eq_sym in H1. eapply atom_eq_trans; eauto.
  - intros y _. unfold py_eq. rewrite (eqd_atom_l _ a y A). apply atom_eq_hash.
Qed.

Lemma family_ok k : family_of k = 1%N.
Proof. destruct k; reflexivity. Qed.
Lemma vec_family_ok : c05_vec_hash_family = 1%N.
Proof. reflexivity. Qed.

Lemma seq_norm la s lb : Forall good la -> Forall (fun y => wf y = true) lb ->
  seq_all2 (eqd s) la lb = seq_all2 py_eq la lb.
Proof.
  intros GA WB. apply seq_all2_ext. intros x y Hx Hy. rewrite Forall_forall in GA, WB.
  apply good_any; auto.
Qed.

Lemma seq_trans la : Forall good la -> forall lb lc s,
  Forall (fun y => wf y = true) lb -> Forall (fun y => wf y = true) lc ->
  seq_all2 py_eq la lb = true -> seq_all2 (eqd s) lb lc = true -> seq_all2 py_eq la lc = true.
Proof.
  induction 1 as [|x ra G _ IH]; intros [|y rb] [|z rc] s WB WC; simpl; try discriminate; auto.
  inversion WB; subst. inversion WC; subst.
  rewrite !andb_true_iff. intros [E1 E2] [E3 E4]. split; [|apply (IH rb rc s); auto].
  eapply (g_t x G s y z); eauto.
Qed.
Lemma seq_eucl la : Forall good la -> forall lb lc s,
  Forall (fun y => wf y = true) lb -> Forall (fun y => wf y = true) lc ->
  seq_all2 py_eq la lb = true -> seq_all2 py_eq la lc = true -> seq_all2 (eqd s) lb lc = true.
Proof.
  induction 1 as [|x ra G _ IH]; intros [|y rb] [|z rc] s WB WC; simpl; try discriminate; auto.
  inversion WB; subst. inversion WC; subst.
  rewrite !andb_true_iff. intros [E1 E2] [E3 E4]. split; [|apply (IH rb rc s); auto].
  eapply (g_e x G s y z); eauto.
Qed.
Lemma seq_hash la : Forall good la -> forall lb,
  Forall (fun y => wf y = true) lb -> seq_all2 py_eq la lb = true -> map hash_of la = map hash_of lb.
Proof.
  induction 1 as [|x ra G _ IH]; intros [|y rb] WB; simpl; try discriminate; auto.
  inversion WB; subst. rewrite andb_true_iff. intros [E1 E2]. f_equal; auto. apply (g_h x G y); auto.
Qed.

Lemma wf_seq k l : wf (VSeq k l) = true -> Forall (fun y => wf y = true) l.
Proof. simpl. rewrite andb_true_iff, forallb_forall. intros [H _]. apply Forall_forall. exact H. Qed.
Lemma wf_rec t l : wf (VRec t l) = true -> Forall (fun y => wf y = true) l.
Proof. simpl. rewrite forallb_forall. intro H. apply Forall_forall. exact H. Qed.

Lemma seq_good k la : Forall good la -> good (VSeq k la).
Proof.
  intro GA. split.
  - intros y W. destruct y as [| | | | | |k' lb| | |]; try (rewrite !eqd_unfold; reflexivity).
    rewrite !eqd_seq, !(seq_norm la _ lb GA (wf_seq _ _ W)). reflexivity.
  - intros sw y z Wy Wz H1 H2. unfold py_eq in H1.
    destruct (eqd_seq_inv _ _ _ _ H1) as [k' [lb ->]]. destruct (eqd_seq_inv _ _ _ _ H2) as [k'' [lc ->]].
    unfold py_eq. rewrite eqd_seq in *.
    rewrite (seq_norm la _ lb GA (wf_seq _ _ Wy)) in H1. rewrite (seq_norm la _ lc GA (wf_seq _ _ Wz)).
    exact (seq_trans la GA lb lc _ (wf_seq _ _ Wy) (wf_seq _ _ Wz) H1 H2).
  - intros sw y z Wy Wz H1 H2. unfold py_eq in H1, H2.
    destruct (eqd_seq_inv _ _ _ _ H1) as [k' [lb ->]]. destruct (eqd_seq_inv _ _ _ _ H2) as [k'' [lc ->]].
    rewrite eqd_seq in *.
    rewrite (seq_norm la _ lb GA (wf_seq _ _ Wy)) in H1. rewrite (seq_norm la _ lc GA (wf_seq _ _ Wz)) in H2.
    exact (seq_eucl la GA lb lc _ (wf_seq _ _ Wy) (wf_seq _ _ Wz) H1 H2).
  - intros y Wy H1. unfold py_eq in H1. destruct (eqd_seq_inv _ _ _ _ H1) as [k' [lb ->]].
    rewrite eqd_seq in H1. rewrite (seq_norm la _ lb GA (wf_seq _ _ Wy)) in H1.
    simpl. rewrite !family_ok. f_equal. exact (seq_hash la GA lb (wf_seq _ _ Wy) H1).
Qed.

Lemma rec_good t la : Forall good la -> good (VRec t la).
Proof.
  intro GA. split.
  - intros y W. destruct y as [| | | | | | | |t' lb|]; try (rewrite !eqd_unfold; reflexivity).
    rewrite !eqd_rec, !(seq_norm la _ lb GA (wf_rec _ _ W)). reflexivity.
  - intros sw y z Wy Wz H1 H2. unfold py_eq in H1.
    destruct (eqd_rec_inv _ _ _ _ H1) as [lb ->]. destruct (eqd_rec_inv _ _ _ _ H2) as [lc ->].
    unfold py_eq. rewrite eqd_rec in *. rewrite str_eqb_refl in *. simpl in *.
    rewrite (seq_norm la _ lb GA (wf_rec t _ Wy)) in H1. rewrite (seq_norm la _ lc GA (wf_rec t _ Wz)).
    exact (seq_trans la GA lb lc _ (wf_rec t _ Wy) (wf_rec t _ Wz) H1 H2).
  - intros sw y z Wy Wz H1 H2. unfold py_eq in H1, H2.
    destruct (eqd_rec_inv _ _ _ _ H1) as [lb ->]. destruct (eqd_rec_inv _ _ _ _ H2) as [lc ->].
    rewrite eqd_rec in *. rewrite str_eqb_refl in *. simpl in *.
    rewrite (seq_norm la _ lb GA (wf_rec t _ Wy)) in H1. rewrite (seq_norm la _ lc GA (wf_rec t _ Wz)) in H2.
    exact (seq_eucl la GA lb lc _ (wf_rec t _ Wy) (wf_rec t _ Wz) H1 H2).
  - intros y Wy H1. unfold py_eq in H1. destruct (eqd_rec_inv _ _ _ _ H1) as [lb ->].
    rewrite eqd_rec, str_eqb_refl in H1. simpl in H1. rewrite (seq_norm la _ lb GA (wf_rec t _ Wy)) in H1.
    simpl. f_equal. f_equal. exact (seq_hash la GA lb (wf_rec t _ Wy) H1).
Qed.

Lemma uniq_entries (l : list (val * val)) :
  pairwise same_key (map fst l) = true ->
  forall e e', In e l -> In e' l ->
  same_key (fst e) (fst e') = true -> same_key (fst e') (fst e) = true -> e = e'.
Proof.
  induction l as [|h t IH]; simpl; intros P e e' He He' S1 S2; [destruct He|].
  apply andb_true_iff in P as [P1 P2]. rewrite forallb_forall in P1.
  destruct He as [<-|He], He' as [<-|He']; auto.
  - exfalso. specialize (P1 (fst e') (in_map fst _ _ He')). rewrite S1 in P1. discriminate.
  - exfalso. specialize (P1 (fst e) (in_map fst _ _ He)). rewrite S2 in P1. discriminate.
Qed.

Lemma look_b_intro f ka va l kb vb :
  (forall e e', In e l -> In e' l -> km f ka (fst e) = true -> km f ka (fst e') = true -> e = e') ->
  In (kb, vb) l -> km f ka kb = true -> look_b f ka va l = f va vb.
Proof.
  induction l as [|[k v] t IH]; simpl; intros U Hi Hk; [destruct Hi|].
  destruct (heq ka k && f ka k) eqn:E.
  - assert ((k, v) = (kb, vb)) as Eq by (apply U; simpl; auto).
    inversion Eq; subst; reflexivity.
  - destruct Hi as [Eq|Hi]; [inversion Eq; subst; unfold km in Hk; congruence|].
    apply IH; auto; intros; apply U; simpl; auto.
Qed.

Definition wfl (l : list (val * val)) : Prop := forall x, In x (elems l) -> wf x = true.
Definition keys_ok (l : list (val * val)) : Prop := pairwise same_key (map fst l) = true.

Lemma wf_map l : wf (VMap l) = true -> wfl l /\ keys_ok l.
Proof.
  simpl. rewrite andb_true_iff, forallb_forall. intros [H P]. split; auto.
  intros x Hx. unfold elems in Hx. apply in_flat_map in Hx as [[k v] [Hi Hx]].
  specialize (H _ Hi). simpl in *. apply andb_true_iff in H. destruct Hx as [<-|[<-|[]]]; tauto.
Qed.
Lemma wfl_in l k v : wfl l -> In (k, v) l -> wf k = true /\ wf v = true.
Proof. intros W Hi. split; apply W; [eapply in_elems_k|eapply in_elems_v]; eauto. Qed.

(** the element of [la] is always the left operand of [f] *)
Definition fwd (f : val -> val -> bool) (la lb : list (val * val)) : Prop :=
  forall ka va, In (ka, va) la ->
  exists kb vb, In (kb, vb) lb /\ km f ka kb = true /\ f va vb = true.
Definition bwd (f : val -> val -> bool) (la lb : list (val * val)) : Prop :=
  forall kb vb, In (kb, vb) lb ->
  exists ka va, In (ka, va) la /\ km f ka kb = true /\ f va vb = true.

Lemma map_sub_fwd f la lb : map_sub f la lb = true -> fwd f la lb.
Proof. rewrite map_sub_forall. intros H ka va Hi. apply look_b_true. auto. Qed.
(** the converse needs the probe to match at most one stored entry *)
Lemma fwd_map_sub f la lb :
  (forall ka va, In (ka, va) la -> forall e e', In e lb -> In e' lb ->
     km f ka (fst e) = true -> km f ka (fst e') = true -> e = e') ->
  fwd f la lb -> map_sub f la lb = true.
Proof.
  intros U H. apply map_sub_forall. intros ka va Hi.
  destruct (H ka va Hi) as [kb [vb [Hb [Hk Hv]]]].
  rewrite (look_b_intro f ka va lb kb vb); auto. apply (U ka va Hi).
Qed.

Definition hpair (e : val * val) : str * str := (hash_of (fst e), hash_of (snd e)).

Lemma flat_hpair l :
  flat_map (fun kv => [hash_of (fst kv); hash_of (snd kv)]) l
  = flat_map (fun p : str * str => [fst p; snd p]) (map hpair l).
Proof. induction l as [|e r IH]; simpl; [|rewrite IH]; reflexivity. Qed.

Section MapGood.
  Variable la : list (val * val).
  Hypothesis GA : forall x, In x (elems la) -> good x.
  Hypothesis WA : wfl la.
  Hypothesis PA : keys_ok la.

  Lemma good_in k v : In (k, v) la -> good k /\ good v.
  Proof. intro Hi. split; apply GA; [eapply in_elems_k|eapply in_elems_v]; eauto. Qed.

  Lemma fwd_flip lb : wfl lb -> (fwd py_eq lb la <-> bwd py_eq la lb).
  Proof.
    intro WB. split; intros H kb vb Hb; destruct (H kb vb Hb) as [ka [va [Ha [Hk Hv]]]];
      exists ka, va; (split; [exact Ha|]);
      destruct (good_in ka va Ha) as [Gk Gv]; destruct (wfl_in lb kb vb WB Hb) as [Wk Wv].
    - rewrite <- (good_km_sym ka kb Gk Wk), <- (good_sym va vb Gv Wv). auto.
    - rewrite (good_km_sym ka kb Gk Wk), (good_sym va vb Gv Wv). auto.
  Qed.

  (** [la] iterated, [lb] probed: a good probe matches at most one of [lb]'s distinct keys *)
  Lemma sub_iff lb : wfl lb -> keys_ok lb -> (map_sub py_eq la lb = true <-> fwd py_eq la lb).
  Proof.
    intros WB PB. split; [apply map_sub_fwd|apply fwd_map_sub].
    intros ka va Hi [k v] [k' v'] He He' H H'. simpl in *. destruct (good_in ka va Hi) as [G _].
    apply (uniq_entries lb PB); auto; simpl; eapply (good_common_l ka); eauto using in_elems_k.
  Qed.

  Lemma sub_iff_r lb : wfl lb -> (map_sub py_eq lb la = true <-> bwd py_eq la lb).
  Proof.
    intro WB. rewrite <- (fwd_flip lb WB). split; [apply map_sub_fwd|apply fwd_map_sub].
    intros kb vb Hb [k v] [k' v'] He He'. simpl. destruct (wfl_in lb kb vb WB Hb) as [Wk _].
    destruct (good_in k v He) as [G _]. destruct (good_in k' v' He') as [G' _].
    rewrite (good_km_sym k kb G Wk), (good_km_sym k' kb G' Wk). intros H H'.
    apply (uniq_entries la PA); auto; simpl; eapply good_common_r; eauto using in_elems_k.
  Qed.

  Lemma keys_sep : ForallOrdPairs (fun e e' => forall kb, wf kb = true ->
    km py_eq (fst e) kb = true -> km py_eq (fst e') kb = true -> False) la.
  Proof.
    eapply fop_impl; [|apply (pairwise_map_ordpairs same_key fst la PA)].
    intros [k v] [k' v'] [Hi [Hi' Hs]] kb W Hk Hk'. simpl in *.
    rewrite (good_common_r k k' kb) in Hs; eauto using in_elems_k. discriminate.
  Qed.

  (** the pigeonhole step *)
  Lemma fwd_match lb : wfl lb -> length la = length lb -> fwd py_eq la lb ->
    exists lb', Permutation lb' lb /\
      Forall2 (fun ea eb => km py_eq (fst ea) (fst eb) = true /\ py_eq (snd ea) (snd eb) = true) la lb'.
  Proof.
    intros WB L F.
    destruct (matching_perm (fun ea eb => wf (fst eb) = true /\
                km py_eq (fst ea) (fst eb) = true /\ py_eq (snd ea) (snd eb) = true) la lb L)
      as [lb' [Hp Hf]].
    - intros [ka va] Hi. destruct (F ka va Hi) as [kb [vb [Hb [Hk Hv]]]].
      exists (kb, vb). repeat split; auto. apply (wfl_in lb kb vb WB Hb).
    - eapply fop_impl; [|exact keys_sep]. intros e e' S [kb vb] [W [Hk _]] [_ [Hk' _]]. eapply S; eauto.
    - exists lb'. split; auto. clear - Hf. induction Hf as [|? ? ? ? [_ ?]]; constructor; auto.
  Qed.

  Lemma fwd_bwd lb : wfl lb -> keys_ok lb -> length la = length lb ->
    (fwd py_eq la lb <-> bwd py_eq la lb).
  Proof.
    intros WB PB Hlen. split; intro H.
    - intros kb vb Hb. destruct (fwd_match lb WB Hlen H) as [lb' [Hp Hf]].
      apply (Permutation_in _ (Permutation_sym Hp)) in Hb.
      destruct (Forall2_In_r _ _ _ Hf _ Hb) as [[ka va] [Ha [Hk Hv]]]. exists ka, va. auto.
    - (* the same with the roles exchanged *)
      destruct (matching_perm (fun eb ea => good (fst ea) /\
                  km py_eq (fst ea) (fst eb) = true /\ py_eq (snd ea) (snd eb) = true) lb la (eq_sym Hlen))
        as [la' [Hp Hf]].
      + intros [kb vb] Hi. destruct (H kb vb Hi) as [ka [va [Ha [Hk Hv]]]].
        exists (ka, va). split; [exact Ha|]. split; [apply (good_in ka va Ha)|auto].
      + eapply fop_impl; [|apply (pairwise_map_ordpairs same_key fst lb PB)].
        intros [k v] [k' v'] [Hi [Hi' Hs]] [ka va] [G [Hk _]] [_ [Hk' _]]. simpl in *.
        rewrite (good_common_l ka k k') in Hs; eauto using in_elems_k. discriminate.
      + intros ka va Ha. apply (Permutation_in _ (Permutation_sym Hp)) in Ha.
        destruct (Forall2_In_r _ _ _ Hf _ Ha) as [[kb vb] [Hb [_ [Hk Hv]]]]. exists kb, vb. auto.
  Qed.

  Lemma map_eq_iff sw lb : wfl lb -> keys_ok lb ->
    (eqd sw (VMap la) (VMap lb) = true <-> length la = length lb /\ bwd py_eq la lb).
  Proof.
    intros WB PB. rewrite eqd_map_sub, andb_true_iff, Nat.eqb_eq. destruct sw.
    - rewrite (sub_iff lb WB PB). split; intros [L H]; (split; [exact L|]); apply (fwd_bwd lb WB PB L); exact H.
    - rewrite (sub_iff_r lb WB). tauto.
  Qed.

  Lemma map_hpairs lb : wfl lb -> keys_ok lb -> py_eq (VMap la) (VMap lb) = true ->
    Permutation (map hpair la) (map hpair lb).
  Proof.
    intros WB PB H. apply (map_eq_iff false lb WB PB) in H as [L B].
    apply (fwd_bwd lb WB PB L) in B. destruct (fwd_match lb WB L B) as [lb' [Hp Hf]].
    rewrite <- Hp. apply Permutation_refl'. eapply Forall2_map_eq; [|exact Hf].
    intros [ka va] [kb vb] Ha Hb [Hk Hv]. simpl in *.
    destruct (good_in ka va Ha) as [Gk Gv].
    destruct (wfl_in lb kb vb WB (Permutation_in _ Hp Hb)) as [Wk Wv].
    unfold km in Hk. apply andb_true_iff in Hk as [_ Hk]. unfold hpair. simpl.
    rewrite (g_h ka Gk kb Wk Hk), (g_h va Gv vb Wv Hv). reflexivity.
  Qed.

  Lemma map_eucl lb lc : wfl lb -> wfl lc -> keys_ok lc -> length la = length lc ->
    bwd py_eq la lb -> bwd py_eq la lc -> map_sub py_eq lb lc = true.
  Proof.
    intros WB WC PC L2 B1 B2. apply (fwd_bwd lc WC PC L2) in B2. apply fwd_map_sub.
    - (* the entry of [lc] that matches a key of [lb] is unique: so it is for the partner in [la] *)
      intros kb vb Hb [k1 v1] [k2 v2] He He' M1 M2. simpl in *.
      destruct (B1 kb vb Hb) as [ka [va [Ha [Hk _]]]]. destruct (good_in ka va Ha) as [Gk _].
      destruct (wfl_in lb kb vb WB Hb) as [Wk _].
      destruct (wfl_in lc k1 v1 WC He) as [W1 _]. destruct (wfl_in lc k2 v2 WC He') as [W2 _].
      pose proof (key_trans false ka kb k1 Gk Wk W1 Hk M1) as K1.
      pose proof (key_trans false ka kb k2 Gk Wk W2 Hk M2) as K2.
      apply (uniq_entries lc PC); auto; simpl;
        [apply (good_common_l ka k1 k2)|apply (good_common_l ka k2 k1)]; auto.
    - intros kb vb Hb. destruct (B1 kb vb Hb) as [ka [va [Ha [Hk Hv]]]].
      destruct (B2 ka va Ha) as [kc [vc [Hc [Hk2 Hv2]]]]. exists kc, vc. split; [exact Hc|].
      destruct (good_in ka va Ha) as [Gk Gv].
      destruct (wfl_in lb kb vb WB Hb) as [Wkb Wvb]. destruct (wfl_in lc kc vc WC Hc) as [Wkc Wvc].
      split; [apply (key_eucl false ka kb kc)|apply (g_e va Gv false vb vc)]; auto.
  Qed.

  Theorem map_good : good (VMap la).
  Proof.
    split.
    - intros y W. destruct y as [| | | | | | |lb| |]; try (rewrite !eqd_unfold; reflexivity).
      destruct (wf_map _ W) as [WB PB]. apply eq_true_iff_eq.
      rewrite !(map_eq_iff _ lb WB PB). reflexivity.
    - intros sw y z Wy Wz H1 H2. unfold py_eq in H1.
      destruct (eqd_map_inv _ _ _ H1) as [lb ->]. destruct (eqd_map_inv _ _ _ H2) as [lc ->].
      destruct (wf_map _ Wy) as [WB PB]. destruct (wf_map _ Wz) as [WC PC].
      apply (map_eq_iff false lb WB PB) in H1 as [L1 B1].
      rewrite eqd_map_sub, andb_true_iff, Nat.eqb_eq in H2. destruct H2 as [L2 H2].
      apply (map_eq_iff false lc WC PC). split; [congruence|].
      assert (T : forall s ka va kb vb kc vc, In (ka, va) la -> In (kb, vb) lb -> In (kc, vc) lc ->
                km py_eq ka kb = true -> py_eq va vb = true ->
                km (eqd s) kb kc = true -> eqd s vb vc = true ->
                km py_eq ka kc = true /\ py_eq va vc = true).
      { intros s ka va kb vb kc vc Ha Hb Hc Hk Hv Hk2 Hv2. destruct (good_in ka va Ha) as [Gk Gv].
        destruct (wfl_in lb kb vb WB Hb) as [Wkb Wvb]. destruct (wfl_in lc kc vc WC Hc) as [Wkc Wvc].
        split; [apply (key_trans s ka kb kc)|apply (g_t va Gv s vb vc)]; auto. }
      destruct sw; apply map_sub_fwd in H2.
      + apply (fwd_bwd lc WC PC); [congruence|]. apply (fwd_bwd lb WB PB L1) in B1.
        intros ka va Ha. destruct (B1 ka va Ha) as [kb [vb [Hb [Hk Hv]]]].
        destruct (H2 kb vb Hb) as [kc [vc [Hc [Hk2 Hv2]]]]. exists kc, vc. split; [exact Hc|].
        apply (T false ka va kb vb kc vc); auto.
      + (* it iterates [lc], its elements on the left: that is "kb == kc" evaluated the other way *)
        intros kc vc Hc. destruct (H2 kc vc Hc) as [kb [vb [Hb [Hk2 Hv2]]]].
        destruct (B1 kb vb Hb) as [ka [va [Ha [Hk Hv]]]]. exists ka, va. split; [exact Ha|].
        apply (T true ka va kb vb kc vc); auto.
        * rewrite <- km_coh. exact Hk2.
        * rewrite (eqd_coh vb true vc). exact Hv2.
    - intros sw y z Wy Wz H1 H2. unfold py_eq in H1, H2.
      destruct (eqd_map_inv _ _ _ H1) as [lb ->]. destruct (eqd_map_inv _ _ _ H2) as [lc ->].
      destruct (wf_map _ Wy) as [WB PB]. destruct (wf_map _ Wz) as [WC PC].
      apply (map_eq_iff false lb WB PB) in H1 as [L1 B1].
      apply (map_eq_iff false lc WC PC) in H2 as [L2 B2].
      rewrite eqd_map_sub, andb_true_iff, Nat.eqb_eq. split; [congruence|].
      destruct sw; [apply (map_eucl lb lc)|apply (map_eucl lc lb)]; auto.
    - intros y Wy H1. destruct (eqd_map_inv _ _ _ H1) as [lb ->].
      destruct (wf_map _ Wy) as [WB PB]. simpl. apply hbag_perm.
      rewrite !flat_hpair. apply Permutation_flat_map, map_hpairs; auto.
  Qed.
End MapGood.

(** sets: AbstractSet.__eq__'s loop is the map's entry loop with the operands exchanged *)
Definition unit_map (l : list val) : list (val * val) := map (fun x => (x, VNil)) l.

Lemma unit_keys l : map fst (unit_map l) = l.
Proof. unfold unit_map. rewrite map_map. simpl. apply map_id. Qed.
Lemma unit_length l : length (unit_map l) = length l.
Proof. apply map_length. Qed.
Lemma unit_elems l x : In x (elems (unit_map l)) -> In x l \/ x = VNil.
Proof.
  induction l as [|y r IH]; simpl; [tauto|]. intros [<-|[<-|H]]; auto. destruct (IH H); auto.
Qed.
Lemma unit_in l x : In x l -> In (x, VNil) (unit_map l).
Proof. intro H. unfold unit_map. apply in_map_iff. exists x. auto. Qed.
Lemma in_unit l k v : In (k, v) (unit_map l) -> In k l /\ v = VNil.
Proof. unfold unit_map. rewrite in_map_iff. intros [x [E H]]. inversion E; subst. auto. Qed.

Lemma set_sub_unit f la lb : f VNil VNil = true -> set_sub f la lb = map_sub f (unit_map la) (unit_map lb).
Proof.
  intro Hnil.
  assert (L : forall x, look_b f x VNil (unit_map lb) = mem_b f x lb).
  { intro x. induction lb as [|y r IH]; simpl; auto. rewrite IH, Hnil.
    destruct (heq x y && f x y); reflexivity. }
  induction la as [|x r IH]; simpl; auto. rewrite L, IH. reflexivity.
Qed.

Lemma eqd_set_as_map sw la lb :
  eqd sw (VSet la) (VSet lb) = eqd (negb sw) (VMap (unit_map la)) (VMap (unit_map lb)).
Proof.
  rewrite eqd_set_sub, eqd_map_sub, !unit_length. f_equal.
  destruct sw; simpl; apply set_sub_unit; reflexivity.
Qed.

Lemma wf_set l : wf (VSet l) = true -> (forall x, In x l -> wf x = true) /\ pairwise same_key l = true.
Proof. simpl. rewrite andb_true_iff, forallb_forall. tauto. Qed.
Lemma wf_set_unit l : wf (VSet l) = true -> wf (VMap (unit_map l)) = true.
Proof.
  intro W. destruct (wf_set _ W) as [W1 W2]. simpl. rewrite unit_keys, W2, andb_true_r.
  apply forallb_forall. intros [k v] Hi. apply in_unit in Hi as [Hk ->]. simpl. rewrite (W1 k Hk). reflexivity.
Qed.

Lemma set_good la : (forall x, In x la -> good x) -> wf (VSet la) = true -> good (VSet la).
Proof.
  intros GA W.
  assert (WM := wf_set_unit la W). destruct (wf_map _ WM) as [WA PA].
  assert (GA' : forall x, In x (elems (unit_map la)) -> good x).
  { intros x Hx. apply unit_elems in Hx as [Hx| ->]; auto. apply atom_good. reflexivity. }
  assert (GM := map_good (unit_map la) GA' WA PA).
  split.
  - intros y Wy. destruct y as [| | | | | | | | |lb]; try (rewrite !eqd_unfold; reflexivity).
    rewrite !eqd_set_as_map. simpl negb. symmetry. apply (g_fi _ GM). apply wf_set_unit. exact Wy.
  - intros sw y z Wy Wz H1 H2. unfold py_eq in *.
    destruct (eqd_set_inv _ _ _ H1) as [lb ->]. destruct (eqd_set_inv _ _ _ H2) as [lc ->].
    rewrite eqd_set_as_map in *. simpl negb in *.
    assert (WB := wf_set_unit _ Wy). assert (WC := wf_set_unit _ Wz).
    rewrite (g_fi _ GM _ WB) in H1. rewrite (g_fi _ GM _ WC).
    exact (g_t _ GM (negb sw) _ _ WB WC H1 H2).
  - intros sw y z Wy Wz H1 H2. unfold py_eq in *.
    destruct (eqd_set_inv _ _ _ H1) as [lb ->]. destruct (eqd_set_inv _ _ _ H2) as [lc ->].
    rewrite eqd_set_as_map in *. simpl negb in *.
    assert (WB := wf_set_unit _ Wy). assert (WC := wf_set_unit _ Wz).
    rewrite (g_fi _ GM _ WB) in H1. rewrite (g_fi _ GM _ WC) in H2.
    exact (g_e _ GM (negb sw) _ _ WB WC H1 H2).
  - intros y Wy H1. unfold py_eq in H1. destruct (eqd_set_inv _ _ _ H1) as [lb ->].
    rewrite eqd_set_as_map in H1. simpl negb in H1.
    assert (WB := wf_set_unit _ Wy). rewrite (g_fi _ GM _ WB) in H1.
    destruct (wf_map _ WB) as [WB1 PB1].
    (* the members' hashes are the first components of the entries' hash pairs *)
    assert (E : forall l, map hash_of l = map fst (map hpair (unit_map l))).
    { intro l. unfold unit_map. rewrite !map_map. reflexivity. }
    simpl. apply hbag_perm. rewrite !E. apply Permutation_map.
    exact (map_hpairs (unit_map la) GA' WA PA (unit_map lb) WB1 PB1 H1).
Qed.

Theorem wf_good : forall a, wf a = true -> good a.
Proof.
  induction a as [|x|k n|s|ns nm|ns nm|k la IH|la IH|t la IH|la IH] using val_ind'; intro W;
    try (apply atom_good; reflexivity).
  - apply seq_good. apply wf_seq in W. rewrite Forall_forall in *. auto.
  - destruct (wf_map _ W) as [WA PA]. apply map_good; auto.
    apply (Forall_elems (fun x => wf x = true -> good x)) in IH. rewrite Forall_forall in IH. auto.
  - apply rec_good. apply wf_rec in W. rewrite Forall_forall in *. auto.
  - apply set_good; auto. destruct (wf_set _ W) as [W1 _]. rewrite Forall_forall in IH. auto.
Qed.
