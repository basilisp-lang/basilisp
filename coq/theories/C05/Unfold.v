(** C05: induction principle for [val] and the unfolding equations of [eqd]: the protocol
    (method of the left operand, reflected method, subclass priority, length pre-checks)
    collapses, class pair by class pair, to the loops of Model.Schemes. *)
From Coq Require Import List QArith.
Import ListNotations.
From Verif Require Import Common.ListX Gen.Prims C05.Model.

Section ValInd.
  Variable P : val -> Prop.
  Hypothesis Hnil : P VNil.
  Hypothesis Hbool : forall b, P (VBool b).
  Hypothesis Hnum : forall k n, P (VNum k n).
  Hypothesis Hstr : forall s, P (VStr s).
  Hypothesis Hkw : forall ns nm, P (VKw ns nm).
  Hypothesis Hsym : forall ns nm, P (VSym ns nm).
  Hypothesis Hseq : forall k l, Forall P l -> P (VSeq k l).
  Hypothesis Hmap : forall l, Forall (fun kv => P (fst kv) /\ P (snd kv)) l -> P (VMap l).
  Hypothesis Hrec : forall t l, Forall P l -> P (VRec t l).
  Hypothesis Hset : forall l, Forall P l -> P (VSet l).

  Fixpoint val_ind' (v : val) : P v :=
    let fix go (l : list val) : Forall P l :=
      match l with [] => Forall_nil _ | x :: r => Forall_cons _ (val_ind' x) (go r) end in
    let fix gom (l : list (val * val)) : Forall (fun kv => P (fst kv) /\ P (snd kv)) l :=
      match l with
      | [] => Forall_nil _
      | (k, v) :: r => Forall_cons (k, v) (conj (val_ind' k) (val_ind' v)) (gom r)
      end in
    match v with
    | VNil => Hnil
    | VBool b => Hbool b
    | VNum k n => Hnum k n
    | VStr s => Hstr s
    | VKw ns nm => Hkw ns nm
    | VSym ns nm => Hsym ns nm
    | VSeq k l => Hseq k l (go l)
    | VMap l => Hmap l (gom l)
    | VRec t l => Hrec t l (go l)
    | VSet l => Hset l (go l)
    end.
End ValInd.

(** [==] on the non-collection values: exact numeric value (True = 1, False = 0), same text *)
Definition numval (v : val) : option num :=
  match v with VBool b => Some (b2n b) | VNum _ n => Some n | _ => None end.
Definition atom_eq (a b : val) : bool :=
  match a, b with
  | VNil, VNil => true
  | (VBool _ | VNum _ _), (VBool _ | VNum _ _) =>
      match numval a, numval b with Some n, Some m => num_eq n m | _, _ => false end
  | VStr s, VStr t => str_eqb s t
  | VKw ns nm, VKw ns' nm' => name_eqb ns nm ns' nm'
  | VSym ns nm, VSym ns' nm' => name_eqb ns nm ns' nm'
  | _, _ => false
  end.

(** which operand's [__eq__] runs first decides the operand order of the element comparisons *)
Definition flip (sw : bool) (a b : val) : bool :=
  if sw then proper_subclass a b else proper_subclass b a.

Definition ceq_step (rec : bool -> val -> val -> bool) (sw : bool) (a b : val) : bool :=
  match a, b with
  | VSeq _ la, VSeq _ lb => seq_all2 (rec (xorb sw (flip sw a b))) la lb
  | VMap la, VMap lb =>
      Nat.eqb (length la) (length lb)
      && (if sw then map_sub (rec false) la lb else map_sup (rec true) la lb)
  | VRec t la, VRec t' lb => str_eqb t t' && seq_all2 (rec sw) la lb
  | VSet la, VSet lb =>
      Nat.eqb (length la) (length lb)
      && (if sw then set_sup (rec true) la lb else set_sub (rec false) la lb)
  | _, _ => atom_eq a b
  end.

Lemma seq_all2_length f la : forall lb, seq_all2 f la lb = true -> length la = length lb.
Proof.
  induction la as [|x ra IH]; intros [|y rb]; simpl; intro H; try discriminate; auto.
  apply andb_true_iff in H as [_ H]. f_equal; auto.
Qed.

Lemma seq_all2_len_false f la lb : Nat.eqb (length la) (length lb) = false -> seq_all2 f la lb = false.
Proof.
  intro H. destruct (seq_all2 f la lb) eqn:E; [|reflexivity].
  apply seq_all2_length in E. rewrite E, Nat.eqb_refl in H. discriminate.
Qed.

Lemma num_eq_sym a b : num_eq a b = num_eq b a.
Proof.
  destruct a as [x| | |], b as [y| | |]; simpl; auto.
  destruct (Qeq_bool x y) eqn:E1, (Qeq_bool y x) eqn:E2; auto.
  - apply Qeq_bool_iff in E1. symmetry in E1. apply Qeq_bool_iff in E1. congruence.
  - apply Qeq_bool_iff in E2. symmetry in E2. apply Qeq_bool_iff in E2. congruence.
Qed.

Lemma ostr_eqb_sym a b : ostr_eqb a b = ostr_eqb b a.
Proof. destruct a, b; simpl; auto. apply str_eqb_sym. Qed.

Lemma name_eqb_sym ns nm ns' nm' : name_eqb ns nm ns' nm' = name_eqb ns' nm' ns nm.
Proof. unfold name_eqb. rewrite ostr_eqb_sym, str_eqb_sym. reflexivity. Qed.

Lemma eqb_sym_nat a b : Nat.eqb a b = Nat.eqb b a.
Proof. apply Nat.eqb_sym. Qed.

(** Three quarters of the class pairs compute to the same value without splitting the kinds
    (a pre-check against an operand without length is [_ && false]); the others differ by the
    operand order of a symmetric leaf test, or by a length pre-check that answers [false] where
    the element loop would. *)
Lemma eqd_unfold sw a b : eqd sw a b = ceq_step eqd sw a b.
Proof.
  destruct a as [|x|k n|s|ns nm|ns nm|k la|la|t la|la];
  destruct b as [|y|k' n'|s'|ns' nm'|ns' nm'|k' lb|lb|t' lb|lb];
  cbn -[num_eq str_eqb name_eqb seq_all2 map_sub map_sup set_sub set_sup Nat.eqb precheck has_len];
  rewrite ?andb_false_r; try (destruct sw; reflexivity).
  all: destruct sw; try destruct k; try destruct k';
    cbn -[num_eq b2n str_eqb name_eqb seq_all2 map_sub map_sup set_sub set_sup Nat.eqb];
    rewrite ?(Nat.eqb_sym (length lb) (length la)), ?(str_eqb_sym t' t); try reflexivity.
  all: auto using num_eq_sym, str_eqb_sym, name_eqb_sym.
  all: match goal with |- context [Nat.eqb ?p ?q] => destruct (Nat.eqb p q) eqn:E end;
    cbn -[seq_all2]; try reflexivity.
  all: rewrite (seq_all2_len_false _ la lb E); reflexivity.
Qed.
