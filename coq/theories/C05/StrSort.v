(** C05: [ssort] is the insertion sort of Common/Sort.v for Python's string order, whose
    equivalence is equality, so the members of an order-independent hash may be listed in any
    order. *)
From Coq Require Import List Permutation.
From Verif Require Import Common.ListX Common.Order Common.Sort C05.Model.

Definition sle (a b : str) : Prop := str_ltb b a = false.

Lemma sle_refl a : sle a a.
Proof. apply str_ltb_irrefl. Qed.

Lemma sle_total a b : sle a b \/ sle b a.
Proof.
  unfold sle. destruct (str_ltb b a) eqn:E; auto. right. apply str_ltb_asym. exact E.
Qed.

Lemma sinsert_insert x l : sinsert x l = Sort.insert str_ltb x l.
Proof. induction l as [|y r IH]; simpl; [|rewrite IH]; reflexivity. Qed.

Lemma ssort_sort l : ssort l = Sort.sort str_ltb l.
Proof. induction l as [|x r IH]; simpl; [|rewrite sinsert_insert, IH]; reflexivity. Qed.

Theorem ssort_perm_eq l1 l2 : Permutation l1 l2 -> ssort l1 = ssort l2.
Proof.
  intro Hp. rewrite !ssort_sort.
  apply (sort_separated_order_independent _ _ _ str_swo l1 l2 (Forall_True l1)); [|exact Hp].
  intros a b _ _. apply str_eqb_eq.
Qed.

Corollary hbag_perm l1 l2 : Permutation l1 l2 -> hbag l1 = hbag l2.
Proof.
  intro Hp. unfold hbag. rewrite (ssort_perm_eq _ _ Hp), (Permutation_length Hp). reflexivity.
Qed.
