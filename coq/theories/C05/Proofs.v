(** C05: the theorems about [equals] (core [=]), [hash_of] and lookup, derived from
    Good.wf_good. *)
From Coq Require Import List QArith.
Import ListNotations.
From Verif Require Import Common.ListX C05.Model C05.Unfold C05.Lemmas
  C05.Coherence C05.Good.

Definition is_bool (v : val) : bool := match v with VBool _ => true | _ => false end.

Theorem py_eq_sym x y : wf x = true -> wf y = true -> py_eq x y = py_eq y x.
Proof. intros Wx Wy. symmetry. apply good_sym; auto using wf_good. Qed.

Theorem py_eq_trans x y z : wf x = true -> wf y = true -> wf z = true ->
  py_eq x y = true -> py_eq y z = true -> py_eq x z = true.
Proof. intros Wx Wy Wz. apply (g_t x (wf_good x Wx) false y z Wy Wz). Qed.

Theorem py_eq_hash x y : wf x = true -> wf y = true -> py_eq x y = true -> hash_of x = hash_of y.
Proof. intros Wx Wy. apply (g_h x (wf_good x Wx) y Wy). Qed.

(** the two evaluation orders of one comparison agree *)
Theorem eqd_flag x y sw : wf x = true -> wf y = true -> eqd sw x y = py_eq x y.
Proof. intros Wx Wy. apply good_any; auto using wf_good. Qed.

(** runtime.equals: identity on booleans and nil, Python's [==] elsewhere *)
Lemma identical_singleton_eq a b : identical_singleton a b = true -> a = b.
Proof.
  destruct a, b; simpl; try discriminate; auto. intro H. apply eqb_prop in H. congruence.
Qed.
Lemma identical_singleton_sym a b : identical_singleton a b = identical_singleton b a.
Proof. destruct a, b; simpl; auto. destruct b, b0; reflexivity. Qed.
Lemma identical_refl a : is_bool_or_nil a = true -> identical_singleton a a = true.
Proof. destruct a; simpl; try discriminate; auto. intros _. apply eqb_reflx. Qed.

Lemma equals_true x y : equals x y = true ->
  x = y \/ (is_bool_or_nil x = false /\ is_bool_or_nil y = false /\ py_eq x y = true).
Proof.
  unfold equals. destruct (is_bool_or_nil x), (is_bool_or_nil y); simpl; intro H;
    try (left; apply identical_singleton_eq; exact H). right. auto.
Qed.

Theorem equals_sym x y : wf x = true -> wf y = true -> equals x y = equals y x.
Proof.
  intros Wx Wy. unfold equals. rewrite (orb_comm (is_bool_or_nil y)).
  destruct (is_bool_or_nil x || is_bool_or_nil y).
  - apply identical_singleton_sym.
  - apply py_eq_sym; auto.
Qed.

Theorem equals_trans x y z : wf x = true -> wf y = true -> wf z = true ->
  equals x y = true -> equals y z = true -> equals x z = true.
Proof.
  intros Wx Wy Wz H1 H2.
  destruct (equals_true _ _ H1) as [->|[Gx [_ E1]]]; [exact H2|].
  destruct (equals_true _ _ H2) as [<-|[_ [Gz E2]]]; [exact H1|].
  unfold equals. rewrite Gx, Gz. apply (py_eq_trans x y z); auto.
Qed.

Theorem equals_hash x y : wf x = true -> wf y = true -> equals x y = true -> hash_of x = hash_of y.
Proof.
  intros Wx Wy H. destruct (equals_true _ _ H) as [->|[_ [_ E]]]; [reflexivity|]. apply py_eq_hash; auto.
Qed.

(** reflexivity, except for NaN *)
Lemma num_eq_refl n : n <> NaN -> num_eq n n = true.
Proof.
  destruct n; simpl; auto; try congruence. intros _. apply Qeq_bool_iff. apply Qeq_refl.
Qed.

Lemma seq_all2_refl l : Forall (fun x => py_eq x x = true) l -> seq_all2 py_eq l l = true.
Proof. induction 1; simpl; auto. rewrite H, IHForall. reflexivity. Qed.

Theorem py_eq_refl : forall x, wf x = true -> has_nan x = false -> py_eq x x = true.
Proof.
  induction x as [|b|k n|s|ns nm|ns nm|k l IH|l IH|t l IH|l IH] using val_ind'; intros W N.
  - reflexivity.
  - unfold py_eq. rewrite eqd_atom_l by reflexivity. simpl. destruct b; reflexivity.
  - unfold py_eq. rewrite eqd_atom_l by reflexivity. simpl. apply num_eq_refl.
    intro E. subst. discriminate.
  - unfold py_eq. rewrite eqd_atom_l by reflexivity. simpl. apply str_eqb_refl.
  - unfold py_eq. rewrite eqd_atom_l by reflexivity. simpl. apply name_eqb_eq. auto.
  - unfold py_eq. rewrite eqd_atom_l by reflexivity. simpl. apply name_eqb_eq. auto.
  - assert (Wl := wf_seq _ _ W). unfold py_eq. rewrite eqd_seq.
    rewrite seq_norm; auto.
    + apply seq_all2_refl. simpl in N. rewrite Forall_forall in *. intros x Hx.
      apply IH; auto. apply (existsb_false _ _ N x Hx).
    + rewrite Forall_forall in *. intros; apply wf_good; auto.
  - destruct (wf_map _ W) as [WA PA].
    assert (GA : forall x, In x (elems l) -> good x) by (intros; apply wf_good; auto).
    apply (map_eq_iff l GA WA PA false l WA PA). split; auto.
    intros kb vb Hi. exists kb, vb. split; auto.
    simpl in N. apply (existsb_false _ _ N) in Hi as Hn. simpl in Hn. apply orb_false_iff in Hn as [Nk Nv].
    rewrite Forall_forall in IH. destruct (IH _ Hi) as [IHk IHv]. simpl in *.
    split.
    + apply km_of; [apply heq_refl|]. apply IHk; auto. apply WA. eapply in_elems_k; eauto.
    + apply IHv; auto. apply WA. eapply in_elems_v; eauto.
  - assert (Wl := wf_rec _ _ W). unfold py_eq. rewrite eqd_rec, str_eqb_refl. simpl.
    rewrite seq_norm; auto.
    + apply seq_all2_refl. simpl in N. rewrite Forall_forall in *. intros x Hx.
      apply IH; auto. apply (existsb_false _ _ N x Hx).
    + rewrite Forall_forall in *. intros; apply wf_good; auto.
  - assert (WM := wf_set_unit _ W). destruct (wf_map _ WM) as [WA PA].
    assert (GA : forall x, In x (elems (unit_map l)) -> good x) by (intros; apply wf_good; auto).
    unfold py_eq. rewrite eqd_set_as_map. simpl negb.
    apply (map_eq_iff (unit_map l) GA WA PA true (unit_map l) WA PA). split; auto.
    intros kb vb Hi. exists kb, vb. split; auto. apply in_unit in Hi as [Hk ->].
    destruct (wf_set _ W) as [W1 _]. rewrite Forall_forall in IH. simpl in N.
    split; [|reflexivity]. apply km_of; [apply heq_refl|]. apply IH; auto.
    apply (existsb_false _ _ N _ Hk).
Qed.

Theorem equals_refl x : wf x = true -> has_nan x = false -> equals x x = true.
Proof.
  intros W N. unfold equals. rewrite orb_diag. destruct (is_bool_or_nil x) eqn:G.
  - apply identical_refl. exact G.
  - apply py_eq_refl; auto.
Qed.

(** sequential collections: equal iff pairwise equal, in order *)
Theorem seq_eq_iff k la k' lb : wf (VSeq k la) = true -> wf (VSeq k' lb) = true ->
  (equals (VSeq k la) (VSeq k' lb) = true <-> Forall2 (fun x y => py_eq x y = true) la lb).
Proof.
  intros Wa Wb. unfold equals. simpl orb. cbv iota. unfold py_eq at 1. rewrite eqd_seq.
  rewrite seq_norm.
  - apply seq_all2_Forall2.
  - apply wf_seq in Wa. rewrite Forall_forall in *. intros; apply wf_good; auto.
  - apply (wf_seq _ _ Wb).
Qed.

Lemma equals_py_eq x y : is_bool x = false -> is_bool y = false -> equals x y = py_eq x y.
Proof.
  intros Bx By. unfold equals, py_eq.
  destruct (is_bool_or_nil x) eqn:Gx.
  - destruct x; try discriminate. rewrite eqd_atom_l by reflexivity. destruct y; reflexivity.
  - destruct (is_bool_or_nil y) eqn:Gy; simpl; [|reflexivity].
    destruct y; try discriminate. rewrite eqd_atom_r by reflexivity.
    destruct x; try discriminate; reflexivity.
Qed.

(** maps and sets: equal iff same size and every entry (member) has an equal one *)
Theorem map_eq_iff_entries la lb : wf (VMap la) = true -> wf (VMap lb) = true ->
  (equals (VMap la) (VMap lb) = true <->
   length la = length lb /\
   forall ka va, In (ka, va) la -> exists kb vb, In (kb, vb) lb /\ py_eq ka kb = true /\ py_eq va vb = true).
Proof.
  intros Wa Wb. destruct (wf_map _ Wa) as [WA PA]. destruct (wf_map _ Wb) as [WB PB].
  assert (GA : forall x, In x (elems la) -> good x) by (intros; apply wf_good; auto).
  unfold equals. simpl orb. cbv iota. unfold py_eq at 1.
  rewrite (map_eq_iff la GA WA PA false lb WB PB).
  split; intros [L H]; split; auto.
  - apply (fwd_bwd la GA WA PA lb WB PB L) in H.
    intros ka va Hi. destruct (H ka va Hi) as [kb [vb [Hb [Hk Hv]]]]. exists kb, vb.
    unfold km in Hk. apply andb_true_iff in Hk. tauto.
  - apply (fwd_bwd la GA WA PA lb WB PB L).
    intros ka va Hi. destruct (H ka va Hi) as [kb [vb [Hb [Hk Hv]]]]. exists kb, vb.
    split; auto. split; auto.
    rewrite good_km; auto. + apply GA. eapply in_elems_k; eauto. + apply WB. eapply in_elems_k; eauto.
Qed.

Theorem set_eq_iff_members la lb : wf (VSet la) = true -> wf (VSet lb) = true ->
  (equals (VSet la) (VSet lb) = true <->
   length la = length lb /\ forall x, In x la -> exists y, In y lb /\ py_eq x y = true).
Proof.
  intros Wa Wb.
  assert (WMa := wf_set_unit _ Wa). assert (WMb := wf_set_unit _ Wb).
  assert (H := map_eq_iff_entries _ _ WMa WMb).
  unfold equals in *. simpl orb in *. cbv iota in *. unfold py_eq at 1.
  rewrite eqd_set_as_map. simpl negb. rewrite (eqd_flag _ _ true WMa WMb). rewrite H.
  rewrite !unit_length. split; intros [L F]; split; auto.
  - intros x Hx. destruct (F x VNil (unit_in _ _ Hx)) as [kb [vb [Hb [Hk _]]]].
    apply in_unit in Hb as [Hb _]. eauto.
  - intros ka va Hi. apply in_unit in Hi as [Hi ->]. destruct (F ka Hi) as [y [Hy E]].
    exists y, VNil. split; [apply unit_in; auto|]. auto.
Qed.

(** lookup: equal values find the same entries *)
Lemma key_match_congr x y k : wf x = true -> wf y = true -> wf k = true ->
  equals x y = true -> key_match x k = key_match y k.
Proof.
  intros Wx Wy Wk H. destruct (equals_true _ _ H) as [->|[_ [_ E]]]; [reflexivity|].
  unfold key_match, heq. rewrite (py_eq_hash x y Wx Wy E). f_equal.
  apply eq_true_iff_eq. split; intro H'.
  - apply (py_eq_trans y x k); auto. rewrite py_eq_sym; auto.
  - apply (py_eq_trans x y k); auto.
Qed.

Theorem lookup_interchangeable m x y :
  (forall k v, In (k, v) m -> wf k = true) -> wf x = true -> wf y = true ->
  equals x y = true -> lookup m x = lookup m y.
Proof.
  intros Wm Wx Wy E. induction m as [|[k v] r IH]; simpl; auto.
  rewrite (key_match_congr x y k); auto.
  - rewrite IH; auto. intros; eapply Wm; simpl; eauto.
  - eapply Wm; simpl; eauto.
Qed.

Theorem contains_interchangeable s x y :
  (forall k, In k s -> wf k = true) -> wf x = true -> wf y = true ->
  equals x y = true -> contains s x = contains s y.
Proof.
  intros Ws Wx Wy E. unfold contains. apply existsb_ext_in. intros k Hk.
  apply key_match_congr; auto.
Qed.

(** a key is found with any equal probe, and only with a probe that is [==] *)
Theorem lookup_finds k v x : wf k = true -> wf x = true -> is_bool k = false -> is_bool x = false ->
  (lookup [(k, v)] x = Some v <-> equals x k = true).
Proof.
  intros Wk Wx Bk Bx. simpl. rewrite (equals_py_eq x k Bx Bk). unfold key_match.
  destruct (py_eq x k) eqn:E.
  - rewrite (proj2 (heq_eq x k) (py_eq_hash x k Wx Wk E)). simpl. tauto.
  - rewrite andb_false_r. split; discriminate.
Qed.

Theorem bool_not_number b k n : equals (VBool b) (VNum k n) = false /\ equals (VNum k n) (VBool b) = false.
Proof. split; reflexivity. Qed.
Theorem bool_only_itself b y : equals (VBool b) y = true <-> y = VBool b.
Proof.
  unfold equals. simpl. destruct y; simpl; split; try discriminate; try congruence.
  - intro H. apply eqb_prop in H. congruence.
  - intro H. inversion H. apply eqb_reflx.
Qed.
Theorem nil_only_itself y : equals VNil y = true <-> y = VNil.
Proof. unfold equals. simpl. destruct y; simpl; split; try discriminate; auto. Qed.

Theorem nan_never_equal k y : equals (VNum k NaN) y = false /\ equals y (VNum k NaN) = false.
Proof.
  unfold equals, py_eq. simpl is_bool_or_nil. split.
  - destruct (is_bool_or_nil y) eqn:G; simpl orb; cbv iota.
    + destruct y; try discriminate; reflexivity.
    + rewrite eqd_atom_l by reflexivity. destruct y; try reflexivity; discriminate.
  - rewrite orb_false_r. destruct (is_bool_or_nil y) eqn:G.
    + destruct y; try discriminate; reflexivity.
    + rewrite eqd_atom_r by reflexivity. destruct y; try reflexivity; try discriminate.
      simpl. destruct n; reflexivity.
Qed.

(** every sequential type hashes alike (F-05a repaired; breaks if a family changes) *)
Theorem seq_hash_kind_independent k k' l : hash_of (VSeq k l) = hash_of (VSeq k' l).
Proof. simpl. rewrite !family_ok. reflexivity. Qed.
