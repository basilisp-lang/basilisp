(** C05: what the regenerated tables (Gen/Tables.v, harness/tr/tr_equality.py) must be for
    the model of Model.v to be the model of the source. *)
From Coq Require Import List NArith.
Import ListNotations.
From Verif Require Import Common.ListX Gen.Tables.

(** the classes of interfaces.py, keyword.py, list.py, map.py, queue.py, set.py, symbol.py,
    vector.py that define their own __eq__ / __hash__ (all of them are modelled; the
    transient collections compare by identity) *)
Definition expected_eq_hash_classes : list str := [
  [105%N; 110%N; 116%N; 101%N; 114%N; 102%N; 97%N; 99%N; 101%N; 115%N; 46%N; 112%N; 121%N; 58%N; 73%N; 83%N; 101%N; 113%N; 46%N; 95%N; 95%N; 101%N; 113%N; 95%N; 95%N] (* interfaces.py:ISeq.__eq__ *);
  [105%N; 110%N; 116%N; 101%N; 114%N; 102%N; 97%N; 99%N; 101%N; 115%N; 46%N; 112%N; 121%N; 58%N; 73%N; 83%N; 101%N; 113%N; 46%N; 95%N; 95%N; 104%N; 97%N; 115%N; 104%N; 95%N; 95%N] (* interfaces.py:ISeq.__hash__ *);
  [107%N; 101%N; 121%N; 119%N; 111%N; 114%N; 100%N; 46%N; 112%N; 121%N; 58%N; 75%N; 101%N; 121%N; 119%N; 111%N; 114%N; 100%N; 46%N; 95%N; 95%N; 101%N; 113%N; 95%N; 95%N] (* keyword.py:Keyword.__eq__ *);
  [107%N; 101%N; 121%N; 119%N; 111%N; 114%N; 100%N; 46%N; 112%N; 121%N; 58%N; 75%N; 101%N; 121%N; 119%N; 111%N; 114%N; 100%N; 46%N; 95%N; 95%N; 104%N; 97%N; 115%N; 104%N; 95%N; 95%N] (* keyword.py:Keyword.__hash__ *);
  [108%N; 105%N; 115%N; 116%N; 46%N; 112%N; 121%N; 58%N; 80%N; 101%N; 114%N; 115%N; 105%N; 115%N; 116%N; 101%N; 110%N; 116%N; 76%N; 105%N; 115%N; 116%N; 46%N; 95%N; 95%N; 104%N; 97%N; 115%N; 104%N; 95%N; 95%N] (* list.py:PersistentList.__hash__ *);
  [109%N; 97%N; 112%N; 46%N; 112%N; 121%N; 58%N; 80%N; 101%N; 114%N; 115%N; 105%N; 115%N; 116%N; 101%N; 110%N; 116%N; 77%N; 97%N; 112%N; 46%N; 95%N; 95%N; 101%N; 113%N; 95%N; 95%N] (* map.py:PersistentMap.__eq__ *);
  [109%N; 97%N; 112%N; 46%N; 112%N; 121%N; 58%N; 80%N; 101%N; 114%N; 115%N; 105%N; 115%N; 116%N; 101%N; 110%N; 116%N; 77%N; 97%N; 112%N; 46%N; 95%N; 95%N; 104%N; 97%N; 115%N; 104%N; 95%N; 95%N] (* map.py:PersistentMap.__hash__ *);
  [109%N; 97%N; 112%N; 46%N; 112%N; 121%N; 58%N; 84%N; 114%N; 97%N; 110%N; 115%N; 105%N; 101%N; 110%N; 116%N; 77%N; 97%N; 112%N; 46%N; 95%N; 95%N; 101%N; 113%N; 95%N; 95%N] (* map.py:TransientMap.__eq__ *);
  [113%N; 117%N; 101%N; 117%N; 101%N; 46%N; 112%N; 121%N; 58%N; 80%N; 101%N; 114%N; 115%N; 105%N; 115%N; 116%N; 101%N; 110%N; 116%N; 81%N; 117%N; 101%N; 117%N; 101%N; 46%N; 95%N; 95%N; 101%N; 113%N; 95%N; 95%N] (* queue.py:PersistentQueue.__eq__ *);
  [113%N; 117%N; 101%N; 117%N; 101%N; 46%N; 112%N; 121%N; 58%N; 80%N; 101%N; 114%N; 115%N; 105%N; 115%N; 116%N; 101%N; 110%N; 116%N; 81%N; 117%N; 101%N; 117%N; 101%N; 46%N; 95%N; 95%N; 104%N; 97%N; 115%N; 104%N; 95%N; 95%N] (* queue.py:PersistentQueue.__hash__ *);
  [115%N; 101%N; 116%N; 46%N; 112%N; 121%N; 58%N; 80%N; 101%N; 114%N; 115%N; 105%N; 115%N; 116%N; 101%N; 110%N; 116%N; 83%N; 101%N; 116%N; 46%N; 95%N; 95%N; 101%N; 113%N; 95%N; 95%N] (* set.py:PersistentSet.__eq__ *);
  [115%N; 101%N; 116%N; 46%N; 112%N; 121%N; 58%N; 80%N; 101%N; 114%N; 115%N; 105%N; 115%N; 116%N; 101%N; 110%N; 116%N; 83%N; 101%N; 116%N; 46%N; 95%N; 95%N; 104%N; 97%N; 115%N; 104%N; 95%N; 95%N] (* set.py:PersistentSet.__hash__ *);
  [115%N; 101%N; 116%N; 46%N; 112%N; 121%N; 58%N; 84%N; 114%N; 97%N; 110%N; 115%N; 105%N; 101%N; 110%N; 116%N; 83%N; 101%N; 116%N; 46%N; 95%N; 95%N; 101%N; 113%N; 95%N; 95%N] (* set.py:TransientSet.__eq__ *);
  [115%N; 121%N; 109%N; 98%N; 111%N; 108%N; 46%N; 112%N; 121%N; 58%N; 83%N; 121%N; 109%N; 98%N; 111%N; 108%N; 46%N; 95%N; 95%N; 101%N; 113%N; 95%N; 95%N] (* symbol.py:Symbol.__eq__ *);
  [115%N; 121%N; 109%N; 98%N; 111%N; 108%N; 46%N; 112%N; 121%N; 58%N; 83%N; 121%N; 109%N; 98%N; 111%N; 108%N; 46%N; 95%N; 95%N; 104%N; 97%N; 115%N; 104%N; 95%N; 95%N] (* symbol.py:Symbol.__hash__ *);
  [118%N; 101%N; 99%N; 116%N; 111%N; 114%N; 46%N; 112%N; 121%N; 58%N; 80%N; 101%N; 114%N; 115%N; 105%N; 115%N; 116%N; 101%N; 110%N; 116%N; 86%N; 101%N; 99%N; 116%N; 111%N; 114%N; 46%N; 95%N; 95%N; 101%N; 113%N; 95%N; 95%N] (* vector.py:PersistentVector.__eq__ *);
  [118%N; 101%N; 99%N; 116%N; 111%N; 114%N; 46%N; 112%N; 121%N; 58%N; 80%N; 101%N; 114%N; 115%N; 105%N; 115%N; 116%N; 101%N; 110%N; 116%N; 86%N; 101%N; 99%N; 116%N; 111%N; 114%N; 46%N; 95%N; 95%N; 104%N; 97%N; 115%N; 104%N; 95%N; 95%N] (* vector.py:PersistentVector.__hash__ *);
  [118%N; 101%N; 99%N; 116%N; 111%N; 114%N; 46%N; 112%N; 121%N; 58%N; 84%N; 114%N; 97%N; 110%N; 115%N; 105%N; 101%N; 110%N; 116%N; 86%N; 101%N; 99%N; 116%N; 111%N; 114%N; 46%N; 95%N; 95%N; 101%N; 113%N; 95%N; 95%N] (* vector.py:TransientVector.__eq__ *)
].

Definition hash_families : list N :=
  [c05_vec_hash_family; c05_list_hash_family; c05_queue_hash_family; c05_iseq_hash_family].
Definition eq_shapes : list N :=
  [c05_seq_equals_shape; c05_iseq_eq_shape; c05_vec_eq_shape; c05_queue_eq_shape; c05_map_eq_shape;
   c05_set_eq_shape; c05_kw_eq_shape; c05_sym_eq_shape; c05_equals_shape; c05_core_eq_shape;
   c05_record_eq_shape].

Lemma eq_hash_classes_ok : c05_eq_hash_classes = expected_eq_hash_classes.
Proof. reflexivity. Qed.
Lemma hash_families_ok : forallb (N.eqb 1) hash_families = true.
Proof. reflexivity. Qed.
Lemma eq_shapes_ok : forallb (N.eqb 1) eq_shapes = true.
Proof. reflexivity. Qed.
