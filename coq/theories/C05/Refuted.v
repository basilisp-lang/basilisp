(** C05: where the code violates the property (F-05b: inside collections elements and keys
    are compared with Python's [==], for which True == 1 and False == 0; runtime.equals keeps
    booleans apart at the top level only), the restrictions under which the clauses do hold,
    and agreement of the model with the reference equality on values without booleans. *)
From Coq Require Import List QArith.
Import ListNotations.
From Verif Require Import C05.Model C05.Spec C05.Unfold C05.Lemmas
  C05.Good C05.Proofs.

Definition one := VNum KInt (Fin 1).
Definition kw_a := VKw None [97%N].

(** refutations (witnesses are re-run on the implementation by the check) *)
Theorem nested_bool_refuted :
  exists x y, wf x = true /\ wf y = true /\ equals x y = true /\ ref_eq x y = false.
Proof. exists (VSeq KVec [one]), (VSeq KVec [VBool true]). vm_compute. auto. Qed.

Theorem nested_bool_map_refuted :
  exists x y, wf x = true /\ wf y = true /\ equals x y = true /\ ref_eq x y = false.
Proof. exists (VMap [(kw_a, one)]), (VMap [(kw_a, VBool true)]). vm_compute. auto. Qed.

Theorem nested_bool_set_refuted :
  exists x y, wf x = true /\ wf y = true /\ equals x y = true /\ ref_eq x y = false.
Proof. exists (VSet [one]), (VSet [VBool true]). vm_compute. auto. Qed.

Theorem seq_eq_iff_pointwise_refuted :
  exists la lb, equals (VSeq KVec la) (VSeq KList lb) = true /\
                ~ Forall2 (fun x y => equals x y = true) la lb.
Proof.
  exists [one], [VBool true]. split; [vm_compute; reflexivity|].
  intro H. inversion H; subst. discriminate.
Qed.

Theorem map_eq_iff_entries_refuted :
  exists la lb, equals (VMap la) (VMap lb) = true /\
    ~ (forall ka va, In (ka, va) la -> exists kb vb, In (kb, vb) lb /\ equals ka kb = true /\ equals va vb = true).
Proof.
  exists [(kw_a, one)], [(kw_a, VBool true)]. split; [vm_compute; reflexivity|].
  intro H. destruct (H kw_a one (or_introl eq_refl)) as [kb [vb [[E|[]] [_ Hv]]]].
  inversion E; subst. discriminate.
Qed.

(** a boolean key is found with the number 1 as probe although [(= 1 true)] is false *)
Theorem lookup_bool_refuted :
  exists k x v, equals x k = false /\ lookup [(k, v)] x = Some v /\ contains [k] x = true.
Proof. exists one, (VBool true), kw_a. vm_compute. auto. Qed.

Definition no_bool_elems (l : list val) : bool := forallb (fun x => negb (is_bool x)) l.

Lemma no_bool_In l x : no_bool_elems l = true -> In x l -> is_bool x = false.
Proof. unfold no_bool_elems. rewrite forallb_forall. intros H Hx. apply negb_true_iff. auto. Qed.

Lemma partner_ext (f g : val -> val -> bool) la lb :
  (forall x y, In x (elems la) -> In y (elems lb) -> f x y = g x y) ->
  (forall ka va, In (ka, va) la -> exists kb vb, In (kb, vb) lb /\ f ka kb = true /\ f va vb = true) <->
  (forall ka va, In (ka, va) la -> exists kb vb, In (kb, vb) lb /\ g ka kb = true /\ g va vb = true).
Proof.
  intro E. split; intros H ka va Hi; destruct (H ka va Hi) as [kb [vb [Hb [Hk Hv]]]]; exists kb, vb;
    (split; [exact Hb|]); [rewrite <- !E|rewrite !E]; eauto using in_elems_k, in_elems_v.
Qed.
Lemma member_ext (f g : val -> val -> bool) la lb :
  (forall x y, In x la -> In y lb -> f x y = g x y) ->
  (forall x, In x la -> exists y, In y lb /\ f x y = true) <->
  (forall x, In x la -> exists y, In y lb /\ g x y = true).
Proof.
  intro E. split; intros H x Hx; destruct (H x Hx) as [y [Hy Hf]]; exists y;
    (split; [exact Hy|]); [rewrite <- E|rewrite E]; auto.
Qed.

Theorem seq_eq_iff_pointwise_partial k la k' lb :
  wf (VSeq k la) = true -> wf (VSeq k' lb) = true ->
  no_bool_elems la = true -> no_bool_elems lb = true ->
  (equals (VSeq k la) (VSeq k' lb) = true <-> Forall2 (fun x y => equals x y = true) la lb).
Proof.
  intros Wa Wb Na Nb. rewrite (seq_eq_iff k la k' lb Wa Wb). apply Forall2_ext_in.
  intros x y Hx Hy. rewrite (equals_py_eq x y (no_bool_In la x Na Hx) (no_bool_In lb y Nb Hy)). reflexivity.
Qed.

Theorem map_eq_iff_entries_partial la lb :
  wf (VMap la) = true -> wf (VMap lb) = true ->
  no_bool_elems (elems la) = true -> no_bool_elems (elems lb) = true ->
  (equals (VMap la) (VMap lb) = true <->
   length la = length lb /\
   forall ka va, In (ka, va) la -> exists kb vb, In (kb, vb) lb /\ equals ka kb = true /\ equals va vb = true).
Proof.
  intros Wa Wb Na Nb. rewrite (map_eq_iff_entries la lb Wa Wb). apply and_iff_compat_l, partner_ext.
  intros x y Hx Hy. symmetry. exact (equals_py_eq x y (no_bool_In _ x Na Hx) (no_bool_In _ y Nb Hy)).
Qed.

(** the model is the reference equality on values that contain no boolean *)
Lemma entries_sub_iff f la lb :
  entries_sub f la lb = true <->
  (forall ka va, In (ka, va) la -> exists kb vb, In (kb, vb) lb /\ f ka kb = true /\ f va vb = true).
Proof.
  induction la as [|[ka va] r IH]; simpl.
  - split; auto. intros _ ? ? [].
  - rewrite andb_true_iff, IH. unfold entry_in. rewrite existsb_exists. split.
    + intros [[[kb vb] [Hb E]] H] k v [Eq|Hi]; auto. inversion Eq; subst.
      simpl in E. apply andb_true_iff in E. exists kb, vb. tauto.
    + intro H. split; [|intros; apply H; auto].
      destruct (H ka va (or_introl eq_refl)) as [kb [vb [Hb [E1 E2]]]].
      exists (kb, vb). simpl. rewrite E1, E2. auto.
Qed.
Lemma members_sub_iff f la lb :
  members_sub f la lb = true <-> (forall x, In x la -> exists y, In y lb /\ f x y = true).
Proof.
  induction la as [|x r IH]; simpl.
  - split; auto. intros _ ? [].
  - rewrite andb_true_iff, IH. unfold member. rewrite existsb_exists. split.
    + intros [[y Hy] H] x' [<-|Hx]; eauto.
    + intro H. split; [apply H; auto|intros; apply H; auto].
Qed.

(** well-formed, no boolean anywhere *)
Definition plain (x : val) : Prop := wf x = true /\ has_bool x = false.
Definition agrees (x : val) : Prop := plain x -> forall y, plain y -> py_eq x y = ref_eq x y.

Lemma plain_list l : (forall x, In x l -> wf x = true) -> existsb has_bool l = false ->
  forall x, In x l -> plain x.
Proof. intros W B x Hx. split; [apply W, Hx|apply (existsb_false _ _ B x Hx)]. Qed.
Lemma plain_seq k l : plain (VSeq k l) -> forall x, In x l -> plain x.
Proof. intros [W B]. apply plain_list; [apply Forall_forall, (wf_seq _ _ W)|exact B]. Qed.
Lemma plain_rec t l : plain (VRec t l) -> forall x, In x l -> plain x.
Proof. intros [W B]. apply plain_list; [apply Forall_forall, (wf_rec _ _ W)|exact B]. Qed.
Lemma plain_set l : plain (VSet l) -> forall x, In x l -> plain x.
Proof. intros [W B]. apply plain_list; [apply (wf_set _ W)|exact B]. Qed.
Lemma plain_map l : plain (VMap l) -> forall x, In x (elems l) -> plain x.
Proof.
  intros [W B] x Hx. split; [apply (wf_map _ W), Hx|].
  apply in_flat_map in Hx as [[k v] [Hi Hx]]. apply (existsb_false _ _ B) in Hi.
  apply orb_false_iff in Hi as [Bk Bv]. destruct Hx as [<-|[<-|[]]]; assumption.
Qed.

Lemma seq_agrees s la lb : Forall agrees la -> (forall x, In x la -> plain x) -> (forall y, In y lb -> plain y) ->
  seq_all2 (eqd s) la lb = all2 ref_eq la lb.
Proof.
  intros IH Pa Pb. rewrite seq_norm.
  - (* [Spec.all2] and [Model.seq_all2] are the same function *)
    apply (seq_all2_ext py_eq ref_eq la lb). intros x y Hx Hy. rewrite Forall_forall in IH. apply IH; auto.
  - apply Forall_forall. intros x Hx. apply wf_good, Pa, Hx.
  - apply Forall_forall. intros y Hy. apply Pb, Hy.
Qed.

Theorem py_eq_is_ref_eq : forall x, agrees x.
Proof.
  induction x as [|b|k n|s|ns nm|ns nm|k la IH|la IH|t la IH|la IH] using val_ind';
    intros P y Py; try (destruct P; discriminate);
    try (unfold py_eq; rewrite eqd_atom_l by reflexivity; destruct y; try (destruct Py; discriminate); reflexivity).
  - destruct y as [| | | | | |k' lb| | |]; try (unfold py_eq; rewrite eqd_unfold; reflexivity).
    unfold py_eq. rewrite eqd_seq. apply (seq_agrees _ la lb IH (plain_seq _ _ P) (plain_seq _ _ Py)).
  - destruct y as [| | | | | | |lb| |]; try (unfold py_eq; rewrite eqd_unfold; reflexivity).
    apply eq_true_iff_eq. change (py_eq (VMap la) (VMap lb)) with (equals (VMap la) (VMap lb)).
    rewrite (map_eq_iff_entries la lb (proj1 P) (proj1 Py)). simpl ref_eq.
    rewrite andb_true_iff, Nat.eqb_eq, entries_sub_iff. apply and_iff_compat_l, partner_ext.
    apply (Forall_elems agrees) in IH. rewrite Forall_forall in IH.
    intros x y Hx Hy. apply (IH x Hx (plain_map la P x Hx) y (plain_map lb Py y Hy)).
  - destruct y as [| | | | | | | |t' lb|]; try (unfold py_eq; rewrite eqd_unfold; reflexivity).
    unfold py_eq. rewrite eqd_rec. simpl ref_eq. f_equal.
    apply (seq_agrees _ la lb IH (plain_rec _ _ P) (plain_rec _ _ Py)).
  - destruct y as [| | | | | | | | |lb]; try (unfold py_eq; rewrite eqd_unfold; reflexivity).
    apply eq_true_iff_eq. change (py_eq (VSet la) (VSet lb)) with (equals (VSet la) (VSet lb)).
    rewrite (set_eq_iff_members la lb (proj1 P) (proj1 Py)). simpl ref_eq.
    rewrite andb_true_iff, Nat.eqb_eq, members_sub_iff. apply and_iff_compat_l, member_ext.
    rewrite Forall_forall in IH.
    intros x y Hx Hy. apply (IH x Hx (plain_set la P x Hx) y (plain_set lb Py y Hy)).
Qed.

Theorem agrees_with_reference_partial x y :
  wf x = true -> wf y = true -> has_bool x = false -> has_bool y = false -> equals x y = ref_eq x y.
Proof.
  intros Wx Wy Bx By. rewrite equals_py_eq.
  - apply py_eq_is_ref_eq; split; auto.
  - destruct x; try discriminate; reflexivity.
  - destruct y; try discriminate; reflexivity.
Qed.

(** non-vacuity: premises of the theorems are met by non-trivial values *)
Definition two := VNum KInt (Fin 2).
Example ex_values :
  let v := VSeq KVec [one; two] in
  let l := VSeq KLazy [VNum KFloat (Fin 1); VNum KDec (Fin (4 # 2))] in
  let q := VSeq KQueue [VNum KRatio (Fin (2 # 2)); two] in
  wf v = true /\ wf l = true /\ wf q = true /\
  equals v l = true /\ equals l q = true /\ equals v q = true /\ equals q v = true /\
  hash_of v = hash_of l /\ hash_of l = hash_of q /\
  lookup [(v, kw_a)] q = Some kw_a /\ contains [VMap [(l, VSet [one])]] (VMap [(q, VSet [VNum KFloat (Fin 1)])]) = true.
Proof. vm_compute. repeat split; reflexivity. Qed.
