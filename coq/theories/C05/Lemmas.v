(** C05: per-class equations of [eqd]; each loop of Model.Schemes over the second operand is
    the loop over the first with operands and element comparison flipped, so the loop lemmas
    are proved for one of each pair; a total, injective matching between two lists of the same
    length is a bijection. *)
From Coq Require Import List QArith Lia Permutation.
Import ListNotations.
From Verif Require Import Common.ListX C05.Model C05.Unfold.

Lemma existsb_ext_in {A} (p q : A -> bool) l : (forall x, In x l -> p x = q x) -> existsb p l = existsb q l.
Proof.
  induction l as [|x r IH]; simpl; intro H; auto.
  rewrite H by auto. f_equal. apply IH. auto.
Qed.
Lemma existsb_false {A} (p : A -> bool) l : existsb p l = false -> forall x, In x l -> p x = false.
Proof.
  intros H x Hx. destruct (p x) eqn:E; auto.
  assert (existsb p l = true) by (apply existsb_exists; eauto). congruence.
Qed.
Lemma fop_impl {A} (P Q : A -> A -> Prop) l :
  (forall x y, P x y -> Q x y) -> ForallOrdPairs P l -> ForallOrdPairs Q l.
Proof.
  intros H F. induction F as [|x t Fx _ IH]; constructor; auto.
  eapply Forall_impl; [|exact Fx]. auto.
Qed.
Lemma Forall2_In_r {A B} (R : A -> B -> Prop) la lb :
  Forall2 R la lb -> forall y, In y lb -> exists x, In x la /\ R x y.
Proof.
  induction 1 as [|x y' ra rb Hr _ IH]; intros y Hy; [destruct Hy|].
  destruct Hy as [<-|Hy]; [exists x; simpl; auto|].
  destruct (IH y Hy) as [x' [Hx' Hr']]. exists x'. simpl; auto.
Qed.
Lemma Forall2_map_eq {A B C} (f : A -> C) (g : B -> C) (R : A -> B -> Prop) la lb :
  (forall a b, In a la -> In b lb -> R a b -> f a = g b) -> Forall2 R la lb -> map f la = map g lb.
Proof.
  intros H F. induction F as [|a b ra rb Hr _ IH]; [reflexivity|]. simpl. f_equal.
  - apply H; simpl; auto.
  - apply IH. intros; apply H; simpl; auto.
Qed.
Lemma Forall2_ext_in {A B} (R R' : A -> B -> Prop) la lb :
  (forall x y, In x la -> In y lb -> (R x y <-> R' x y)) -> (Forall2 R la lb <-> Forall2 R' la lb).
Proof.
  intro E. split; intro H; induction H as [|x y ra rb Hr _ IH]; constructor;
    try (apply E; simpl; auto); apply IH; intros; apply E; simpl; auto.
Qed.

Lemma eqd_seq sw k la k' lb :
  eqd sw (VSeq k la) (VSeq k' lb)
  = seq_all2 (eqd (xorb sw (flip sw (VSeq k la) (VSeq k' lb)))) la lb.
Proof. rewrite eqd_unfold. reflexivity. Qed.
Lemma eqd_map sw la lb :
  eqd sw (VMap la) (VMap lb)
  = Nat.eqb (length la) (length lb) && (if sw then map_sub (eqd false) la lb else map_sup (eqd true) la lb).
Proof. rewrite eqd_unfold. reflexivity. Qed.
Lemma eqd_rec sw t la t' lb :
  eqd sw (VRec t la) (VRec t' lb) = str_eqb t t' && seq_all2 (eqd sw) la lb.
Proof. rewrite eqd_unfold. reflexivity. Qed.
Lemma eqd_set sw la lb :
  eqd sw (VSet la) (VSet lb)
  = Nat.eqb (length la) (length lb) && (if sw then set_sup (eqd true) la lb else set_sub (eqd false) la lb).
Proof. rewrite eqd_unfold. reflexivity. Qed.

Definition is_coll (v : val) : bool :=
  match v with VSeq _ _ | VMap _ | VRec _ _ | VSet _ => true | _ => false end.

Lemma eqd_atom_l sw a b : is_coll a = false -> eqd sw a b = atom_eq a b.
Proof. intro H. rewrite eqd_unfold. destruct a; try discriminate; destruct b; reflexivity. Qed.
Lemma eqd_atom_r sw a b : is_coll b = false -> eqd sw a b = atom_eq a b.
Proof. intro H. rewrite eqd_unfold. destruct b; try discriminate; destruct a; reflexivity. Qed.

Definition cls (v : val) : nat :=
  match v with VSeq _ _ => 1 | VMap _ => 2 | VRec _ _ => 3 | VSet _ => 4 | _ => 0 end.
Lemma eqd_cls sw a b : cls a <> cls b -> eqd sw a b = false.
Proof.
  intro H. rewrite eqd_unfold. destruct a, b; try reflexivity; exfalso; apply H; reflexivity.
Qed.

Lemma eqd_seq_inv sw k la b : eqd sw (VSeq k la) b = true -> exists k' lb, b = VSeq k' lb.
Proof. rewrite eqd_unfold. destruct b; simpl; try discriminate. eauto. Qed.
Lemma eqd_map_inv sw la b : eqd sw (VMap la) b = true -> exists lb, b = VMap lb.
Proof. rewrite eqd_unfold. destruct b; simpl; try discriminate. eauto. Qed.
Lemma eqd_rec_inv sw t la b : eqd sw (VRec t la) b = true -> exists lb, b = VRec t lb.
Proof.
  rewrite eqd_unfold. destruct b; simpl; try discriminate. intro H.
  apply andb_true_iff in H as [H _]. apply str_eqb_eq in H. subst. eauto.
Qed.
Lemma eqd_set_inv sw la b : eqd sw (VSet la) b = true -> exists lb, b = VSet lb.
Proof. rewrite eqd_unfold. destruct b; simpl; try discriminate. eauto. Qed.
Lemma eqd_coll_r sw a b : eqd sw a b = true -> is_coll b = true -> is_coll a = true.
Proof.
  intros H Hb. destruct (is_coll a) eqn:Ha; auto.
  rewrite (eqd_atom_l sw a b Ha) in H. destruct a; try discriminate; destruct b; discriminate.
Qed.

Lemma heq_refl x : heq x x = true.
Proof. apply str_eqb_refl. Qed.
Lemma heq_sym x y : heq x y = heq y x.
Proof. apply str_eqb_sym. Qed.
Lemma heq_eq x y : heq x y = true <-> hash_of x = hash_of y.
Proof. apply str_eqb_eq. Qed.
Lemma heq_trans x y z : heq x y = true -> heq y z = true -> heq x z = true.
Proof. rewrite !heq_eq. congruence. Qed.

Definition flipf (f : val -> val -> bool) (x y : val) : bool := f y x.

Lemma look_a_flip f la kb vb : look_a f la kb vb = look_b (flipf f) kb vb la.
Proof. induction la as [|[ka va] r IH]; simpl; [|rewrite IH, (heq_sym ka kb)]; reflexivity. Qed.
Lemma map_sup_flip f la lb : map_sup f la lb = map_sub (flipf f) lb la.
Proof. induction lb as [|[kb vb] r IH]; simpl; [|rewrite <- IH, look_a_flip]; reflexivity. Qed.
Lemma mem_a_flip f la y : mem_a f la y = mem_b (flipf f) y la.
Proof. induction la as [|x r IH]; simpl; [|rewrite IH, (heq_sym x y)]; reflexivity. Qed.
Lemma set_sup_flip f la lb : set_sup f la lb = set_sub (flipf f) lb la.
Proof. induction lb as [|y r IH]; simpl; [|rewrite <- IH, mem_a_flip]; reflexivity. Qed.

Lemma seq_all2_ext f g la : forall lb,
  (forall x y, In x la -> In y lb -> f x y = g x y) -> seq_all2 f la lb = seq_all2 g la lb.
Proof.
  induction la as [|x ra IH]; intros [|y rb] H; simpl; auto.
  rewrite H by (left; auto). f_equal. apply IH. intros; apply H; right; auto.
Qed.

Lemma set_sub_ext f g la lb :
  (forall x y, In x la -> In y lb -> f x y = g x y) -> set_sub f la lb = set_sub g la lb.
Proof.
  induction la as [|x ra IH]; simpl; intro H; auto.
  f_equal.
  - unfold mem_b. apply existsb_ext_in. intros y Hy. rewrite H; auto.
  - apply IH. intros; apply H; auto.
Qed.
Lemma set_sup_ext f g la lb :
  (forall x y, In x la -> In y lb -> f x y = g x y) -> set_sup f la lb = set_sup g la lb.
Proof. intro H. rewrite !set_sup_flip. apply set_sub_ext. intros y x Hy Hx. apply H; auto. Qed.

(** keys and values of a map, as one list *)
Definition elems (l : list (val * val)) : list val := flat_map (fun kv => [fst kv; snd kv]) l.
Lemma in_elems_k k v l : In (k, v) l -> In k (elems l).
Proof. intro H. unfold elems. apply in_flat_map. exists (k, v). simpl; auto. Qed.
Lemma in_elems_v k v l : In (k, v) l -> In v (elems l).
Proof. intro H. unfold elems. apply in_flat_map. exists (k, v). simpl; auto. Qed.
Lemma elems_cons k v l x : In x (elems l) -> In x (elems ((k, v) :: l)).
Proof. simpl. auto. Qed.
Lemma Forall_elems (P : val -> Prop) l :
  Forall (fun kv => P (fst kv) /\ P (snd kv)) l -> Forall P (elems l).
Proof.
  induction 1 as [|[k v] r [Hk Hv] _ IH]; simpl; auto.
Qed.

Lemma look_b_ext f g ka va lb :
  (forall x y, (x = ka \/ x = va) -> In y (elems lb) -> f x y = g x y) ->
  look_b f ka va lb = look_b g ka va lb.
Proof.
  induction lb as [|[kb vb] r IH]; simpl; intro H; auto.
  rewrite (H ka kb), (H va vb) by (simpl; auto). rewrite IH; auto; intros; apply H; simpl; auto.
Qed.
Lemma map_sub_ext f g la lb :
  (forall x y, In x (elems la) -> In y (elems lb) -> f x y = g x y) -> map_sub f la lb = map_sub g la lb.
Proof.
  induction la as [|[ka va] r IH]; simpl; intro H; auto.
  f_equal.
  - apply look_b_ext. intros x y [->| ->] Hy; apply H; auto.
  - apply IH. intros; apply H; auto.
Qed.

Lemma seq_all2_Forall2 f la : forall lb,
  seq_all2 f la lb = true <-> Forall2 (fun x y => f x y = true) la lb.
Proof.
  induction la as [|x ra IH]; intros [|y rb]; simpl; split; intro H;
    try discriminate; try constructor; try (inversion H; fail).
  - apply andb_true_iff in H. tauto.
  - apply IH. apply andb_true_iff in H. tauto.
  - inversion H; subst. apply andb_true_iff. split; auto. apply IH; auto.
Qed.

Definition km (f : val -> val -> bool) (x y : val) : bool := heq x y && f x y.

Lemma km_flip f x y : km (flipf f) y x = km f x y.
Proof. unfold km, flipf. rewrite heq_sym. reflexivity. Qed.

Lemma set_sub_iff f la lb :
  set_sub f la lb = true <-> (forall x, In x la -> exists y, In y lb /\ km f x y = true).
Proof.
  induction la as [|x ra IH]; simpl.
  - split; auto. intros _ x [].
  - rewrite andb_true_iff, IH. unfold mem_b. rewrite existsb_exists. split.
    + intros [[y Hy] H] x' [<-|Hx]; eauto.
    + intro H. split; [apply H; auto|]. intros; apply H; auto.
Qed.
Lemma set_sup_iff f la lb :
  set_sup f la lb = true <-> (forall y, In y lb -> exists x, In x la /\ km f x y = true).
Proof.
  rewrite set_sup_flip, set_sub_iff. split; intros H y Hy; destruct (H y Hy) as [x [Hx E]]; exists x;
    rewrite km_flip in *; auto.
Qed.

Lemma look_b_true f ka va lb :
  look_b f ka va lb = true ->
  exists kb vb, In (kb, vb) lb /\ km f ka kb = true /\ f va vb = true.
Proof.
  induction lb as [|[kb vb] r IH]; simpl; [discriminate|].
  destruct (heq ka kb && f ka kb) eqn:E; intro H.
  - exists kb, vb. auto.
  - destruct (IH H) as [kb' [vb' [Hi Hk]]]. exists kb', vb'. auto.
Qed.
Lemma look_b_split f ka va l1 kb vb l2 :
  (forall e, In e l1 -> km f ka (fst e) = false) -> km f ka kb = true ->
  look_b f ka va (l1 ++ (kb, vb) :: l2) = f va vb.
Proof.
  induction l1 as [|[k v] r IH]; simpl; intros H1 H2.
  - unfold km in H2. rewrite H2. reflexivity.
  - specialize (H1 (k, v) (or_introl eq_refl)) as H. unfold km in H. simpl in H. rewrite H.
    apply IH; auto.
Qed.
Lemma look_a_split f l1 ka va l2 kb vb :
  (forall e, In e l1 -> km f (fst e) kb = false) -> km f ka kb = true ->
  look_a f (l1 ++ (ka, va) :: l2) kb vb = f va vb.
Proof.
  intros H1 H2. rewrite look_a_flip. apply (look_b_split (flipf f)); [intros e He|]; rewrite km_flip; auto.
Qed.
Lemma map_sub_forall f la lb :
  map_sub f la lb = true <-> (forall ka va, In (ka, va) la -> look_b f ka va lb = true).
Proof.
  induction la as [|[ka va] r IH]; simpl.
  - split; auto; intros _ ? ? [].
  - rewrite andb_true_iff, IH. split.
    + intros [H1 H2] k v [E|Hi]; [inversion E; subst; auto|auto].
    + intro H. split; auto.
Qed.

Lemma pairwise_split {A} (r : A -> A -> bool) l1 x l2 :
  pairwise r (l1 ++ x :: l2) = true ->
  (forall y, In y l1 -> r y x = false) /\ (forall y, In y l2 -> r x y = false).
Proof.
  induction l1 as [|z t IH]; simpl; intro H.
  - apply andb_true_iff in H as [H _]. rewrite forallb_forall in H. split; [intros ? []|].
    intros y Hy. apply negb_true_iff. auto.
  - apply andb_true_iff in H as [H1 H2]. destruct (IH H2) as [Ha Hb]. split; auto.
    intros y [<-|Hy]; auto. rewrite forallb_forall in H1. apply negb_true_iff. apply H1.
    apply in_or_app. right. left. auto.
Qed.
Lemma pairwise_ordpairs {A} (r : A -> A -> bool) l :
  pairwise r l = true -> ForallOrdPairs (fun x y => r x y = false) l.
Proof.
  induction l as [|x t IH]; simpl; intro H; constructor.
  - apply andb_true_iff in H as [H _]. rewrite forallb_forall in H. apply Forall_forall.
    intros y Hy. apply negb_true_iff. auto.
  - apply IH. apply andb_true_iff in H. tauto.
Qed.

Lemma pairwise_map_ordpairs {A B} (r : B -> B -> bool) (f : A -> B) l :
  pairwise r (map f l) = true ->
  ForallOrdPairs (fun e e' => In e l /\ In e' l /\ r (f e) (f e') = false) l.
Proof.
  induction l as [|x t IH]; simpl; intro H; [constructor|].
  apply andb_true_iff in H as [H1 H2]. rewrite forallb_forall in H1. constructor.
  - apply Forall_forall. intros y Hy. repeat split; auto.
    apply negb_true_iff. apply H1. apply in_map. exact Hy.
  - specialize (IH H2). eapply fop_impl; [|exact IH]. simpl. intros a b [? [? ?]]. auto.
Qed.

(** total + injective + same length = bijective *)
Section Matching.
  Context {A B : Type}.
  Variable R : A -> B -> Prop.

  Lemma matching_perm : forall (la : list A) (lb : list B),
    length la = length lb ->
    (forall x, In x la -> exists y, In y lb /\ R x y) ->
    ForallOrdPairs (fun x x' => forall y, R x y -> R x' y -> False) la ->
    exists lb', Permutation lb' lb /\ Forall2 R la lb'.
  Proof.
    induction la as [|x ra IH]; intros lb Hlen Htot Hsep.
    - destruct lb; [|discriminate]. exists []. split; constructor.
    - destruct (Htot x (or_introl eq_refl)) as [y [Hy Rxy]].
      destruct (in_split _ _ Hy) as [l1 [l2 ->]].
      inversion Hsep as [|? ? Hx Hsep']; subst.
      destruct (IH (l1 ++ l2)) as [lb' [Hp Hf]].
      + rewrite app_length in *. simpl in *. lia.
      + intros x' Hx'. destruct (Htot x' (or_intror Hx')) as [y' [Hy' Rxy']].
        exists y'. split; auto.
        apply in_app_or in Hy'. apply in_or_app. destruct Hy' as [?|[E|?]]; auto.
        subst y'. exfalso. rewrite Forall_forall in Hx. eapply Hx; eauto.
      + exact Hsep'.
      + exists (y :: lb'). split; [|constructor; auto].
        apply Permutation_cons_app. exact Hp.
  Qed.
End Matching.
