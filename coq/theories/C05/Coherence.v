(** C05: facts about [==] on non-collections, and coherence of the two ways the model
    computes one Python expression: [eqd true a b] (recursion on [a]) and [eqd false b a]
    (recursion on [b]) are both "b == a". *)
From Coq Require Import List QArith.
From Verif Require Import Common.ListX Gen.Prims C05.Model C05.Unfold C05.Lemmas.

Lemma num_eq_trans a b c : num_eq a b = true -> num_eq b c = true -> num_eq a c = true.
Proof.
  destruct a as [x| | |], b as [y| | |], c as [z| | |]; simpl; try discriminate; auto.
  rewrite !Qeq_bool_iff. intros. eapply Qeq_trans; eauto.
Qed.
Lemma num_eq_hash k n k' m : num_eq n m = true -> hash_of (VNum k n) = hash_of (VNum k' m).
Proof.
  destruct n as [x| | |], m as [y| | |]; simpl; try discriminate; auto.
  rewrite Qeq_bool_iff. intro E. unfold hnum. rewrite (Qred_complete _ _ E). reflexivity.
Qed.
Lemma name_eqb_eq ns nm ns' nm' : name_eqb ns nm ns' nm' = true <-> ns = ns' /\ nm = nm'.
Proof.
  unfold name_eqb, ostr_eqb. rewrite andb_true_iff, str_eqb_eq.
  rewrite (option_eqb_spec str_eqb str_eqb_eq). tauto.
Qed.

Lemma atom_eq_sym a b : atom_eq a b = atom_eq b a.
Proof.
  destruct a, b; unfold atom_eq, numval; auto using num_eq_sym, str_eqb_sym, name_eqb_sym.
Qed.

Lemma atom_eq_atoms a b : atom_eq a b = true -> is_coll a = false /\ is_coll b = false.
Proof. destruct a, b; simpl; try discriminate; auto. Qed.

Lemma atom_eq_trans a b c : atom_eq a b = true -> atom_eq b c = true -> atom_eq a c = true.
Proof.
  destruct a, b; unfold atom_eq at 1, numval; try discriminate;
    destruct c; unfold atom_eq, numval; try discriminate; auto; try apply num_eq_trans;
    rewrite ?str_eqb_eq, ?name_eqb_eq; intuition congruence.
Qed.

Lemma hash_bool b : hash_of (VBool b) = hash_of (VNum KInt (b2n b)).
Proof. destruct b; reflexivity. Qed.

Lemma atom_eq_hash a b : atom_eq a b = true -> hash_of a = hash_of b.
Proof.
  destruct a, b; simpl atom_eq; try discriminate; auto.
  - intro H. rewrite !hash_bool. apply num_eq_hash. exact H.
  - intro H. rewrite hash_bool. apply num_eq_hash. exact H.
  - intro H. rewrite hash_bool. apply num_eq_hash. exact H.
  - apply num_eq_hash.
  - rewrite str_eqb_eq. congruence.
  - rewrite name_eqb_eq. intros [-> ->]. reflexivity.
  - rewrite name_eqb_eq. intros [-> ->]. reflexivity.
Qed.

Definition coh (x : val) : Prop := forall sw y, eqd sw x y = eqd (negb sw) y x.

Lemma seq_all2_swap la : Forall coh la -> forall lb s,
  seq_all2 (eqd s) la lb = seq_all2 (eqd (negb s)) lb la.
Proof.
  induction 1 as [|x ra Hx _ IH]; intros [|y rb] s; simpl; auto.
  rewrite Hx, IH. reflexivity.
Qed.

Theorem eqd_coh : forall a, coh a.
Proof.
  induction a as [|x|k n|s|ns nm|ns nm|k la IH|la IH|t la IH|la IH] using val_ind';
    intros sw b;
    try (rewrite (eqd_atom_l sw _ b), (eqd_atom_r (negb sw) b _) by reflexivity; apply atom_eq_sym).
  - destruct b as [| | | | | |k' lb| | |]; try (rewrite !eqd_cls by discriminate; reflexivity).
    rewrite !eqd_seq. rewrite (seq_all2_swap la IH).
    f_equal. f_equal. destruct sw, k, k'; reflexivity.
  - destruct b as [| | | | | | |lb| |]; try (rewrite !eqd_cls by discriminate; reflexivity).
    rewrite !eqd_map. rewrite (Nat.eqb_sym (length lb) (length la)). f_equal.
    apply Forall_elems in IH. rewrite Forall_forall in IH.
    destruct sw; simpl; rewrite map_sup_flip; apply map_sub_ext; intros x y Hx Hy; unfold flipf.
    + apply (IH x Hx false y).
    + apply (IH y Hy true x).
  - destruct b as [| | | | | | | |t' lb|]; try (rewrite !eqd_cls by discriminate; reflexivity).
    rewrite !eqd_rec, (str_eqb_sym t' t), (seq_all2_swap la IH). reflexivity.
  - destruct b as [| | | | | | | | |lb]; try (rewrite !eqd_cls by discriminate; reflexivity).
    rewrite !eqd_set. rewrite (Nat.eqb_sym (length lb) (length la)). f_equal.
    rewrite Forall_forall in IH.
    destruct sw; simpl; rewrite set_sup_flip; apply set_sub_ext; intros x y Hx Hy; unfold flipf.
    + apply (IH y Hy true x).
    + apply (IH x Hx false y).
Qed.

Corollary py_eq_flip a b : py_eq b a = eqd true a b.
Proof. unfold py_eq. rewrite (eqd_coh a true b). reflexivity. Qed.

(** so both evaluation orders of a map (set) comparison run the one loop [map_sub] ([set_sub])
    over [py_eq] *)
Lemma eqd_map_sub sw la lb :
  eqd sw (VMap la) (VMap lb)
  = Nat.eqb (length la) (length lb) && (if sw then map_sub py_eq la lb else map_sub py_eq lb la).
Proof.
  rewrite eqd_map. f_equal. destruct sw; [reflexivity|].
  rewrite map_sup_flip. apply map_sub_ext. intros x y _ _. apply (eqd_coh y true x).
Qed.
Lemma eqd_set_sub sw la lb :
  eqd sw (VSet la) (VSet lb)
  = Nat.eqb (length la) (length lb) && (if sw then set_sub py_eq lb la else set_sub py_eq la lb).
Proof.
  rewrite eqd_set. f_equal. destruct sw; [|reflexivity].
  rewrite set_sup_flip. apply set_sub_ext. intros x y _ _. apply (eqd_coh y true x).
Qed.
