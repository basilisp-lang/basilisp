(** C06 -- kernel-checked witnesses where the faithful model violates a clause of the property. *)
From Coq Require Import List NArith Arith.
Import ListNotations.
From Verif Require Import C06.LazySeq C06.Spec C06.Machine C06.ProofsBig.

Definition F : nat := 200.

(* ---- F-06b, the pinned error path ------------------------------------------------------------ *)
Definition w_exn_cells : list (list action) := [[AThrow]].
Definition w_exn_ops : list op := [OpSeq 0; OpSeq 0; OpFirst 0].

(** restore = false: the producer raises once; every later look answers nil; the cell is Computing *)
Lemma exception_corrupts_old_shape :
  let '(s', obs) := do_ops false F w_exn_ops [OLazy 0] (init_st w_exn_cells [] 0) [] in
  obs = [BExn 1; BKind 0; BVal None] /\ comp s' 0 = true /\ map ncalls (heap s') = [1%N]
  /\ snd (s_do_ops F w_exn_ops [OLazy 0] (s_init w_exn_cells [] 0) []) = [BExn 1; BExn 1; BExn 1].
Proof. vm_compute. repeat split. Qed.

(** restore = true (the working tree): every look raises again, the producer is retried *)
Lemma exception_repaired_shape :
  let '(s', obs) := do_ops true F w_exn_ops [OLazy 0] (init_st w_exn_cells [] 0) [] in
  obs = [BExn 1; BExn 1; BExn 1] /\ comp s' 0 = false /\ map ncalls (heap s') = [3%N].
Proof. vm_compute. repeat split. Qed.

(* ---- F-06c: co-recursion + exception (repaired error path) ------------------------------------ *)
Definition w_corec_cells : list (list action) := [[ARet (OLazy 1)]; [ATouch 0; AThrow]].
Definition w_corec_ops : list op := [OpSeq 0; OpSeq 0; OpSeq 0].

Lemma corecursive_exception :
  let '(s', obs) := do_ops true F w_corec_ops [OLazy 0] (init_st w_corec_cells [] 0) [] in
  obs = [BExn 1; BKind 0; BKind 0]                                   (* raises once, then "empty" for ever *)
  /\ map cst (heap s') = [Realized ONil; Initialized (GScript [ATouch 0; AThrow])]
  /\ seen s' = [(0, true)]                                           (* B saw A empty *)
  /\ snd (s_do_ops F w_corec_ops [OLazy 0] (s_init w_corec_cells [] 0) []) = [BExn 1; BExn 1; BExn 1].
Proof. vm_compute. repeat split. Qed.

(* ---- F-06d: concat is cut short by an exception ---------------------------------------------- *)
Definition w_concat_roots : list rootspec := [RConcat [RObj (OLazy 0); RObj (OCons 5 ONil)]].
Definition w_concat_ops : list op := [OpFirst 0; OpFirst 0; OpCount 0].

Lemma concat_exception_truncates :
  let (s1, regs) := build_roots w_concat_roots (init_st w_exn_cells [] 0) in
  let '(s', obs) := do_ops true F w_concat_ops regs s1 [] in
  let (t1, sregs) := s_build_roots w_concat_roots (s_init w_exn_cells [] 0) in
  obs = [BExn 1; BVal None; BNum 0]                                  (* raises once, then the END of the seq *)
  /\ snd (s_do_ops F w_concat_ops sregs t1 []) = [BExn 1; BExn 1; BExn 1].
Proof. vm_compute. repeat split. Qed.

(* ---- re-entrancy: the documented behaviour, on the `primes` shape ----------------------------- *)
(** cell 0 looks at itself and then returns (7): it sees itself empty; consumers see (7) *)
Lemma reentrant_example :
  let '(s', obs) := do_ops true F [OpFirst 0; OpFirst 0] [OLazy 0]
                           (init_st [[ATouch 0; ARet (OCons 7 ONil)]] [] 0) [] in
  obs = [BVal (Some 7%N); BVal (Some 7%N)] /\ seen s' = [(0, true)] /\ map ncalls (heap s') = [1%N].
Proof. vm_compute. repeat split. Qed.

(* ---- F-06: the interpreter wedges -------------------------------------------------------------- *)
Definition stuck (restore : bool) (st : mstate) : Prop :=
  forall l, faithful l = true -> sched restore l st = None.

(** T0 is inside the producer of cell 0, parked on event 1 with the GIL released; T1 waited for event 0
    (set by that producer), then touches cell 0: it blocks on the cell mutex holding the GIL. *)
Definition w_dead_cells : list (list action) :=
  [[ASet 0; AWait 1; ARet (OCons 1 (OLazy 1))]; [ARet (OCons 2 (OLazy 2))]; [ARet (OCons 3 (OLazy 3))]; [ARet ONil]].
Definition w_dead_progs : list (list cop) := [[CFirst 0]; [CWait 0; CFirst 0; CSet 1]].
Definition w_dead_init : mstate := init_m w_dead_cells [] 2 [OLazy 0] w_dead_progs.
Definition w_dead_sched : list label :=
  [LAcq 0; LRun 0; LRun 0; LRun 0; LRun 0;       (* T0: first -> seq(0) -> producer: set(0), wait(1): parks *)
   LAcq 1; LRun 1; LRun 1].                      (* T1: wait(0) passes, first -> seq(0): blocked *)

(** the GIL holder waits for a cell mutex inside seq.rs, where it never gives the GIL up *)
Lemma blocked_holder_stuck : forall restore st t,
  gil st = Some t -> stepf restore t st = None ->
  (forall th, nth_error (thr st) t = Some th -> in_python th = false) ->
  stuck restore st.
Proof.
  intros restore st t0 Hg Hstep Hpy l Hf. destruct l as [t|t|t|t]; simpl in *; try discriminate; rewrite Hg.
  - destruct (Nat.eqb_spec t t0); auto. subst. exact Hstep.
  - reflexivity.
  - destruct (nth_error (thr st) t) as [th|] eqn:E; auto. destruct (Nat.eqb_spec t t0); auto. subst.
    rewrite (Hpy th E). reflexivity.
Qed.

(** after a concrete run thread 1 holds the GIL, blocked inside seq.rs *)
Ltac wedged_run :=
  intros []; (eexists; split; [vm_compute; reflexivity|]; split; [|reflexivity];
    apply (blocked_holder_stuck _ _ 1); [reflexivity | reflexivity |
      intros th Hth; vm_compute in Hth; injection Hth as <-; reflexivity]).

Lemma deadlock_witness : forall restore,
  exists st, run_labels restore w_dead_sched w_dead_init = Some st /\ stuck restore st /\ all_finished st = false.
Proof. wedged_run. Qed.

(** the same with an ordinary producer: no events, the producer is merely pre-empted (switch interval)
    inside its Python body *)
Definition w_dead2_init : mstate := init_m [[ARet (OCons 1 ONil)]] [] 0 [OLazy 0] [[CFirst 0]; [CFirst 0]].
Definition w_dead2_sched : list label := [LAcq 0; LRun 0; LRun 0; LRel 0; LAcq 1; LRun 1].

Lemma deadlock_witness_plain_producer : forall restore,
  exists st, run_labels restore w_dead2_sched w_dead2_init = Some st /\ stuck restore st /\ all_finished st = false.
Proof. wedged_run. Qed.

(** ... and what would un-wedge it: if the blocked thread gave the GIL up while waiting for the mutex
    ([LPreempt], which seq.rs never does), T0 finishes its producer and both threads complete. *)
Lemma deadlock_goes_away_if_lock_released_the_gil :
  exists st, run_labels true (w_dead2_sched ++
                [LPreempt 1; LAcq 0; LRun 0; LRun 0; LRun 0; LRun 0; LRel 0; LAcq 1; LRun 1; LRun 1]) w_dead2_init = Some st
             /\ all_finished st = true
             /\ map (fun th => tobs th) (thr st) = [[BVal (Some 1%N)]; [BVal (Some 1%N)]]
             /\ map ncalls (mcells st) = [1%N].
Proof. eexists. vm_compute. repeat split. Qed.
