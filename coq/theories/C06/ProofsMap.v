(** C06 -- laziness of core.lpy map / iterate / iterator seqs over instrumented chains. *)
From Coq Require Import List NArith Arith Lia.
Import ListNotations.
From Verif Require Import C06.LazySeq C06.ProofsBig C06.ProofsLazy.

Definition out_cell (g : gen) : cell := mkCell (Initialized g) 0 0.

Definition map_at (fn : fn) (vs : list N) (b j c : nat) (s : st) : Prop :=
  chain_at vs b j s /\ get s c = Some (out_cell (GMap fn (OLazy (b + j)))) /\ b + length vs < c.

Lemma map_step_cons : forall restore f fn vs b j c s v,
  map_at fn vs b j c s -> nth_error vs j = Some v ->
  exists s',
    ev restore (S (S (S (S (S (S (S (S f)))))))) (CSeq c) s = (s', Ok (OCons (app_fn fn v) (OLazy (hlen s))))
    /\ map_at fn vs b (S j) (hlen s) s'
    /\ fcalls s' = N.succ (fcalls s).
Proof.
  intros restore f fn vs b j c s v [Hc [Hg Hout]] Ev.
  assert (Hj : j < length vs) by (apply nth_error_Some; congruence).
  destruct (src_step restore f vs b j c s Hc ltac:(lia) Hout) as [s1 [Hev [Hc1 [Hh [Hf _]]]]].
  rewrite (chain_ret_cons vs b j v Ev) in Hev.
  pose proof (chain_at_hlen _ _ _ _ Hc) as Hb. pose proof (get_lt _ _ _ Hg) as Hclt.
  eexists. split; [|split].
  - eapply (seq_fresh restore _ s c _ _ _ (OCons (app_fn fn v) (OLazy (hlen s))) Hg eq_refl); [|reflexivity].
    rewrite ev_CGen_map, Hev. cbn [rest_norm]. unfold alloc. cbn [heap bump_f]. fold (hlen s1). rewrite Hh. reflexivity.
  - split; [|split; [|assumption]].
    + apply chain_at_finish; [|assumption]. apply (chain_at_alloc vs b (S j) (bump_f s1)). exact Hc1.
    + rewrite get_finish_other by (unfold hlen; lia). rewrite <- Hh. apply (get_alloc_new (bump_f s1)).
  - rewrite fcalls_finish. cbn [fcalls set_heap bump_f]. rewrite Hf. reflexivity.
Qed.

Lemma map_step_nil : forall restore f fn vs b c s,
  map_at fn vs b (length vs) c s ->
  exists s',
    ev restore (S (S (S (S (S (S (S (S f)))))))) (CSeq c) s = (s', Ok ONil)
    /\ chain_at vs b (S (length vs)) s'
    /\ fcalls s' = fcalls s.
Proof.
  intros restore f fn vs b c s [Hc [Hg Hout]].
  destruct (src_step restore f vs b (length vs) c s Hc (le_n _) Hout) as [s1 [Hev [Hc1 [_ [Hf _]]]]].
  rewrite chain_ret_end in Hev.
  eexists. split; [|split].
  - eapply (seq_fresh restore _ s c _ _ _ ONil Hg eq_refl); [|reflexivity]. rewrite ev_CGen_map, Hev. reflexivity.
  - apply chain_at_finish; assumption.
  - rewrite fcalls_finish. exact Hf.
Qed.

(** (map f chain): walking m elements runs the producers of the first m source cells (plus the final
    nil cell when the walk reaches the end) and applies f once per element produced -- nothing ahead. *)
Lemma walk_map : forall restore f fn vs b m j c s acc,
  map_at fn vs b j c s -> j <= length vs ->
  exists s' cur,
    walk restore (S (S (S (S (S (S (S (S (S f))))))))) m (OLazy c) acc s =
      (s', Ok cur, rev (map (app_fn fn) (chain_vals vs j m)) ++ acc)
    /\ chain_at vs b (Nat.min (j + m) (S (length vs))) s'
    /\ fcalls s' = (fcalls s + N.of_nat (Nat.min m (length vs - j)))%N.
Proof.
  induction m; intros j c s acc Hm Hj.
  - exists s, (OLazy c). simpl. unfold chain_vals. simpl. split; [reflexivity|split].
    + replace (Nat.min (j + 0) (S (length vs))) with j by lia. apply Hm.
    + simpl. lia.
  - destruct (nth_error vs j) as [v|] eqn:Ev.
    + assert (Hlt : j < length vs) by (apply nth_error_Some; congruence).
      destruct (map_step_cons restore f fn vs b j c s v Hm Ev) as [s1 [Hev [Hm1 Hf1]]].
      destruct (IHm (S j) (hlen s) s1 (app_fn fn v :: acc) Hm1 ltac:(lia)) as [s' [cur [Hw [Hc' Hf']]]].
      exists s', cur. rewrite (walk_cons restore _ m c acc s _ _ _ Hev), Hw. split; [|split].
      * rewrite (chain_vals_cons vs j m v Ev). simpl. rewrite <- app_assoc. reflexivity.
      * replace (j + S m) with (S j + m) by lia. exact Hc'.
      * rewrite Hf', Hf1. replace (Nat.min (S m) (length vs - j)) with (S (Nat.min m (length vs - S j))) by lia. lia.
    + assert (j = length vs) by (apply nth_error_None in Ev; lia). subst j.
      destruct (map_step_nil restore f fn vs b c s Hm) as [s1 [Hev [Hc1 Hf1]]].
      exists s1, ONil. rewrite (walk_nil restore _ m c acc s _ Hev). split; [|split].
      * rewrite chain_vals_end. reflexivity.
      * replace (Nat.min (length vs + S m) (S (length vs))) with (S (length vs)) by lia. exact Hc1.
      * rewrite Hf1. replace (length vs - length vs) with 0 by lia. rewrite Nat.min_0_r. simpl. lia.
Qed.

Definition iter_at (fn : fn) (x : N) (c : nat) (s : st) : Prop := get s c = Some (out_cell (GIterate fn x)).

Lemma iterate_step : forall restore f fn x c s,
  iter_at fn x c s ->
  exists s',
    ev restore (S (S (S f))) (CSeq c) s = (s', Ok (OCons x (OLazy (hlen s))))
    /\ iter_at fn (app_fn fn x) (hlen s) s'
    /\ fcalls s' = N.succ (fcalls s).
Proof.
  intros restore f fn x c s Hg. pose proof (get_lt _ _ _ Hg) as Hlt.
  eexists. split; [|split].
  - eapply (seq_fresh restore (S f) s c _ _ _ (OCons x (OLazy (hlen s))) Hg eq_refl); [|reflexivity].
    rewrite ev_CGen_iterate. unfold alloc. cbn [heap bump_f]. fold (hlen (start_call s c)). rewrite hlen_start_call. reflexivity.
  - unfold iter_at. rewrite get_finish_other by (unfold hlen; lia).
    rewrite <- (hlen_start_call s c). apply (get_alloc_new (bump_f (start_call s c))).
  - rewrite fcalls_finish. cbn [fcalls set_heap bump_f]. rewrite fcalls_start_call. reflexivity.
Qed.

Fixpoint iterates (fn : fn) (x : N) (m : nat) : list N :=
  match m with O => [] | S k => x :: iterates fn (app_fn fn x) k end.

(** forcing m elements of (iterate f x) applies f exactly m times: one application more than the
    m - 1 the elements need (the generator computes the NEXT seed eagerly): lookahead 1 *)
Lemma walk_iterate : forall restore f fn m x c s acc,
  iter_at fn x c s ->
  exists s' cur,
    walk restore (S (S (S (S f)))) m (OLazy c) acc s = (s', Ok cur, rev (iterates fn x m) ++ acc)
    /\ fcalls s' = (fcalls s + N.of_nat m)%N.
Proof.
  induction m; intros x c s acc Hi.
  - exists s, (OLazy c). simpl. split; [reflexivity|lia].
  - destruct (iterate_step restore f fn x c s Hi) as [s1 [Hev [Hi1 Hf1]]].
    destruct (IHm (app_fn fn x) (hlen s) s1 (x :: acc) Hi1) as [s' [cur [Hw Hf']]].
    exists s', cur. rewrite (walk_cons restore _ m c acc s _ _ _ Hev), Hw. split.
    + simpl. rewrite <- app_assoc. reflexivity.
    + rewrite Hf', Hf1. lia.
Qed.

(** seq.rs Sequence over a Python iterator: one pull per cell *)
Definition seqit_at (it c : nat) (s : st) : Prop := get s c = Some (out_cell (GSeqIt it)).

(** a Sequence cell whose pull (run inside its producer) yields v *)
Lemma seqit_step_val : forall restore f it c s s2 v,
  seqit_at it c s ->
  ev restore f (CPull it) (start_call s c) = (s2, Ok (OCons v ONil)) -> hlen s2 = hlen s ->
  ev restore (S (S (S f))) (CSeq c) s = (finish (fst (alloc s2 (GSeqIt it))) c (OCons v (OLazy (hlen s))), Ok (OCons v (OLazy (hlen s))))
  /\ seqit_at it (hlen s) (finish (fst (alloc s2 (GSeqIt it))) c (OCons v (OLazy (hlen s)))).
Proof.
  intros restore f it c s s2 v Hg Hev Hh. pose proof (get_lt _ _ _ Hg) as Hlt. split.
  - eapply (seq_fresh restore (S f) s c _ _ _ (OCons v (OLazy (hlen s))) Hg eq_refl); [|reflexivity].
    rewrite ev_CGen_seqit, Hev. unfold alloc. cbn [fst]. fold (hlen s2). rewrite Hh. reflexivity.
  - unfold seqit_at. rewrite get_finish_other by (unfold hlen; lia). rewrite <- Hh. apply get_alloc_new.
Qed.

Lemma ev_CPull_val : forall restore f it s v l,
  nth_error (iters s) it = Some (ItList (IVal v :: l)) ->
  ev restore (S f) (CPull it) s = (set_iter s it (ItList l), Ok (OCons v ONil)).
Proof. intros. simpl. rewrite H. reflexivity. Qed.

Lemma ev_CPull_end : forall restore f it s,
  nth_error (iters s) it = Some (ItList []) ->
  ev restore (S f) (CPull it) s = (s, Ok ONil).
Proof. intros. simpl. rewrite H. reflexivity. Qed.

(** walking m elements of (iterator-seq it) takes exactly min m (length vs) values out of the
    iterator (and, when the walk reaches the end, the one pull that finds it exhausted) *)
Lemma walk_seqit : forall restore f it m vs c s acc,
  seqit_at it c s -> nth_error (iters s) it = Some (ItList (map IVal vs)) ->
  exists s' cur,
    walk restore (S (S (S (S (S f))))) m (OLazy c) acc s = (s', Ok cur, rev (firstn m vs) ++ acc)
    /\ nth_error (iters s') it = Some (ItList (map IVal (skipn m vs))).
Proof.
  induction m; intros vs c s acc Hg Hi.
  - exists s, (OLazy c). simpl. split; [reflexivity|exact Hi].
  - rewrite <- (iters_start_call s c) in Hi. destruct vs as [|v vs].
    + eexists. exists ONil. erewrite walk_nil.
      * split; [reflexivity|]. rewrite iters_finish. exact Hi.
      * apply (seq_fresh restore (S (S f)) s c _ _ _ OEmpty Hg eq_refl); [|reflexivity].
        rewrite ev_CGen_seqit, (ev_CPull_end restore f it _ Hi). reflexivity.
    + destruct (seqit_step_val restore (S f) it c s _ v Hg (ev_CPull_val restore f it _ v _ Hi) (hlen_start_call s c))
        as [Hev Hg1].
      destruct (IHm vs (hlen s) _ (v :: acc) Hg1) as [s' [cur [Hw Hi']]].
      * rewrite iters_finish. cbn [iters fst alloc set_heap set_iter]. apply nth_error_upd_same.
        apply nth_error_Some. congruence.
      * exists s', cur. rewrite (walk_cons restore _ m c acc s _ _ _ Hev), Hw. split; [|exact Hi'].
        simpl. rewrite <- app_assoc. reflexivity.
Qed.
