(** C06 -- consumers agree: whatever seq(c) has once returned to a consumer, the cell is Realized with
    exactly that and stays so (repaired error path); then the three invariants over all reachable states and the
    theorems read off them. *)
From Coq Require Import List NArith Arith Lia.
Import ListNotations.
From Verif Require Import C06.Machine C06.ProofsMachine C06.ProofsConc C06.ProofsLock.

(** nobody is inside seq / _compute_seq of cell c *)
Definition settled (st : mstate) (c : cid) : Prop :=
  forall t th, nth_error (thr st) t = Some th -> hcnt c (stk th) = 0.

Definition logged_ok (st : mstate) : Prop :=
  forall c o, In (c, o) (glog st) -> m_cst st c = Some (Realized o) /\ settled st c.






Lemma nth_error_acq_other : forall ls c0 t c, c <> c0 -> nth_error (acq_l ls c0 t) c = nth_error ls c.
Proof.
  intros. unfold acq_l. destruct (nth_error ls c0) as [[[? ?]|]|]; auto; apply nth_error_upd_other; auto.
Qed.
Lemma nth_error_rel_other : forall ls c0 c, c <> c0 -> nth_error (rel_l ls c0) c = nth_error ls c.
Proof.
  intros. unfold rel_l. destruct (nth_error ls c0) as [[[? [|?]]|]|]; auto; apply nth_error_upd_other; auto.
Qed.

Definition touches (restore : bool) (t : tid) (st st' : mstate) (th : thread) (c : cid) : Prop :=
  nth_error (mlocks st') c = nth_error (mlocks st) c /\ m_cst st' c = m_cst st c.

Lemma m_cst_app : forall st st' x c, mcells st' = mcells st ++ [x] -> c < length (mcells st) -> m_cst st' c = m_cst st c.
Proof. intros. unfold m_cst. rewrite H, nth_error_app1 by assumption. reflexivity. Qed.

Lemma realized_stable : forall restore st st' t th c o,
  nth_error (thr st) t = Some th -> eff restore t st st' th ->
  m_cst st c = Some (Realized o) -> settled st c ->
  (forall t', depth (nth_error (mlocks st') c) t' = depth (nth_error (mlocks st) c) t') /\ m_cst st' c = Some (Realized o).
Proof.
  intros restore st st' t th c o Hth E Hr Hs.
  cut ((nth_error (mlocks st') c = nth_error (mlocks st) c \/ mlocks st' = mlocks st ++ [None]) /\ m_cst st' c = Some (Realized o)).
  { intros [[Hn|Hn] Hm]; split; auto; intro t'; rewrite Hn; [reflexivity|apply depth_snoc]. }
  assert (H0c : hcnt c (stk th) = 0) by (eapply Hs; eauto).
  assert (Hne_hold : forall c0 fr k, stk th = fr :: k -> 1 <= hold c0 fr -> c <> c0).
  { intros c0 fr k Hk Hh Heq. subst c0. rewrite Hk, hcnt_cons in H0c. lia. }
  assert (Hlen : c < length (mcells st)).
  { unfold m_cst in Hr. apply nth_error_Some. destruct (nth_error (mcells st) c); discriminate. }
  assert (Hsame : mlocks st' = mlocks st -> mcells st' = mcells st ->
            (nth_error (mlocks st') c = nth_error (mlocks st) c \/ mlocks st' = mlocks st ++ [None]) /\ m_cst st' c = Some (Realized o)).
  { intros Hl Hc. split; [left; rewrite Hl; reflexivity|]. rewrite (m_cst_eq _ _ Hc). exact Hr. }
  destruct E.
  - (* E_local *) exact (Hsame Hlocks Hcells).
  - (* E_seq_ret *) exact (Hsame Hlocks Hcells).
  - (* E_seq_start *)
    assert (c <> c0) by (intro; subst; rewrite Hr in Hcst; discriminate).
    split; [left; rewrite Hlocks, !nth_error_acq_other by auto; reflexivity|].
    rewrite (m_cst_cset st st' c0 f_start c Hcells). destruct (Nat.eqb_spec c0 c); [congruence|]. exact Hr.
  - (* E_seq_unwrap *)
    assert (c <> c0) by (intro; subst; rewrite Hr in Hcst; discriminate).
    split; [left; rewrite Hlocks, nth_error_acq_other by auto; reflexivity|]. rewrite (m_cst_eq _ _ Hcells). exact Hr.
  - (* E_comp_start *)
    assert (c <> c0) by (intro; subst; rewrite Hr in Hcst; discriminate).
    split; [left; rewrite Hlocks, nth_error_acq_other by auto; reflexivity|].
    rewrite (m_cst_cset st st' c0 f_start c Hcells). destruct (Nat.eqb_spec c0 c); [congruence|]. exact Hr.
  - (* E_comp_ok *)
    assert (c <> c0) by (eapply Hne_hold; eauto; simpl; rewrite Nat.eqb_refl; destruct b; lia).
    split; [left; rewrite Hlocks, nth_error_rel_other by auto; reflexivity|].
    rewrite (m_cst_cset st st' c0 _ c Hcells). destruct (Nat.eqb_spec c0 c); [congruence|]. exact Hr.
  - (* E_comp_exn *)
    assert (c <> c0) by (eapply Hne_hold; eauto; simpl; rewrite Nat.eqb_refl; destruct b; lia).
    split.
    + left. rewrite Hlocks. destruct b; rewrite ?nth_error_rel_other by auto; reflexivity.
    + rewrite (m_cst_cset st st' c0 _ c Hcells). destruct (Nat.eqb_spec c0 c); [congruence|]. exact Hr.
  - (* E_unwrap_call *) exact (Hsame Hlocks Hcells).
  - (* E_unwrap_back *) exact (Hsame Hlocks Hcells).
  - (* E_unwrap_exn *)
    assert (c <> c0) by (eapply Hne_hold; eauto; simpl; rewrite Nat.eqb_refl; lia).
    split; [left; rewrite Hlocks, nth_error_rel_other by auto; reflexivity|]. rewrite (m_cst_eq _ _ Hcells). exact Hr.
  - (* E_realize *)
    assert (c <> c0) by (eapply Hne_hold; eauto; simpl; rewrite Nat.eqb_refl; lia).
    split; [left; rewrite Hlocks, nth_error_rel_other by auto; reflexivity|].
    rewrite (m_cst_cset st st' c0 _ c Hcells). destruct (Nat.eqb_spec c0 c); [congruence|]. exact Hr.
  - (* E_alloc *)
    split; [right; exact Hlocks|]. rewrite (m_cst_app st st' _ c Hcells Hlen). exact Hr.
Qed.

Lemma eff_thr : forall restore t st st' th, eff restore t st st' th -> exists th', thr st' = upd (thr st) t th'.
Proof. intros. destruct H; eauto. Qed.


Lemma settled_stable : forall st st' t th' c,
  lock_ok st -> lock_ok st' -> thr st' = upd (thr st) t th' ->
  (forall t', depth (nth_error (mlocks st') c) t' = depth (nth_error (mlocks st) c) t') ->
  settled st c -> settled st' c.
Proof.
  intros st st' t th' c L L' Hthr Hd Hs t' th'' Ht'.
  rewrite (L' c t' th'' Ht'), Hd. rewrite Hthr in Ht'. destruct (upd_some_old _ _ _ _ _ _ Ht') as [z Hz].
  rewrite <- (L c t' z Hz). eapply Hs; eauto.
Qed.

Lemma depth_free : forall st c t th,
  lock_ok st -> nth_error (thr st) t = Some th -> can_lock st c t = true ->
  hcnt c (stk th) = 0 -> forall t', depth (nth_error (mlocks st) c) t' = 0.
Proof.
  intros st c t th L Hth Hc H0 t'. unfold can_lock in Hc.
  destruct (nth_error (mlocks st) c) as [[[o n]|]|] eqn:E; simpl; auto.
  apply Nat.eqb_eq in Hc. subst o. pose proof (L c t th Hth) as Hd. rewrite E in Hd. simpl in Hd.
  rewrite Nat.eqb_refl in Hd. lia.
Qed.

Lemma logged_ok_eff : forall st st' t th,
  InvA true st -> lock_ok st -> logged_ok st -> nth_error (thr st) t = Some th -> eff true t st st' th ->
  logged_ok st'.
Proof.
  intros st st' t th I L G Hth E.
  pose proof (lock_ok_eff _ _ _ _ _ L Hth E) as L'.
  destruct (eff_thr _ _ _ _ _ E) as [th1 Hthr1].
  assert (Hold : forall c o, In (c, o) (glog st) -> m_cst st' c = Some (Realized o) /\ settled st' c).
  { intros c o Hin. destruct (G c o Hin) as [Hr Hs].
    destruct (realized_stable _ _ _ _ _ _ _ Hth E Hr Hs) as [Hd Hm]. split; auto.
    exact (settled_stable st st' t th1 c L L' Hthr1 Hd Hs). }
  intros c o Hin.
  destruct E; try solve [rewrite Hlog in Hin; apply Hold; exact Hin].
  - (* E_seq_ret *)
    rewrite Hlog in Hin. unfold logif in Hin. destruct (forallb plain k) eqn:Ep; [|apply Hold; exact Hin].
    destruct Hin as [Heq|Hin]; [|apply Hold; exact Hin]. inversion Heq; subst c0 o0; clear Heq.
    assert (H0c : hcnt c (stk th) = 0) by (rewrite Hstk, hcnt_cons, (plain_hcnt c k Ep); reflexivity).
    pose proof (depth_free st c t th L Hth Hcan H0c) as Hfree.
    destruct Hcst as [Hr|[Hcomp ->]].
    + split; [rewrite (m_cst_eq _ _ Hcells); exact Hr|].
      intros t' th'' Ht'. rewrite (L' c t' th'' Ht'), Hlocks. apply Hfree.
    + exfalso. pose proof (ia_act_eq _ _ I eq_refl c) as Hge. unfold st_is in Hge. rewrite Hcomp in Hge. simpl in Hge.
      destruct (act_pos_frame st c Hge) as [t2 [th2 [g [b [Ht2 Hin2]]]]].
      assert (Hpos : 1 <= hcnt c (stk th2)).
      { eapply in_hcnt; eauto. simpl. rewrite Nat.eqb_refl. destruct b; lia. }
      rewrite (L c t2 th2 Ht2), Hfree in Hpos. lia.
  - (* E_realize *)
    rewrite Hlog in Hin. unfold logif in Hin. destruct (forallb plain k) eqn:Ep; [|apply Hold; exact Hin].
    destruct Hin as [Heq|Hin]; [|apply Hold; exact Hin]. inversion Heq; subst c0 o; clear Heq.
    assert (Hex : exists k0, nth_error (mcells st) c = Some k0).
    { assert (Hcr : st_is valued st c = true).
      { apply (ia_unwrap _ _ I t th (KUnwrap c w) c Hth); [rewrite Hstk; left; reflexivity|apply Nat.eqb_refl]. }
      unfold st_is, m_cst in Hcr. destruct (nth_error (mcells st) c); eauto. discriminate. }
    destruct Hex as [k0 Hk0]. split.
    + rewrite (m_cst_cset st st' c _ c Hcells), Nat.eqb_refl, Hk0. reflexivity.
    + assert (Hh : hcnt c (stk th) = 1).
      { rewrite Hstk, hcnt_cons, (plain_hcnt c k Ep). simpl. rewrite Nat.eqb_refl. reflexivity. }
      pose proof (L c t th Hth) as Hd. rewrite Hh in Hd.
      intros t' th'' Ht'. rewrite Hthr in Ht'. apply nth_error_upd_inv in Ht'. destruct Ht' as [[-> ->]|[Hne Ht']].
      * rewrite Hstk'. apply plain_hcnt. exact Ep.
      * rewrite (L c t' th'' Ht'). unfold depth in *.
        destruct (nth_error (mlocks st) c) as [[[ow n]|]|]; auto.
        destruct (Nat.eqb_spec t ow); [|lia]. subst ow. destruct (Nat.eqb_spec t' t); [congruence|reflexivity].
Qed.


Lemma safe_reachable : forall restore st0 st, fresh_state st0 -> reachable restore st0 st ->
  InvA restore st /\ lock_ok st /\ (restore = true -> logged_ok st).
Proof.
  intros restore st0 st Hf Hr.
  eapply (reachable_ind restore (fun s => InvA restore s /\ lock_ok s /\ (restore = true -> logged_ok s))); eauto.
  - split; [apply InvA_fresh; auto|split; [apply lock_ok_fresh; auto|]].
    intros _ c o Hin. destruct Hf as [_ [_ [_ [_ Hg]]]]. rewrite Hg in Hin. destruct Hin.
  - intros s s' l [I [L G]] Hs. destruct (sched_eff _ _ _ _ Hs) as [->|[t [th [Hth E]]]].
    + (* a GIL hand-over: none of the three looks at the GIL *)
      split; [apply InvA_set_gil; exact I|split; [exact L|exact G]].
    + split; [eapply InvA_eff; eauto|split; [eapply lock_ok_eff; eauto|]].
      intros ->. eapply logged_ok_eff; eauto.
Qed.

(** AT MOST ONCE.  In every state reachable under ANY schedule (pre-emption at arbitrary points
    included), for every cell:
    - the generator has been called at most once more than it has raised (never more than once with the
      pinned error path, where a failed cell is never called again);
    - at most one activation of it is running, over all threads, and then the cell is Computing. *)
Theorem producer_at_most_once : forall restore st0 st,
  fresh_state st0 -> reachable restore st0 st ->
  forall c k, nth_error (mcells st) c = Some k ->
    (ncalls k <= 1 + nthrows k)%N /\ (restore = false -> (ncalls k <= 1)%N) /\
    act st c <= 1 /\
    (forall t th g b, nth_error (thr st) t = Some th -> In (KCompRet c g b) (stk th) -> cst k = Computing).
Proof.
  intros restore st0 st Hf Hr c k Hk. destruct (safe_reachable _ _ _ Hf Hr) as [I _].
  pose proof (ia_cells _ _ I c k Hk) as Hok. unfold cell_ok in Hok.
  repeat split.
  - destruct restore, (is_init (cst k)); lia.
  - intros ->. destruct (is_init (cst k)); lia.
  - pose proof (ia_act _ _ I c). destruct (st_is computing st c); simpl in *; lia.
  - intros t th g b Hth Hin. destruct (running_is_computing _ _ _ _ _ _ _ I Hth Hin) as [Hc _].
    unfold m_cst in Hc. rewrite Hk in Hc. simpl in Hc. inversion Hc. reflexivity.
Qed.

(** MUTUAL EXCLUSION.  A thread that is running the producer of c, or is inside the loop of seq(c), owns
    the mutex of c, and no other thread is inside seq / _compute_seq of c. *)
Theorem producer_runs_under_the_mutex : forall restore st0 st,
  fresh_state st0 -> reachable restore st0 st ->
  forall t th c fr, nth_error (thr st) t = Some th -> In fr (stk th) -> 1 <= hold c fr ->
    (exists n, nth_error (mlocks st) c = Some (Some (t, n))) /\
    (forall t' th', t' <> t -> nth_error (thr st) t' = Some th' -> hcnt c (stk th') = 0).
Proof.
  intros restore st0 st Hf Hr t th c fr Hth Hin Hh.
  destruct (safe_reachable _ _ _ Hf Hr) as [_ [L _]].
  pose proof (in_hcnt c fr _ Hin Hh) as Hc. pose proof (L c t th Hth) as Hd. rewrite Hd in Hc.
  unfold depth in Hc. destruct (nth_error (mlocks st) c) as [[[o n]|]|] eqn:E; try lia.
  destruct (Nat.eqb_spec t o); try lia. subst o. split; eauto.
  intros t' th' Hne Ht'. rewrite (L c t' th' Ht'), E. simpl. destruct (Nat.eqb_spec t' t); [congruence|reflexivity].
Qed.

(** CONSUMERS AGREE.  Under every interleaving (arbitrary pre-emption included), whatever seq(c) has
    returned to a consumer -- any thread, any time -- is what the cell holds from then on; hence any two
    consumers of the same cell got the same object. *)
Theorem consumers_agree : forall st0 st,
  fresh_state st0 -> reachable true st0 st ->
  (forall c o, In (c, o) (glog st) -> m_cst st c = Some (Realized o)) /\
  (forall c o1 o2, In (c, o1) (glog st) -> In (c, o2) (glog st) -> o1 = o2).
Proof.
  intros st0 st Hf Hr. destruct (safe_reachable _ _ _ Hf Hr) as [_ [_ G]]. specialize (G eq_refl). split.
  - intros c o Hin. apply (G c o Hin).
  - intros c o1 o2 H1 H2. destruct (G c o1 H1) as [E1 _]. destruct (G c o2 H2) as [E2 _].
    rewrite E1 in E2. inversion E2. reflexivity.
Qed.
