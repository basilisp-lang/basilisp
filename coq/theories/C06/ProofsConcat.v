(** C06 -- laziness of concat (runtime.concat_from_seq: a seq.rs Sequence over
    itertools.chain.from_iterable(filter(None, map(to_seq, seqs)))): element k of the first input is
    realized when element k of the concatenation is, and the later inputs are not looked at before the
    first one is exhausted. *)
From Coq Require Import List NArith Lia.
From Verif Require Import C06.LazySeq C06.ProofsBig C06.ProofsLazy C06.ProofsMap.

Definition chain_iter (b j : nat) (rest : list obj) : iter :=
  match j with
  | O => ItChain None (OLazy b :: rest)                (* nothing pulled yet *)
  | S _ => ItChain (Some (OLazy (b + j))) rest         (* a SeqIterator standing at position j of the first input *)
  end.

Definition concat_at (vs : list N) (b j it c : nat) (rest : list obj) (s : st) : Prop :=
  chain_at vs b j s /\ seqit_at it c s /\ b + length vs < c /\
  nth_error (iters s) it = Some (chain_iter b j rest).

Section Pull.
Variable restore : bool.

Lemma ev_CPull_chain_none : forall f it s src srcs,
  nth_error (iters s) it = Some (ItChain None (src :: srcs)) ->
  ev restore (S f) (CPull it) s =
    let s0 := set_iter s it (ItChain None srcs) in
    let (s1, r) := ev restore f (CToSeq src) s0 in
    match r with
    | Ok ONil => ev restore f (CPull it) s1
    | Ok o => ev restore f (CPull it) (set_iter s1 it (ItChain (Some o) srcs))
    | Exn => (chain_dead s1 it, Exn)
    | e => (s1, e)
    end.
Proof. intros. simpl. rewrite H. reflexivity. Qed.

Lemma ev_CPull_chain_some : forall f it s cur srcs,
  nth_error (iters s) it = Some (ItChain (Some cur) srcs) ->
  ev restore (S f) (CPull it) s =
    let (s1, r) := ev restore f (CIterNext cur) s in
    match r with
    | Ok (OCons v cur') => (set_iter s1 it (ItChain (Some cur') srcs), Ok (OCons v ONil))
    | Ok _ => ev restore f (CPull it) (set_iter s1 it (ItChain None srcs))
    | e => (s1, e)
    end.
Proof. intros. simpl. rewrite H. reflexivity. Qed.

Lemma iters_set_iter_same : forall s it x, it < length (iters s) -> nth_error (iters (set_iter s it x)) it = Some x.
Proof. intros. cbn [iters set_iter]. apply nth_error_upd_same. assumption. Qed.

(** one pull of the chain iterator while the first input has an element at position j: that position of
    the first input is forced, the other inputs stay in the iterator *)
Lemma chain_pull : forall f vs b j it rest s v,
  chain_at vs b j s -> nth_error (iters s) it = Some (chain_iter b j rest) -> nth_error vs j = Some v ->
  exists s',
    ev restore (S (S (S (S (S (S (S f))))))) (CPull it) s = (s', Ok (OCons v ONil))
    /\ chain_at vs b (S j) s'
    /\ nth_error (iters s') it = Some (chain_iter b (S j) rest)
    /\ hlen s' = hlen s.
Proof.
  intros f vs b j it rest s v Hc Hi Ev.
  assert (Hj : j < length vs) by (apply nth_error_Some; congruence).
  assert (Hitlt : it < length (iters s)) by (apply nth_error_Some; congruence).
  destruct j as [|j']; simpl in Hi.
  - (* first pull: to_seq of the first input, then the SeqIterator over it *)
    set (s0 := set_iter s it (ItChain None rest)).
    destruct (chain_step restore (S f) vs b 0 s0 Hc ltac:(lia)) as [Hev Hc1].
    rewrite (chain_ret_cons vs b 0 v Ev) in Hev, Hc1. replace (b + 0) with b in Hev, Hc1 by lia.
    set (s1 := finish (start_call s0 b) b (OCons v (OLazy (b + 1)))) in *.
    assert (Hl1 : it < length (iters s1)).
    { unfold s1. rewrite iters_finish, iters_start_call. cbn [iters set_iter s0]. rewrite upd_length. exact Hitlt. }
    exists (set_iter (set_iter s1 it (ItChain (Some (OCons v (OLazy (b + 1)))) rest)) it (ItChain (Some (OLazy (b + 1))) rest)).
    split; [|split; [|split]].
    + rewrite (ev_CPull_chain_none _ it s (OLazy b) rest Hi). cbv zeta. fold s0. rewrite ev_CToSeq_lazy, Hev.
      rewrite (ev_CPull_chain_some _ it _ _ rest (iters_set_iter_same s1 it _ Hl1)). reflexivity.
    + exact Hc1.
    + apply iters_set_iter_same. cbn [iters set_iter]. rewrite upd_length. exact Hl1.
    + change (hlen s1 = hlen s). unfold s1. rewrite hlen_finish, hlen_start_call. reflexivity.
  - (* later pulls: the SeqIterator forces the position it stands at *)
    destruct (chain_step restore (S f) vs b (S j') s Hc ltac:(lia)) as [Hev Hc1].
    rewrite (chain_ret_cons vs b (S j') v Ev) in Hev, Hc1.
    eexists. split; [|split; [|split]].
    + rewrite (ev_CPull_chain_some _ it s _ rest Hi), ev_CIterNext_lazy, Hev. reflexivity.
    + exact Hc1.
    + apply iters_set_iter_same. rewrite iters_finish, iters_start_call. exact Hitlt.
    + cbn [set_iter]. change (hlen (finish (start_call s (b + S j')) (b + S j') (OCons v (OLazy (b + S (S j'))))) = hlen s).
      rewrite hlen_finish. apply hlen_start_call.
Qed.

Lemma concat_step : forall f vs b j it c rest s v,
  concat_at vs b j it c rest s -> nth_error vs j = Some v ->
  exists s',
    ev restore (S (S (S (S (S (S (S (S (S (S f)))))))))) (CSeq c) s = (s', Ok (OCons v (OLazy (hlen s))))
    /\ concat_at vs b (S j) it (hlen s) rest s'.
Proof.
  intros f vs b j it c rest s v [Hc [Hg [Hout Hi]]] Ev.
  assert (Hc1 : chain_at vs b j (start_call s c)) by (apply chain_at_upd_cell; assumption).
  rewrite <- (iters_start_call s c) in Hi.
  destruct (chain_pull f vs b j it rest _ v Hc1 Hi Ev) as [s2 [Hev [Hc2 [Hi2 Hh2]]]].
  rewrite hlen_start_call in Hh2.
  destruct (seqit_step_val restore _ it c s s2 v Hg Hev Hh2) as [Hsq Hg'].
  eexists. split; [exact Hsq|]. split; [|split; [exact Hg'|split]].
  - apply chain_at_finish; [|assumption]. apply chain_at_alloc. exact Hc2.
  - apply (chain_at_hlen vs b j s Hc).
  - rewrite iters_finish. exact Hi2.
Qed.

End Pull.

(** (concat s rest...): walking m <= length elements realizes exactly the first m cells of s; the iterator
    still holds [rest] untouched -- no later input has been looked at *)
Lemma walk_concat : forall restore f vs b rest m j it c s acc,
  concat_at vs b j it c rest s -> j + m <= length vs ->
  exists s' c',
    walk restore (S (S (S (S (S (S (S (S (S (S (S f))))))))))) m (OLazy c) acc s =
      (s', Ok (OLazy c'), rev (chain_vals vs j m) ++ acc)
    /\ concat_at vs b (j + m) it c' rest s'.
Proof.
  induction m; intros j it c s acc Hc Hm.
  - exists s, c. simpl. unfold chain_vals. simpl. replace (j + 0) with j by lia. split; [reflexivity|exact Hc].
  - destruct (nth_error vs j) as [v|] eqn:Ev; [|apply nth_error_None in Ev; lia].
    destruct (concat_step restore f vs b j it c rest s v Hc Ev) as [s1 [Hev Hc1]].
    destruct (IHm (S j) it (hlen s) s1 (v :: acc) Hc1 ltac:(lia)) as [s' [c' [Hw Hc']]].
    exists s', c'. rewrite (walk_cons restore _ m c acc s _ _ _ Hev), Hw. split.
    + rewrite (chain_vals_S vs j m v acc Ev). reflexivity.
    + replace (j + S m) with (S j + m) by lia. exact Hc'.
Qed.
