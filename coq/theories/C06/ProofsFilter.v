(** C06 -- laziness of core.lpy filter: forcing one element runs the source producers up to and
    including the first match -- the loop of LazySeq::seq over the lazy seqs the generator returns for
    non-matching elements -- and not one more. *)
From Coq Require Import List NArith Arith Lia.
From Verif Require Import C06.LazySeq C06.ProofsBig C06.ProofsLazy C06.ProofsMap.

Definition filter_at (p : pred) (vs : list N) (b j c : nat) (s : st) : Prop :=
  chain_at vs b j s /\ get s c = Some (out_cell (GFilter p (OLazy (b + j)))) /\ b + length vs < c.

(** what one call of the generator of a filter cell returns *)
Definition filter_ret (p : pred) (vs : list N) (j new : nat) : obj :=
  match nth_error vs j with
  | Some v => if app_pred p v then OCons v (OLazy new) else OLazy new
  | None => ONil
  end.

Lemma filter_compute_cons : forall restore f p vs b j c s v,
  filter_at p vs b j c s -> nth_error vs j = Some v ->
  exists s',
    ev restore (S (S (S (S (S (S (S f))))))) (CCompute c) s = (s', Ok (filter_ret p vs j (hlen s)))
    /\ filter_at p vs b (S j) (hlen s) s'
    /\ fcalls s' = N.succ (fcalls s).
Proof.
  intros restore f p vs b j c s v [Hc [Hg Hout]] Ev.
  assert (Hj : j < length vs) by (apply nth_error_Some; congruence).
  destruct (src_step restore f vs b j c s Hc ltac:(lia) Hout) as [s1 [Hev [Hc1 [Hh [Hf _]]]]].
  rewrite (chain_ret_cons vs b j v Ev) in Hev.
  pose proof (chain_at_hlen _ _ _ _ Hc) as Hb. pose proof (get_lt _ _ _ Hg) as Hclt.
  exists (set_cst (fst (alloc (bump_f s1) (GFilter p (OLazy (b + S j))))) c (Computed (filter_ret p vs j (hlen s)))).
  split; [|split].
  - apply (compute_fresh restore _ s c _ _ _ _ Hg eq_refl).
    rewrite ev_CGen_filter, Hev. cbn [rest_norm]. unfold alloc, filter_ret. cbn [heap bump_f fst]. fold (hlen s1).
    rewrite Hh, Ev. destruct (app_pred p v); reflexivity.
  - split; [|split; [|assumption]].
    + apply chain_at_upd_cell; [|assumption]. apply (chain_at_alloc vs b (S j) (bump_f s1)). exact Hc1.
    + rewrite get_set_cst. destruct (Nat.eqb_spec c (hlen s)); [unfold hlen in *; lia|]. rewrite <- Hh. apply (get_alloc_new (bump_f s1)).
  - rewrite fcalls_set_cst. cbn [fcalls fst alloc set_heap bump_f]. rewrite Hf. reflexivity.
Qed.

Lemma filter_compute_nil : forall restore f p vs b c s,
  filter_at p vs b (length vs) c s ->
  exists s',
    ev restore (S (S (S (S (S (S (S f))))))) (CCompute c) s = (s', Ok ONil)
    /\ chain_at vs b (S (length vs)) s' /\ fcalls s' = fcalls s.
Proof.
  intros restore f p vs b c s [Hc [Hg Hout]].
  destruct (src_step restore f vs b (length vs) c s Hc (le_n _) Hout) as [s1 [Hev [Hc1 [_ [Hf _]]]]].
  rewrite chain_ret_end in Hev.
  exists (set_cst s1 c (Computed ONil)). split; [|split].
  - apply (compute_fresh restore _ s c _ _ _ _ Hg eq_refl). rewrite ev_CGen_filter, Hev. reflexivity.
  - apply chain_at_upd_cell; assumption.
  - rewrite fcalls_set_cst. exact Hf.
Qed.

(** index of the first element at or after j that satisfies p (length vs if there is none) *)
Fixpoint first_match (p : pred) (vs : list N) (j : nat) (fuel : nat) : nat :=
  match fuel with
  | O => j
  | S k => match nth_error vs j with
           | Some v => if app_pred p v then j else first_match p vs (S j) k
           | None => j
           end
  end.

Lemma first_match_ge : forall p vs r j, j <= first_match p vs j r.
Proof.
  induction r; intros; simpl; [lia|]. destruct (nth_error vs j); [|lia].
  destruct (app_pred p n); [lia|]. specialize (IHr (S j)). lia.
Qed.

Definition match_obj (vs : list N) (jm : nat) (o : obj) : Prop :=
  match nth_error vs jm with
  | Some v => exists new, o = OCons v (OLazy new)
  | None => o = ONil
  end.

(** the loop of seq(c0) over the lazy seqs returned for non-matching elements; c0 is any cell beyond the
    chain, the filter cell [c] itself included *)
Lemma filter_unwrap : forall restore f p vs b r j c c0 s,
  length vs - j = r -> j <= length vs ->
  filter_at p vs b j c s -> b + length vs < c0 ->
  exists s' o,
    ev restore (S (S (S (S (S (S (S (S (r + f))))))))) (CUnwrap c0 (OLazy c)) s = (s', Ok o)
    /\ match_obj vs (first_match p vs j (S r)) o
    /\ chain_at vs b (S (first_match p vs j (S r))) s'
    /\ fcalls s' = (fcalls s + N.of_nat (first_match p vs j (S r) - j
                                          + (if Nat.ltb (first_match p vs j (S r)) (length vs) then 1 else 0)))%N.
Proof.
  induction r; intros j c c0 s Hr Hj Hf Hout0.
  - (* j = length vs: the source is exhausted *)
    assert (j = length vs) by lia. subst j.
    destruct (filter_compute_nil restore (0 + f) p vs b c s Hf) as [s1 [Hev [Hc1 Hf1]]].
    assert (Ev : nth_error vs (length vs) = None) by (apply nth_error_None; lia).
    exists (set_cst s1 c0 (Realized ONil)), ONil.
    rewrite ev_CUnwrap_lazy, Hev. rewrite ev_CUnwrap_plain by reflexivity.
    simpl first_match. rewrite Ev. split; [reflexivity|split; [|split]].
    + unfold match_obj. rewrite Ev. reflexivity.
    + apply chain_at_upd_cell; assumption.
    + rewrite fcalls_set_cst, Hf1. rewrite Nat.sub_diag. rewrite Nat.ltb_irrefl. simpl. lia.
  - (* j < length vs *)
    assert (Hlt : j < length vs) by lia.
    destruct (nth_error vs j) as [v|] eqn:Ev; [|apply nth_error_None in Ev; lia].
    destruct (filter_compute_cons restore (S r + f) p vs b j c s v Hf Ev) as [s1 [Hev [Hf1 Hfc1]]].
    rewrite ev_CUnwrap_lazy, Hev.
    change (first_match p vs j (S (S r))) with
      (match nth_error vs j with Some v => if app_pred p v then j else first_match p vs (S j) (S r) | None => j end).
    rewrite Ev. unfold filter_ret. rewrite Ev. destruct (app_pred p v) eqn:Ep.
    + (* match: the loop ends here *)
      exists (set_cst s1 c0 (Realized (OCons v (OLazy (hlen s))))), (OCons v (OLazy (hlen s))).
      rewrite ev_CUnwrap_plain by reflexivity. split; [reflexivity|split; [|split]].
      * unfold match_obj. rewrite Ev. eauto.
      * apply chain_at_upd_cell; [apply Hf1|assumption].
      * rewrite fcalls_set_cst, Hfc1. rewrite Nat.sub_diag. destruct (Nat.ltb_spec j (length vs)); simpl; lia.
    + (* no match: the generator returned the lazy seq for the rest; go round the loop *)
      destruct (IHr (S j) (hlen s) c0 s1 ltac:(lia) ltac:(lia) Hf1 Hout0) as [s' [o [Hev' [Hm [Hc' Hfc']]]]].
      exists s', o. change (S r + f) with (S (r + f)). rewrite Hev'.
      split; [reflexivity|split; [exact Hm|split; [exact Hc'|]]].
      rewrite Hfc', Hfc1. pose proof (first_match_ge p vs (S r) (S j)).
      destruct (Nat.ltb (first_match p vs (S j) (S r)) (length vs)); lia.
Qed.

(** seq(c) on a cell that has not been started is the loop of seq(c) entered at c itself *)
Lemma seq_as_unwrap : forall restore n s c k g s' o,
  get s c = Some k -> cst k = Initialized g ->
  ev restore (S n) (CUnwrap c (OLazy c)) s = (s', Ok o) ->
  ev restore (S n) (CSeq c) s = (s', Ok o).
Proof.
  intros restore n s c k g s' o Hg Hc H. rewrite ev_CSeq, Hg, Hc. rewrite ev_CUnwrap_lazy in H.
  destruct n as [|m]; [discriminate|]. rewrite ev_CCompute, Hg, Hc in *.
  destruct (ev restore m (CGen g) (start_call s c)) as [s2 r2] eqn:E. destruct r2; try discriminate.
  destruct (get_survives _ _ _ _ _ _ _ _ Hg E) as [k2 E2].
  rewrite get_set_cst, Nat.eqb_refl, E2. exact H.
Qed.

(** forcing ONE element of (filter p s): the source producers j .. first match run (and the final nil cell
    when nothing matches), not one more; p is applied once per element inspected *)
Theorem seq_filter : forall restore f p vs b j c s,
  filter_at p vs b j c s -> j <= length vs ->
  let jm := first_match p vs j (S (length vs - j)) in
  exists s' o,
    ev restore (S (S (S (S (S (S (S (S (S ((length vs - j) + f)))))))))) (CSeq c) s = (s', Ok o)
    /\ match_obj vs jm o
    /\ chain_at vs b (S jm) s'
    /\ fcalls s' = (fcalls s + N.of_nat (jm - j + (if Nat.ltb jm (length vs) then 1 else 0)))%N.
Proof.
  intros restore f p vs b j c s Hf Hj jm. pose proof Hf as [_ [Hg Hout]].
  destruct (filter_unwrap restore (S f) p vs b _ j c c s eq_refl Hj Hf Hout) as [s' [o [Hev H]]].
  exists s', o. split; [|exact H].
  replace (S (length vs - j + f)) with (length vs - j + S f) by lia.
  eapply seq_as_unwrap; [exact Hg|reflexivity|exact Hev].
Qed.
