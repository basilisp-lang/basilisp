(** C06 -- shared vocabulary of the two models of rust/src/basilisp_native/seq.rs.

    Objects a producer can return / a cell can hold, the four-state cell of [LazySeq]
    ([enum LazySeqState]), generators (what the [Initialized] state carries), scripted
    producer behaviours, iterators shared by [Sequence] cells. *)
From Coq Require Import List NArith Bool Arith Lia.
Import ListNotations.

Definition cid := nat.          (* index of a LazySeq cell in the heap *)

(** Python-level values that flow through seq.rs: [None], the [EMPTY] seq, a [Cons]
    (first, rest) and a [LazySeq] object (by identity). *)
Inductive obj :=
| ONil
| OEmpty
| OCons (v : N) (r : obj)
| OLazy (c : cid).

Inductive fn := FAdd (k : N) | FMul (k : N) | FConst (k : N).
Definition app_fn (f : fn) (x : N) : N :=
  match f with FAdd k => (x + k)%N | FMul k => (x * k)%N | FConst k => k end.

Inductive pred := PTrue | PFalse | PEven | PLt (k : N) | PMod (m r : N).
Definition app_pred (p : pred) (x : N) : bool :=
  match p with
  | PTrue => true | PFalse => false
  | PEven => N.even x
  | PLt k => (x <? k)%N
  | PMod m r => (N.modulo x (N.succ m) =? r)%N
  end.

(** One step of a scripted producer (a Python callable interpreted from JSON by the harness). *)
Inductive action :=
| AYield                 (* a point where the producer lets go of the GIL (switch interval, blocking call) *)
| AWait (e : nat)        (* threading.Event.wait(): releases the GIL while the event is unset *)
| ASet (e : nat)         (* threading.Event.set() *)
| ATouch (c : cid)       (* calls .seq() on LazySeq c and remembers whether it saw nil (re-entrancy probe) *)
| ARet (o : obj)         (* return o *)
| ARetTick (r : obj)     (* return Cons(next(shared counter), r): a producer with a shared side effect *)
| AThrow.                (* raise *)

(** Generators: the callable stored in [LazySeqState::Initialized]. *)
Inductive gen :=
| GScript (l : list action)
| GSeqIt (it : nat)                   (* seq.rs Sequence.__call__ over shared iterator [it] *)
| GMap (f : fn) (src : obj)           (* core.lpy map, 2-ary:    (when-let [coll (seq coll)] (cons (f (first coll)) (map f (rest coll)))) *)
| GFilter (p : pred) (src : obj)      (* core.lpy filter *)
| GTake (n : N) (src : obj)           (* core.lpy take *)
| GIterate (f : fn) (x : N).          (* core.lpy iterate:       (cons x (iterate f (f x))) *)

Inductive cstate :=
| Initialized (g : gen)
| Computing
| Computed (o : obj)
| Realized (o : obj).

(** A cell with instrumentation: how often its generator was called and how often it raised. *)
Record cell := mkCell { cst : cstate; ncalls : N; nthrows : N }.

Inductive item := IVal (v : N) | IRaise.

(** Python iterators a [Sequence] pulls from. *)
Inductive iter :=
| ItList (l : list item)                         (* a scripted iterator: values, or an exception at that pull *)
| ItSeq (cur : obj)                              (* seq.rs SeqIterator: (iterator-seq (iter s)) *)
| ItChain (cur : option obj) (srcs : list obj).  (* runtime.concat_from_seq: chain.from_iterable(filter(None, map(to_seq, seqs))) *)

(** [Cons.rest] / [(rest coll)] of a cons whose stored rest is None is EMPTY. *)
Definition rest_norm (r : obj) : obj := match r with ONil => OEmpty | _ => r end.

(** [seq_or_nil] on something that is not a LazySeq. *)
Definition seq_or_nil (o : obj) : obj := match o with OEmpty => ONil | _ => o end.

Definition is_nil (o : obj) : bool := match o with ONil => true | _ => false end.

Definition nonlazy (o : obj) : bool := match o with OLazy _ => false | _ => true end.

(* ---- decidable equalities (for the correspondence) ---- *)
Fixpoint obj_eqb (a b : obj) : bool :=
  match a, b with
  | ONil, ONil => true
  | OEmpty, OEmpty => true
  | OCons v r, OCons v' r' => N.eqb v v' && obj_eqb r r'
  | OLazy c, OLazy c' => Nat.eqb c c'
  | _, _ => false
  end.

Lemma obj_eqb_eq : forall a b, obj_eqb a b = true <-> a = b.
Proof.
  induction a; destruct b; simpl; split; intro H; try congruence; try discriminate; auto.
  - apply andb_true_iff in H. destruct H as [H1 H2]. apply N.eqb_eq in H1. apply IHa in H2. congruence.
  - inversion H; subst. rewrite N.eqb_refl. simpl. apply IHa. reflexivity.
  - apply Nat.eqb_eq in H. congruence.
  - inversion H; subst. apply Nat.eqb_refl.
Qed.

(* ---- list heap helpers ---- *)
Fixpoint upd {A} (l : list A) (i : nat) (x : A) : list A :=
  match l, i with
  | [], _ => []
  | _ :: t, O => x :: t
  | h :: t, S j => h :: upd t j x
  end.

Lemma upd_length : forall A (l : list A) i x, length (upd l i x) = length l.
Proof. induction l; destruct i; simpl; auto. Qed.

Lemma nth_error_upd_same : forall A (l : list A) i x, i < length l -> nth_error (upd l i x) i = Some x.
Proof. induction l; destruct i; simpl; intros; try lia; auto. apply IHl. lia. Qed.

Lemma nth_error_upd_other : forall A (l : list A) i j x, i <> j -> nth_error (upd l i x) j = nth_error l j.
Proof. induction l; destruct i, j; simpl; intros; try congruence; auto. Qed.

Lemma nth_error_upd : forall A (l : list A) i j x,
  nth_error (upd l i x) j = if Nat.eqb i j then (if Nat.ltb i (length l) then Some x else None) else nth_error l j.
Proof.
  intros. destruct (Nat.eqb_spec i j).
  - subst. destruct (Nat.ltb_spec j (length l)).
    + apply nth_error_upd_same; auto.
    + apply nth_error_None. rewrite upd_length. lia.
  - apply nth_error_upd_other; auto.
Qed.

Lemma nth_error_upd_inv : forall A (l : list A) i x j y,
  nth_error (upd l i x) j = Some y -> (j = i /\ y = x) \/ (j <> i /\ nth_error l j = Some y).
Proof.
  intros. rewrite nth_error_upd in H. destruct (Nat.eqb_spec i j).
  - subst. destruct (Nat.ltb j (length l)); [inversion H; auto|discriminate].
  - right. split; auto.
Qed.

Lemma upd_some_old : forall A (l : list A) i x j y, nth_error (upd l i x) j = Some y -> exists z, nth_error l j = Some z.
Proof.
  intros. assert (j < length l). { rewrite <- (upd_length _ l i x). apply nth_error_Some. congruence. }
  destruct (nth_error l j) eqn:E; eauto. apply nth_error_None in E. lia.
Qed.

(* ---- vocabulary shared by the model (LazySeq.v) and the reference semantics (Spec.v) ---- *)
Inductive res := Ok (o : obj) | Exn | OutOfFuel | Bad.


Inductive rootspec :=
| RObj (o : obj)                          (* an object as it is (OLazy c refers to a scripted cell) *)
| RMap (f : fn) (r : rootspec)
| RFilter (p : pred) (r : rootspec)
| RTake (n : N) (r : rootspec)
| RIterate (f : fn) (x : N)
| RConcat (rs : list rootspec)            (* (concat a b ...) *)
| RItSeq (it : nat).                      (* (iterator-seq <scripted iterator it>) / seq over a Python iterable *)

Inductive op :=
| OpFirst (r : nat) | OpRest (r : nat) | OpNext (r : nat) | OpSeq (r : nat)
| OpCount (r : nat) | OpNth (r : nat) (i : nat) | OpIter (r : nat) (limit : nat).

(** What one operation lets the consumer observe. *)
Inductive obs :=
| BVal (v : option N)          (* first / nth: a value or nil *)
| BKind (k : N)                (* rest / next / seq: 0 None, 1 EMPTY, 2 Cons, 3 LazySeq *)
| BNum (n : N)                 (* count *)
| BList (l : list N)           (* iteration *)
| BExn (k : N)                 (* 1 the producer's exception, 2 IndexError, 3 anything else *)
| BBad.                        (* the model cannot run this (out of fuel, dangling reference, blocked) *)

Definition kind_of (o : obj) : N :=
  match o with ONil => 0 | OEmpty => 1 | OCons _ _ => 2 | OLazy _ => 3 end%N.

Definition obs_of_res (r : res) (okf : obj -> obs) : obs :=
  match r with Ok o => okf o | Exn => BExn 1 | _ => BBad end.

