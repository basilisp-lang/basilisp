(** C06 -- laziness: what runs when an element is demanded (one-thread model, LazySeq.v).

    Sources are instrumented chains of scripted cells: cell b+i returns (cons v_i (lazy b+i+1)), the
    cell after the last returns nil.  [chain_at vs b j s] says: in state s the first j producers of
    the chain have run exactly once and the others never. *)
From Coq Require Import List NArith Arith Lia.
Import ListNotations.
From Verif Require Import C06.LazySeq C06.ProofsBig.

Lemma get_set_cst : forall s c x c',
  get (set_cst s c x) c' =
  if Nat.eqb c c' then option_map (fun k => mkCell x (ncalls k) (nthrows k)) (get s c) else get s c'.
Proof. intros. rewrite set_cst_upd. apply get_upd_cell. Qed.

Lemma get_start_call : forall s c c',
  get (start_call s c) c' =
  if Nat.eqb c c' then option_map (fun k => mkCell Computing (N.succ (ncalls k)) (nthrows k)) (get s c) else get s c'.
Proof. intros. rewrite start_call_upd. apply get_upd_cell. Qed.

Lemma fcalls_upd_cell : forall s c f, fcalls (upd_cell s c f) = fcalls s.
Proof. intros. unfold upd_cell. destruct (get s c); reflexivity. Qed.
Lemma iters_upd_cell : forall s c f, iters (upd_cell s c f) = iters s.
Proof. intros. unfold upd_cell. destruct (get s c); reflexivity. Qed.

Lemma fcalls_set_cst : forall s c x, fcalls (set_cst s c x) = fcalls s.
Proof. intros. rewrite set_cst_upd. apply fcalls_upd_cell. Qed.
Lemma fcalls_start_call : forall s c, fcalls (start_call s c) = fcalls s.
Proof. intros. rewrite start_call_upd. apply fcalls_upd_cell. Qed.
Lemma iters_set_cst : forall s c x, iters (set_cst s c x) = iters s.
Proof. intros. rewrite set_cst_upd. apply iters_upd_cell. Qed.
Lemma iters_start_call : forall s c, iters (start_call s c) = iters s.
Proof. intros. rewrite start_call_upd. apply iters_upd_cell. Qed.

Lemma get_alloc_new : forall s g, get (fst (alloc s g)) (hlen s) = Some (mkCell (Initialized g) 0 0).
Proof. intros. unfold alloc, get, hlen. simpl. rewrite nth_error_app2 by lia. rewrite Nat.sub_diag. reflexivity. Qed.

(** One level of [ev] per kind of call: rewriting with these unfolds the outer call only ([simpl] goes on inside). *)
Section Eqs.
Variable restore : bool.

Lemma ev_CSeq : forall f c s, ev restore (S f) (CSeq c) s =
        match get s c with
        | None => (s, Bad)
        | Some cl =>
          match cst cl with
          | Realized o => (s, Ok o)
          | _ =>
            let (s1, r) := ev restore f (CCompute c) s in
            match r with
            | Ok _ =>
                match get s1 c with
                | Some cl1 =>
                    match cst cl1 with
                    | Computed o => ev restore f (CUnwrap c o) s1
                    | _ => (s1, Ok ONil)
                    end
                | None => (s1, Bad)
                end
            | e => (s1, e)
            end
          end
        end.
Proof. reflexivity. Qed.

Lemma ev_CCompute : forall f c s, ev restore (S f) (CCompute c) s =
        match get s c with
        | None => (s, Bad)
        | Some cl =>
          match cst cl with
          | Computing => (s, Ok ONil)
          | Computed o => (s, Ok o)
          | Realized o => (s, Ok o)
          | Initialized g =>
              let (s2, r) := ev restore f (CGen g) (start_call s c) in
              match r with
              | Ok o => (set_cst s2 c (Computed o), Ok o)
              | Exn => (note_throw s2 c (if restore then Initialized g else Computing), Exn)
              | e => (s2, e)
              end
          end
        end.
Proof. reflexivity. Qed.

Lemma ev_CToSeq_lazy : forall f c s, ev restore (S f) (CToSeq (OLazy c)) s = ev restore f (CSeq c) s.
Proof. reflexivity. Qed.
Lemma ev_CIterNext_lazy : forall f c s, ev restore (S f) (CIterNext (OLazy c)) s =
  let (s1, r) := ev restore f (CSeq c) s in
  match r with
  | Ok (OCons v rst) => (s1, Ok (OCons v (rest_norm rst)))
  | Ok _ => (s1, Ok ONil)
  | e => (s1, e)
  end.
Proof. reflexivity. Qed.

Lemma ev_CUnwrap_plain : forall f c w s, nonlazy w = true ->
  ev restore (S f) (CUnwrap c w) s = (set_cst s c (Realized (seq_or_nil w)), Ok (seq_or_nil w)).
Proof. intros. destruct w; try discriminate; reflexivity. Qed.

Lemma ev_CUnwrap_lazy : forall f c d s, ev restore (S f) (CUnwrap c (OLazy d)) s =
            let (s1, r) := ev restore f (CCompute d) s in
            match r with
            | Ok w' => ev restore f (CUnwrap c w') s1
            | Exn => (mark_if_realized s1 c, Exn)
            | e => (s1, e)
            end.
Proof. reflexivity. Qed.

Lemma ev_CGen_map : forall f fn src s, ev restore (S f) (CGen (GMap fn src)) s =
            let (s1, r) := ev restore f (CToSeq src) s in
            match r with
            | Ok (OCons v rst) =>
                let (s2, n) := alloc (bump_f s1) (GMap fn (rest_norm rst)) in
                (s2, Ok (OCons (app_fn fn v) (OLazy n)))
            | Ok _ => (s1, Ok ONil)
            | e => (s1, e)
            end.
Proof. reflexivity. Qed.

Lemma ev_CGen_filter : forall f p src s, ev restore (S f) (CGen (GFilter p src)) s =
            let (s1, r) := ev restore f (CToSeq src) s in
            match r with
            | Ok (OCons v rst) =>
                let (s2, n) := alloc (bump_f s1) (GFilter p (rest_norm rst)) in
                if app_pred p v then (s2, Ok (OCons v (OLazy n))) else (s2, Ok (OLazy n))
            | Ok _ => (s1, Ok ONil)
            | e => (s1, e)
            end.
Proof. reflexivity. Qed.

Lemma ev_CGen_take : forall f n src s, ev restore (S f) (CGen (GTake n src)) s =
            if (n =? 0)%N then (s, Ok ONil) else
            let (s1, r) := ev restore f (CToSeq src) s in
            match r with
            | Ok (OCons v rst) =>
                let (s2, m) := alloc s1 (GTake (N.pred n) (rest_norm rst)) in
                (s2, Ok (OCons v (OLazy m)))
            | Ok _ => (s1, Ok ONil)
            | e => (s1, e)
            end.
Proof. reflexivity. Qed.

Lemma ev_CGen_iterate : forall f fn x s, ev restore (S f) (CGen (GIterate fn x)) s =
            let (s2, n) := alloc (bump_f s) (GIterate fn (app_fn fn x)) in
            (s2, Ok (OCons x (OLazy n))).
Proof. reflexivity. Qed.

Lemma ev_CGen_seqit : forall f it s, ev restore (S f) (CGen (GSeqIt it)) s =
            let (s1, r) := ev restore f (CPull it) s in
            match r with
            | Ok (OCons v _) =>
                let (s2, n) := alloc s1 (GSeqIt it) in (s2, Ok (OCons v (OLazy n)))
            | Ok _ => (s1, Ok OEmpty)
            | e => (s1, e)
            end.
Proof. reflexivity. Qed.

(** a memoised cell costs nothing *)
Lemma realized_seq : forall f s c k o,
  get s c = Some k -> cst k = Realized o -> ev restore (S f) (CSeq c) s = (s, Ok o).
Proof. intros. rewrite ev_CSeq, H, H0. reflexivity. Qed.

(** what seq(c) makes of the state its producer left with a non-lazy [r]: Computed r, then at once Realized *)
Definition finish (s : st) (c : cid) (r : obj) : st :=
  set_cst (set_cst s c (Computed r)) c (Realized (seq_or_nil r)).

Lemma get_finish_other : forall s c r c', c <> c' -> get (finish s c r) c' = get s c'.
Proof. intros. unfold finish. rewrite !get_set_cst. destruct (Nat.eqb_spec c c'); congruence. Qed.
Lemma get_finish_same : forall s c r k,
  get s c = Some k -> get (finish s c r) c = Some (mkCell (Realized (seq_or_nil r)) (ncalls k) (nthrows k)).
Proof. intros. unfold finish. rewrite !get_set_cst, Nat.eqb_refl, H. reflexivity. Qed.
Lemma hlen_finish : forall s c r, hlen (finish s c r) = hlen s.
Proof. intros. unfold finish. rewrite !hlen_set_cst. reflexivity. Qed.
Lemma fcalls_finish : forall s c r, fcalls (finish s c r) = fcalls s.
Proof. intros. unfold finish. rewrite !fcalls_set_cst. reflexivity. Qed.
Lemma iters_finish : forall s c r, iters (finish s c r) = iters s.
Proof. intros. unfold finish. rewrite !iters_set_cst. reflexivity. Qed.

Lemma compute_fresh : forall f s c k g s2 r,
  get s c = Some k -> cst k = Initialized g ->
  ev restore f (CGen g) (start_call s c) = (s2, Ok r) ->
  ev restore (S f) (CCompute c) s = (set_cst s2 c (Computed r), Ok r).
Proof. intros f s c k g s2 r Hg Hc Hev. rewrite ev_CCompute, Hg, Hc, Hev. reflexivity. Qed.

(** Fuel = depth of the call nest.  A scripted cell: CSeq > CCompute > CGen > CScript, 4.  map/take/filter force their
    source under CSeq > CCompute > CGen > CToSeq: 8 (filter: once more per rejected element, [r + f]).  A Sequence
    cell: CSeq > CCompute > CGen > CPull, 4 (iterate 3); concat pulls through the chain iterator, 7 deep: 10.
    A walk adds CIterNext. *)

(** forcing a not-started cell whose generator (run with the cell Computing) returns a non-lazy object *)
Lemma seq_fresh : forall f s c k g s2 r,
  get s c = Some k -> cst k = Initialized g ->
  ev restore f (CGen g) (start_call s c) = (s2, Ok r) -> nonlazy r = true ->
  ev restore (S (S f)) (CSeq c) s = (finish s2 c r, Ok (seq_or_nil r)).
Proof.
  intros f s c k g s2 r Hg Hc Hev Hn.
  destruct (get_survives _ _ _ _ _ _ _ _ Hg Hev) as [k2 E2].
  rewrite ev_CSeq, Hg, Hc, (compute_fresh _ _ _ _ _ _ _ Hg Hc Hev).
  rewrite get_set_cst, Nat.eqb_refl, E2. cbn [option_map cst].
  destruct f; [discriminate|]. apply ev_CUnwrap_plain. assumption.
Qed.

End Eqs.

Definition chain_ret (vs : list N) (b i : nat) : obj :=
  match nth_error vs i with Some v => OCons v (OLazy (b + S i)) | None => ONil end.
Definition fresh_cell (o : obj) : cell := mkCell (Initialized (GScript [ARet o])) 0 0.
Definition done_cell (o : obj) : cell := mkCell (Realized (seq_or_nil o)) 1 0.

(** the first [j] producers of the chain at [b] have run once, the others never *)
Definition chain_at (vs : list N) (b j : nat) (s : st) : Prop :=
  forall i, i <= length vs ->
    get s (b + i) = Some (if Nat.ltb i j then done_cell (chain_ret vs b i) else fresh_cell (chain_ret vs b i)).

Lemma chain_ret_nonlazy : forall vs b i, nonlazy (chain_ret vs b i) = true.
Proof. intros. unfold chain_ret. destruct (nth_error vs i); reflexivity. Qed.

Lemma chain_ret_seq : forall vs b i, seq_or_nil (chain_ret vs b i) = chain_ret vs b i.
Proof. intros. unfold chain_ret. destruct (nth_error vs i); reflexivity. Qed.

Lemma chain_ret_cons : forall vs b j v, nth_error vs j = Some v -> chain_ret vs b j = OCons v (OLazy (b + S j)).
Proof. intros. unfold chain_ret. rewrite H. reflexivity. Qed.

Lemma chain_ret_end : forall vs b, chain_ret vs b (length vs) = ONil.
Proof. intros. unfold chain_ret. replace (nth_error vs (length vs)) with (@None N); [reflexivity|]. symmetry. apply nth_error_None. lia. Qed.

(** the scripts that make such a chain, and the initial state is a chain at 0 *)
Fixpoint chain_scripts (vs : list N) (b : nat) : list (list action) :=
  match vs with
  | [] => [[ARet ONil]]
  | v :: t => [ARet (OCons v (OLazy (S b)))] :: chain_scripts t (S b)
  end.

Lemma chain_scripts_nth : forall vs b i, i <= length vs ->
  nth_error (chain_scripts vs b) i = Some [ARet (chain_ret vs b i)].
Proof.
  induction vs; intros b i Hi; simpl in *.
  - assert (i = 0) by lia. subst. reflexivity.
  - destruct i; simpl.
    + unfold chain_ret. simpl. replace (b + 1) with (S b) by lia. reflexivity.
    + rewrite IHvs by lia. unfold chain_ret. simpl. replace (b + S (S i)) with (S (b + S i)) by lia. reflexivity.
Qed.

Lemma chain_at_init : forall vs its nev, chain_at vs 0 0 (init_st (chain_scripts vs 0) its nev).
Proof.
  intros vs its nev i Hi. unfold get, init_st. simpl.
  rewrite nth_error_map, chain_scripts_nth by assumption. reflexivity.
Qed.

Lemma chain_at_frame : forall vs b j s s',
  chain_at vs b j s -> (forall i, i <= length vs -> get s' (b + i) = get s (b + i)) -> chain_at vs b j s'.
Proof. intros vs b j s s' H Hf i Hi. rewrite Hf by assumption. apply H; assumption. Qed.

Lemma chain_at_hlen : forall vs b j s, chain_at vs b j s -> b + length vs < hlen s.
Proof. intros. eapply get_lt. apply (H (length vs)). lia. Qed.

Lemma chain_at_upd_cell : forall vs b j s c f,
  chain_at vs b j s -> b + length vs < c -> chain_at vs b j (upd_cell s c f).
Proof.
  intros vs b j s c f H Hc. apply (chain_at_frame vs b j s); [exact H|]. intros i Hi.
  rewrite get_upd_cell. destruct (Nat.eqb_spec c (b + i)); [lia|reflexivity].
Qed.

Lemma chain_at_finish : forall vs b j s c r,
  chain_at vs b j s -> b + length vs < c -> chain_at vs b j (finish s c r).
Proof. intros. unfold finish. apply (chain_at_upd_cell vs b j _ c); [apply (chain_at_upd_cell vs b j _ c)|]; assumption. Qed.

Lemma chain_at_alloc : forall vs b j s g, chain_at vs b j s -> chain_at vs b j (fst (alloc s g)).
Proof.
  intros vs b j s g H. apply (chain_at_frame vs b j s); [exact H|]. intros i Hi.
  apply nth_error_app1. eapply get_lt. apply (H i Hi).
Qed.

Lemma chain_step : forall restore f vs b j s,
  chain_at vs b j s -> j <= length vs ->
  ev restore (S (S (S (S f)))) (CSeq (b + j)) s =
    (finish (start_call s (b + j)) (b + j) (chain_ret vs b j), Ok (chain_ret vs b j))
  /\ chain_at vs b (S j) (finish (start_call s (b + j)) (b + j) (chain_ret vs b j)).
Proof.
  intros restore f vs b j s Hc Hj. pose proof (Hc j Hj) as Hg. rewrite Nat.ltb_irrefl in Hg.
  split.
  - rewrite <- (chain_ret_seq vs b j) at 2.
    apply (seq_fresh restore _ s (b + j) _ _ _ _ Hg eq_refl); [reflexivity|apply chain_ret_nonlazy].
  - intros i Hi. destruct (Nat.eq_dec i j).
    + subst. erewrite get_finish_same by (rewrite get_start_call, Nat.eqb_refl, Hg; reflexivity).
      destruct (Nat.ltb_spec j (S j)); try lia. reflexivity.
    + rewrite get_finish_other, get_start_call by lia. destruct (Nat.eqb_spec (b + j) (b + i)); [lia|].
      rewrite (Hc i Hi). destruct (Nat.ltb_spec i j), (Nat.ltb_spec i (S j)); try lia; reflexivity.
Qed.

Lemma chain_memo : forall restore f vs b j i s,
  chain_at vs b j s -> i < j -> i <= length vs ->
  ev restore (S f) (CSeq (b + i)) s = (s, Ok (chain_ret vs b i)).
Proof.
  intros. pose proof (H i H1) as Hg. destruct (Nat.ltb_spec i j); try lia.
  erewrite realized_seq; eauto. simpl. rewrite chain_ret_seq. reflexivity.
Qed.

(** what map / take / filter do first, inside the producer of a cell [c] beyond the chain: force position j of the source *)
Lemma src_step : forall restore f vs b j c s,
  chain_at vs b j s -> j <= length vs -> b + length vs < c ->
  exists s1,
    ev restore (S (S (S (S (S f))))) (CToSeq (OLazy (b + j))) (start_call s c) = (s1, Ok (chain_ret vs b j))
    /\ chain_at vs b (S j) s1 /\ hlen s1 = hlen s /\ fcalls s1 = fcalls s /\ iters s1 = iters s.
Proof.
  intros restore f vs b j c s Hc Hj Hout.
  assert (Hc1 : chain_at vs b j (start_call s c)) by (apply chain_at_upd_cell; assumption).
  destruct (chain_step restore f vs b j _ Hc1 Hj) as [Hev Hc2]. eexists. rewrite ev_CToSeq_lazy.
  split; [exact Hev|split; [exact Hc2|]].
  rewrite hlen_finish, fcalls_finish, iters_finish, !hlen_start_call, !fcalls_start_call, !iters_start_call. auto.
Qed.

Lemma skipn_cons_nth : forall {A} (vs : list A) j v, nth_error vs j = Some v -> skipn j vs = v :: skipn (S j) vs.
Proof.
  induction vs; intros j v H; destruct j; simpl in *; try discriminate.
  - inversion H; reflexivity.
  - apply IHvs; assumption.
Qed.

Definition chain_vals (vs : list N) (j m : nat) : list N := firstn m (skipn j vs).

Lemma chain_vals_cons : forall vs j m v, nth_error vs j = Some v ->
  chain_vals vs j (S m) = v :: chain_vals vs (S j) m.
Proof. intros. unfold chain_vals. rewrite (skipn_cons_nth vs j v H). reflexivity. Qed.

Lemma chain_vals_S : forall vs j m v acc, nth_error vs j = Some v ->
  rev (chain_vals vs j (S m)) ++ acc = rev (chain_vals vs (S j) m) ++ v :: acc.
Proof. intros. rewrite (chain_vals_cons vs j m v H). simpl. rewrite <- app_assoc. reflexivity. Qed.

Lemma chain_vals_end : forall vs m, chain_vals vs (length vs) m = [].
Proof. intros. unfold chain_vals. rewrite skipn_all. apply firstn_nil. Qed.

Lemma walk_cons : forall restore f m c acc s s1 v c',
  ev restore f (CSeq c) s = (s1, Ok (OCons v (OLazy c'))) ->
  walk restore (S f) (S m) (OLazy c) acc s = walk restore (S f) m (OLazy c') (v :: acc) s1.
Proof. intros. cbn [walk]. rewrite ev_CIterNext_lazy, H. reflexivity. Qed.

Lemma walk_nil : forall restore f m c acc s s1,
  ev restore f (CSeq c) s = (s1, Ok ONil) ->
  walk restore (S f) (S m) (OLazy c) acc s = (s1, Ok ONil, acc).
Proof. intros. cbn [walk]. rewrite ev_CIterNext_lazy, H. reflexivity. Qed.

Lemma walk_chain : forall restore f vs b m j s acc,
  chain_at vs b j s -> j <= length vs ->
  exists s',
    walk restore (S (S (S (S (S f))))) m (OLazy (b + j)) acc s =
      (s', Ok (if Nat.leb (j + m) (length vs) then OLazy (b + j + m) else ONil),
       rev (chain_vals vs j m) ++ acc)
    /\ chain_at vs b (Nat.min (j + m) (S (length vs))) s'
    /\ fcalls s' = fcalls s /\ iters s' = iters s.
Proof.
  induction m; intros j s acc Hc Hj.
  - exists s. simpl. replace (j + 0) with j by lia. destruct (Nat.leb_spec j (length vs)); try lia.
    unfold chain_vals. simpl. replace (b + j + 0) with (b + j) by lia. repeat split; auto.
    replace (Nat.min j (S (length vs))) with j by lia. assumption.
  - destruct (chain_step restore f vs b j s Hc Hj) as [Hev Hc'].
    assert (Hfi : forall o, fcalls (finish (start_call s (b + j)) (b + j) o) = fcalls s
                       /\ iters (finish (start_call s (b + j)) (b + j) o) = iters s).
    { intro o. rewrite fcalls_finish, iters_finish, fcalls_start_call, iters_start_call. auto. }
    destruct (nth_error vs j) as [v|] eqn:Ev.
    + assert (Hlt : j < length vs) by (apply nth_error_Some; congruence).
      rewrite (chain_ret_cons vs b j v Ev) in *.
      destruct (IHm (S j) _ (v :: acc) Hc' ltac:(lia)) as [s' [Hw [Hc'' [Hf Hi]]]].
      exists s'. rewrite (walk_cons restore _ m _ acc s _ v _ Hev), Hw. split; [|split; [|split]].
      * rewrite (chain_vals_S vs j m v acc Ev).
        replace (S j + m) with (j + S m) by lia. replace (b + S j + m) with (b + j + S m) by lia. reflexivity.
      * replace (j + S m) with (S j + m) by lia. assumption.
      * rewrite Hf. apply Hfi.
      * rewrite Hi. apply Hfi.
    + assert (j = length vs) by (apply nth_error_None in Ev; lia). subst j. rewrite chain_ret_end in *.
      eexists. rewrite (walk_nil restore _ m _ acc s _ Hev). split; [|split; [|apply Hfi]].
      * destruct (Nat.leb_spec (length vs + S m) (length vs)); try lia. rewrite chain_vals_end. reflexivity.
      * replace (Nat.min (length vs + S m) (S (length vs))) with (S (length vs)) by lia. assumption.
Qed.
