(** C06 -- the multi-threaded machine (Machine.v): what one step can do, as twelve effects.
    Every invariant in ProofsConc.v is proved over these effects, hence over ALL interleavings. *)
From Coq Require Import List NArith.
Import ListNotations.
From Verif Require Import C06.Machine.

(** [acquire], [release], [cell_set] of Machine.v on the bare tables; [f_*]: what [m_start], [m_set_cst], [m_throw] do to a cell *)
Definition acq_l (ls : list (option (tid * nat))) (c : cid) (t : tid) :=
  match nth_error ls c with
  | Some None => upd ls c (Some (t, 0))
  | Some (Some (t', n)) => upd ls c (Some (t', S n))
  | None => ls
  end.
Definition rel_l (ls : list (option (tid * nat))) (c : cid) :=
  match nth_error ls c with
  | Some (Some (t', S n)) => upd ls c (Some (t', n))
  | Some (Some (_, O)) => upd ls c None
  | _ => ls
  end.
Definition cset (cs : list cell) (c : cid) (f : cell -> cell) :=
  match nth_error cs c with Some k => upd cs c (f k) | None => cs end.

Definition f_start (k : cell) := mkCell Computing (N.succ (ncalls k)) (nthrows k).
Definition f_cst (x : cstate) (k : cell) := mkCell x (ncalls k) (nthrows k).
Definition f_throw (x : cstate) (k : cell) := mkCell x (ncalls k) (N.succ (nthrows k)).

Lemma thr_acquire : forall st c t, thr (acquire st c t) = thr st.
Proof. intros. unfold acquire. destruct (nth_error (mlocks st) c) as [[[? ?]|]|]; reflexivity. Qed.
Lemma mcells_acquire : forall st c t, mcells (acquire st c t) = mcells st.
Proof. intros. unfold acquire. destruct (nth_error (mlocks st) c) as [[[? ?]|]|]; reflexivity. Qed.
Lemma glog_acquire : forall st c t, glog (acquire st c t) = glog st.
Proof. intros. unfold acquire. destruct (nth_error (mlocks st) c) as [[[? ?]|]|]; reflexivity. Qed.
Lemma mlocks_acquire : forall st c t, mlocks (acquire st c t) = acq_l (mlocks st) c t.
Proof. intros. unfold acquire, acq_l. destruct (nth_error (mlocks st) c) as [[[? ?]|]|]; reflexivity. Qed.
Lemma thr_release : forall st c, thr (release st c) = thr st.
Proof. intros. unfold release. destruct (nth_error (mlocks st) c) as [[[? [|?]]|]|]; reflexivity. Qed.
Lemma mcells_release : forall st c, mcells (release st c) = mcells st.
Proof. intros. unfold release. destruct (nth_error (mlocks st) c) as [[[? [|?]]|]|]; reflexivity. Qed.
Lemma glog_release : forall st c, glog (release st c) = glog st.
Proof. intros. unfold release. destruct (nth_error (mlocks st) c) as [[[? [|?]]|]|]; reflexivity. Qed.
Lemma mlocks_release : forall st c, mlocks (release st c) = rel_l (mlocks st) c.
Proof. intros. unfold release, rel_l. destruct (nth_error (mlocks st) c) as [[[? [|?]]|]|]; reflexivity. Qed.
Lemma thr_cell_set : forall st c f, thr (cell_set st c f) = thr st.
Proof. intros. unfold cell_set. destruct (nth_error (mcells st) c); reflexivity. Qed.
Lemma mlocks_cell_set : forall st c f, mlocks (cell_set st c f) = mlocks st.
Proof. intros. unfold cell_set. destruct (nth_error (mcells st) c); reflexivity. Qed.
Lemma glog_cell_set : forall st c f, glog (cell_set st c f) = glog st.
Proof. intros. unfold cell_set. destruct (nth_error (mcells st) c); reflexivity. Qed.
Lemma mcells_cell_set : forall st c f, mcells (cell_set st c f) = cset (mcells st) c f.
Proof. intros. unfold cell_set, cset. destruct (nth_error (mcells st) c); reflexivity. Qed.

Definition logif (k : list frame) (c : cid) (o : obj) (l : list (cid * obj)) :=
  if forallb plain k then (c, o) :: l else l.

Lemma thr_seq_return : forall st t th k c o,
  thr (seq_return st t th k c o) = upd (thr st) t (th_set th k (Some (Ok o))).
Proof. intros. unfold seq_return. destruct (forallb plain k); reflexivity. Qed.
Lemma mcells_seq_return : forall st t th k c o, mcells (seq_return st t th k c o) = mcells st.
Proof. intros. unfold seq_return. destruct (forallb plain k); reflexivity. Qed.
Lemma mlocks_seq_return : forall st t th k c o, mlocks (seq_return st t th k c o) = mlocks st.
Proof. intros. unfold seq_return. destruct (forallb plain k); reflexivity. Qed.
Lemma glog_seq_return : forall st t th k c o, glog (seq_return st t th k c o) = logif k c o (glog st).
Proof. intros. unfold seq_return, logif. destruct (forallb plain k); reflexivity. Qed.

#[export] Hint Rewrite thr_acquire mcells_acquire glog_acquire mlocks_acquire
  thr_release mcells_release glog_release mlocks_release
  thr_cell_set mlocks_cell_set glog_cell_set mcells_cell_set
  thr_seq_return mcells_seq_return mlocks_seq_return glog_seq_return : mproj.

Definition core (l : list frame) : list frame := filter (fun fr => negb (plain fr)) l.

(** What a step of thread [t] (old record [th]) does to threads, cells, mutexes and the log. *)
Inductive eff (restore : bool) (t : tid) (st st' : mstate) (th : thread) : Prop :=
| E_local : forall th'
    (Hthr : thr st' = upd (thr st) t th')
    (Hcore : core (stk th') = core (stk th))
    (Hcells : mcells st' = mcells st)
    (Hlocks : mlocks st' = mlocks st)
    (Hlog : glog st' = glog st),
    eff restore t st st' th
| E_seq_ret : forall th' c o k
    (Hthr : thr st' = upd (thr st) t th')
    (Hstk : stk th = KSeq c :: k)
    (Hstk' : stk th' = k)
    (Hcan : can_lock st c t = true)
    (Hcst : (m_cst st c = Some (Realized o) \/ (m_cst st c = Some Computing /\ o = ONil)))
    (Hcells : mcells st' = mcells st)
    (Hlocks : mlocks st' = mlocks st)
    (Hlog : glog st' = logif k c o (glog st)),
    eff restore t st st' th
| E_seq_start : forall th' c g fr k
    (Hthr : thr st' = upd (thr st) t th')
    (Hstk : stk th = KSeq c :: k)
    (Hstk' : stk th' = fr :: KCompRet c g true :: k)
    (Hplain : plain fr = true)
    (Hcan : can_lock st c t = true)
    (Hcst : m_cst st c = Some (Initialized g))
    (Hcells : mcells st' = cset (mcells st) c f_start)
    (Hlocks : mlocks st' = acq_l (acq_l (mlocks st) c t) c t)
    (Hlog : glog st' = glog st),
    eff restore t st st' th
| E_seq_unwrap : forall th' c o k
    (Hthr : thr st' = upd (thr st) t th')
    (Hstk : stk th = KSeq c :: k)
    (Hstk' : stk th' = KUnwrap c o :: k)
    (Hcan : can_lock st c t = true)
    (Hcst : m_cst st c = Some (Computed o))
    (Hcells : mcells st' = mcells st)
    (Hlocks : mlocks st' = acq_l (mlocks st) c t)
    (Hlog : glog st' = glog st),
    eff restore t st st' th
| E_comp_start : forall th' c g fr k
    (Hthr : thr st' = upd (thr st) t th')
    (Hstk : stk th = KComp c :: k)
    (Hstk' : stk th' = fr :: KCompRet c g false :: k)
    (Hplain : plain fr = true)
    (Hcan : can_lock st c t = true)
    (Hcst : m_cst st c = Some (Initialized g))
    (Hcells : mcells st' = cset (mcells st) c f_start)
    (Hlocks : mlocks st' = acq_l (mlocks st) c t)
    (Hlog : glog st' = glog st),
    eff restore t st st' th
| E_comp_ok : forall th' c g b o k
    (Hthr : thr st' = upd (thr st) t th')
    (Hstk : stk th = KCompRet c g b :: k)
    (Hstk' : stk th' = (if b then KUnwrap c o :: k else k))
    (Hcells : mcells st' = cset (mcells st) c (f_cst (Computed o)))
    (Hlocks : mlocks st' = rel_l (mlocks st) c)
    (Hlog : glog st' = glog st),
    eff restore t st st' th
| E_comp_exn : forall th' c g b k
    (Hthr : thr st' = upd (thr st) t th')
    (Hstk : stk th = KCompRet c g b :: k)
    (Hstk' : stk th' = k)
    (Hcells : mcells st' = cset (mcells st) c (f_throw (if restore then Initialized g else Computing)))
    (Hlocks : mlocks st' = (if b then rel_l (rel_l (mlocks st) c) c else rel_l (mlocks st) c))
    (Hlog : glog st' = glog st),
    eff restore t st st' th
| E_unwrap_call : forall th' c d k
    (Hthr : thr st' = upd (thr st) t th')
    (Hstk : stk th = KUnwrap c (OLazy d) :: k)
    (Hstk' : stk th' = KComp d :: KUnwrapRet c :: k)
    (Hcells : mcells st' = mcells st)
    (Hlocks : mlocks st' = mlocks st)
    (Hlog : glog st' = glog st),
    eff restore t st st' th
| E_unwrap_back : forall th' c w k
    (Hthr : thr st' = upd (thr st) t th')
    (Hstk : stk th = KUnwrapRet c :: k)
    (Hstk' : stk th' = KUnwrap c w :: k)
    (Hcells : mcells st' = mcells st)
    (Hlocks : mlocks st' = mlocks st)
    (Hlog : glog st' = glog st),
    eff restore t st st' th
| E_unwrap_exn : forall th' c k
    (Hthr : thr st' = upd (thr st) t th')
    (Hstk : stk th = KUnwrapRet c :: k)
    (Hstk' : stk th' = k)
    (Hcells : mcells st' = mcells st)
    (Hlocks : mlocks st' = rel_l (mlocks st) c)
    (Hlog : glog st' = glog st),
    eff restore t st st' th
| E_realize : forall th' c w k
    (Hthr : thr st' = upd (thr st) t th')
    (Hstk : stk th = KUnwrap c w :: k)
    (Hstk' : stk th' = k)
    (Hnl : nonlazy w = true)
    (Hcells : mcells st' = cset (mcells st) c (f_cst (Realized (seq_or_nil w))))
    (Hlocks : mlocks st' = rel_l (mlocks st) c)
    (Hlog : glog st' = logif k c (seq_or_nil w) (glog st)),
    eff restore t st st' th
| E_alloc : forall th' it k g
    (Hthr : thr st' = upd (thr st) t th')
    (Hstk : stk th = KPull it :: k)
    (Hstk' : stk th' = k)
    (Hcells : mcells st' = mcells st ++ [mkCell (Initialized g) 0 0])
    (Hlocks : mlocks st' = mlocks st ++ [None])
    (Hlog : glog st' = glog st),
    eff restore t st st' th.

Lemma gen_frame_plain : forall g fr, gen_frame g = Some fr -> plain fr = true.
Proof. intros. destruct g; simpl in H; inversion H; reflexivity. Qed.

(** the step [H] only rebuilds the thread's record (stack [Hs]) with plain frames: [E_local] holds by computation *)
Ltac local_step H Hs :=
  injection H as <-; eapply E_local;
  [reflexivity | cbn [stk th_set th_obs th_reg th_prog th_seen th_park]; rewrite Hs; reflexivity | reflexivity ..].

Lemma start_op_eff : forall restore st t th op p st',
  stk th = [] -> start_op st t th op p = Some st' -> eff restore t st st' th.
Proof.
  intros restore st t th op p st' Hs H. unfold start_op in H. cbv zeta in H.
  destruct op as [r|r|r|r|r n|e|e].
  - destruct (nth r (regs (th_prog th p)) ONil); local_step H Hs.
  - destruct (nth r (regs (th_prog th p)) ONil); local_step H Hs.
  - destruct (nth r (regs (th_prog th p)) ONil) as [| |v rst|c]; [| |destruct (rest_norm rst)|]; local_step H Hs.
  - destruct (nth r (regs (th_prog th p)) ONil); local_step H Hs.
  - destruct (nth r (regs (th_prog th p)) ONil); local_step H Hs.
  - destruct (nth e (mevs st) false); local_step H Hs.
  - local_step H Hs.
Qed.

Lemma top_ret_eff : forall restore st t th k tk c r st',
  stk th = KTop tk c :: k -> top_ret st t th k tk c r = Some st' -> eff restore t st st' th.
Proof.
  intros restore st t th k tk c r st' Hs H. unfold top_ret in H. cbv zeta in H.
  destruct r as [o| | |]; try discriminate.
  - destruct tk as [| | | |n acc];
      [| | |destruct o as [| |v rst|d]; [| |destruct (rest_norm rst)|] |destruct o]; local_step H Hs.
  - destruct tk; local_step H Hs.
Qed.

(** the step [H] is constructor [C] of [eff]; its premises are in the context or read off the new state *)
Ltac eff_by H C :=
  injection H as <-; unfold m_start, m_set_cst, m_throw, malloc; eapply C;
  first [ eassumption
        | left; eassumption
        | right; split; [eassumption | reflexivity]
        | reflexivity
        | repeat (autorewrite with mproj; cbn [thr mcells mlocks glog set_thr set_miter]); reflexivity ].

Lemma stepf_eff : forall restore t st st' th,
  stepf restore t st = Some st' -> nth_error (thr st) t = Some th -> eff restore t st st' th.
Proof.
  intros restore t st st' th H Hth. unfold stepf in H. rewrite Hth in H.
  destruct (rv th) as [r|] eqn:Er; destruct (stk th) as [|fr k] eqn:Es; try discriminate.
  - destruct fr; try discriminate.
    + destruct r; try discriminate; [eff_by H E_unwrap_back | eff_by H E_unwrap_exn].
    + destruct r; try discriminate; destruct inseq; [eff_by H E_comp_ok | eff_by H E_comp_ok | eff_by H E_comp_exn | eff_by H E_comp_exn].
    + destruct r; try discriminate; local_step H Es.
    + eapply top_ret_eff; eassumption.
  - destruct (prog th); [discriminate|]. eapply start_op_eff; eassumption.
  - destruct fr; try discriminate.
    + destruct (can_lock st c t) eqn:Ecl; [|discriminate].
      destruct (m_cst st c) as [[g| |o|o]|] eqn:Em; try discriminate.
      * destruct (gen_frame g) eqn:Eg; [|discriminate]. apply gen_frame_plain in Eg. eff_by H E_seq_start.
      * eff_by H E_seq_ret.
      * eff_by H E_seq_unwrap.
      * eff_by H E_seq_ret.
    + destruct w; [eff_by H E_realize | eff_by H E_realize | eff_by H E_realize | eff_by H E_unwrap_call].
    + destruct (can_lock st c t) eqn:Ecl; [|discriminate].
      destruct (m_cst st c) as [[g| |o|o]|] eqn:Em; try discriminate.
      * destruct (gen_frame g) eqn:Eg; [|discriminate]. apply gen_frame_plain in Eg. eff_by H E_comp_start.
      * local_step H Es.
      * local_step H Es.
      * local_step H Es.
    + destruct l as [|[ |e|e|d|o|o| ] l']; try destruct (nth e (mevs st) false); local_step H Es.
    + unfold malloc in H.
      destruct (nth_error (miters st) it) as [[[|[v|] l]| |]|]; try discriminate;
        [local_step H Es | eff_by H E_alloc | local_step H Es].
    + destruct n as [|m]; [|destruct cur]; local_step H Es.
Qed.
