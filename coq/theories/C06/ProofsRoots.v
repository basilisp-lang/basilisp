(** C06 -- the premises of the laziness theorems are met by the states the correspondence starts from:
    (map f s), (filter p s), (take k s), (concat s ...), (iterate f x), (iterator-seq it) built by
    [build_root] over an instrumented chain. *)
From Coq Require Import List NArith Lia.
Import ListNotations.
From Verif Require Import C06.LazySeq C06.ProofsBig C06.ProofsLazy C06.ProofsMap C06.ProofsTake
  C06.ProofsFilter C06.ProofsConcat.

Lemma chain_scripts_length : forall vs b, length (chain_scripts vs b) = S (length vs).
Proof. induction vs; intros; simpl; auto. Qed.

Definition s0 (vs : list N) (its : list iter) : st := init_st (chain_scripts vs 0) its 0.

Lemma hlen_s0 : forall vs its, hlen (s0 vs its) = S (length vs).
Proof. intros. unfold hlen, s0, init_st. simpl. rewrite map_length. apply chain_scripts_length. Qed.

Lemma alloc_root : forall vs its g,
  let s := fst (alloc (s0 vs its) g) in
  chain_at vs 0 0 s /\ get s (S (length vs)) = Some (out_cell g) /\ iters s = its.
Proof.
  intros vs its g. split; [|split].
  - apply chain_at_alloc. apply chain_at_init.
  - rewrite <- (hlen_s0 vs its). apply get_alloc_new.
  - reflexivity.
Qed.

Example map_root : forall fn vs,
  map_at fn vs 0 0 (S (length vs)) (fst (build_root (RMap fn (RObj (OLazy 0))) (s0 vs []))).
Proof.
  intros. destruct (alloc_root vs [] (GMap fn (OLazy 0))) as [Hc [Hg _]].
  split; [exact Hc|split; [exact Hg|lia]].
Qed.

Example filter_root : forall p vs,
  filter_at p vs 0 0 (S (length vs)) (fst (build_root (RFilter p (RObj (OLazy 0))) (s0 vs []))).
Proof.
  intros. destruct (alloc_root vs [] (GFilter p (OLazy 0))) as [Hc [Hg _]].
  split; [exact Hc|split; [exact Hg|lia]].
Qed.

Example take_root : forall k vs,
  take_at k vs 0 0 (S (length vs)) (fst (build_root (RTake k (RObj (OLazy 0))) (s0 vs []))).
Proof.
  intros. destruct (alloc_root vs [] (GTake k (OLazy 0))) as [Hc [Hg _]].
  split; [exact Hc|split; [exact Hg|lia]].
Qed.

Example iterate_root : forall fn x vs,
  iter_at fn x (S (length vs)) (fst (build_root (RIterate fn x) (s0 vs []))).
Proof. intros. destruct (alloc_root vs [] (GIterate fn x)) as [_ [Hg _]]. exact Hg. Qed.

Example seqit_root : forall vs xs,
  let s := fst (build_root (RItSeq 0) (s0 vs [ItList (map IVal xs)])) in
  seqit_at 0 (S (length vs)) s /\ nth_error (iters s) 0 = Some (ItList (map IVal xs)).
Proof.
  intros. destruct (alloc_root vs [ItList (map IVal xs)] (GSeqIt 0)) as [_ [Hg Hi]].
  split; [exact Hg|]. reflexivity.
Qed.

Example concat_root : forall vs rest,
  concat_at vs 0 0 0 (S (length vs)) rest
    (fst (build_root (RConcat (RObj (OLazy 0) :: map RObj rest)) (s0 vs []))).
Proof.
  intros vs rest.
  assert (Hgo : forall (l : list obj) s,
            (fix go (l : list rootspec) (s : st) {struct l} : st * list obj :=
               match l with
               | [] => (s, [])
               | r' :: t => let (s1, o) := build_root r' s in let (s2, os) := go t s1 in (s2, o :: os)
               end) (map RObj l) s = (s, l)).
  { induction l; intros; simpl; auto. rewrite IHl. reflexivity. }
  simpl build_root. rewrite Hgo.
  destruct (alloc_root vs [ItChain None (OLazy 0 :: rest)] (GSeqIt 0)) as [Hc [Hg Hi]].
  split; [exact Hc|split; [exact Hg|split; [lia|reflexivity]]].
Qed.
