(** C06 -- the invariant [InvA] of the multi-threaded machine and its preservation by every step; the theorems over
    reachable states are in ProofsAgree.v. *)
From Coq Require Import List NArith Bool Arith Lia.
Import ListNotations.
From Verif Require Import C06.Machine C06.ProofsMachine.

Lemma sched_eff : forall restore l st st',
  sched restore l st = Some st' ->
  st' = set_gil st None \/ exists t th, nth_error (thr st) t = Some th /\ eff restore t st st' th.
Proof.
  intros restore l st st' H. destruct l; simpl in H.
  - destruct (gil st); try discriminate. destruct (Nat.eqb t t0); try discriminate.
    destruct (nth_error (thr st) t) as [th|] eqn:Eth.
    + right. exists t, th. split; auto. eapply stepf_eff; eauto.
    + unfold stepf in H. rewrite Eth in H. discriminate.
  - destruct (gil st); try discriminate. destruct (nth_error (thr st) t) as [th|] eqn:Eth; try discriminate.
    destruct (negb (finished_th th) && wakeable st th); try discriminate. inversion H; subst; clear H.
    right. exists t, th. split; auto. eapply E_local; try reflexivity.
  - destruct (gil st); try discriminate. destruct (nth_error (thr st) t) as [th|]; try discriminate.
    destruct (Nat.eqb t t0); try discriminate. destruct (in_python th); try discriminate.
    inversion H; subst. left. reflexivity.
  - destruct (gil st); try discriminate. destruct (Nat.eqb t t0); try discriminate.
    inversion H; subst. left. reflexivity.
Qed.

Definition reachable (restore : bool) (st0 st : mstate) : Prop :=
  exists ls, run_labels restore ls st0 = Some st.

Lemma reachable_ind : forall restore (P : mstate -> Prop) st0,
  P st0 ->
  (forall st st' l, P st -> sched restore l st = Some st' -> P st') ->
  forall st, reachable restore st0 st -> P st.
Proof.
  intros restore P st0 H0 Hstep st [ls Hr]. revert st0 H0 Hr.
  induction ls; intros st0 H0 Hr; simpl in Hr.
  - inversion Hr; subst; auto.
  - destruct (sched restore a st0) eqn:E; try discriminate. eapply IHls; [|eauto]. eapply Hstep; eauto.
Qed.

Definition is_init (x : cstate) : bool := match x with Initialized _ => true | _ => false end.
Definition computing (x : cstate) : bool := match x with Computing => true | _ => false end.
Definition valued (x : cstate) : bool := match x with Computed _ | Realized _ => true | _ => false end.

(** the counters of a cell agree with its state: started once more often than failed, unless it is
    waiting to be started (with the pinned error path a failed cell is never started again) *)
Definition cell_ok (restore : bool) (k : cell) : Prop :=
  ncalls k = ((if restore then nthrows k else 0) + (if is_init (cst k) then 0 else 1))%N.

Lemma cell_ok_start : forall restore k g, cell_ok restore k -> cst k = Initialized g -> cell_ok restore (f_start k).
Proof. unfold cell_ok. intros restore k g H Hc. rewrite Hc in H. simpl in *. rewrite H. destruct restore; lia. Qed.

Lemma cell_ok_cst : forall restore k x,
  cell_ok restore k -> is_init (cst k) = false -> is_init x = false -> cell_ok restore (f_cst x k).
Proof. unfold cell_ok. intros restore k x H Hk Hx. simpl. rewrite Hx. rewrite Hk in H. exact H. Qed.

Lemma cell_ok_throw : forall restore k g,
  cell_ok restore k -> cst k = Computing -> cell_ok restore (f_throw (if restore then Initialized g else Computing) k).
Proof. unfold cell_ok. intros restore k g H Hc. rewrite Hc in H. simpl in *. destruct restore; simpl; lia. Qed.

Definition is_act (c : cid) (fr : frame) : bool :=
  match fr with KCompRet c' _ _ => Nat.eqb c c' | _ => false end.
Definition act_stk (c : cid) (l : list frame) : nat := length (filter (is_act c) l).
(** number of running activations of the producer of c, over all threads *)
Definition act (st : mstate) (c : cid) : nat := list_sum (map (fun th => act_stk c (stk th)) (thr st)).

Definition unwrapping (c : cid) (fr : frame) : bool :=
  match fr with KUnwrap c' _ | KUnwrapRet c' => Nat.eqb c c' | _ => false end.

Definition holds (p : cstate -> bool) (x : option cstate) : bool :=
  match x with Some y => p y | None => false end.
Definition st_is (p : cstate -> bool) (st : mstate) (c : cid) : bool := holds p (m_cst st c).
Definition b2n (b : bool) : nat := if b then 1 else 0.

(** [ia_act_eq] needs the repaired error path: the pinned one leaves a failed cell Computing with nobody running it. *)
Record InvA (restore : bool) (st : mstate) : Prop := {
  ia_cells : forall c k, nth_error (mcells st) c = Some k -> cell_ok restore k;
  ia_act : forall c, act st c <= b2n (st_is computing st c);
  ia_act_eq : restore = true -> forall c, b2n (st_is computing st c) <= act st c;
  ia_unwrap : forall t th fr c, nth_error (thr st) t = Some th -> In fr (stk th) -> unwrapping c fr = true ->
              st_is valued st c = true
}.

Lemma list_sum_upd : forall (l : list nat) i x y,
  nth_error l i = Some x -> list_sum (upd l i y) + x = list_sum l + y.
Proof.
  induction l; intros i x y H; destruct i; simpl in *; try discriminate.
  - inversion H; subst. lia.
  - specialize (IHl _ _ y H). lia.
Qed.

Lemma list_sum_ge : forall (l : list nat) i x, nth_error l i = Some x -> x <= list_sum l.
Proof.
  induction l; intros i x H; destruct i; simpl in *; try discriminate.
  - inversion H; subst. lia.
  - specialize (IHl _ _ H). lia.
Qed.

Lemma list_sum_zero : forall (l : list nat), (forall x, In x l -> x = 0) -> list_sum l = 0.
Proof. induction l; simpl; intros; auto. rewrite (H a) by auto. rewrite IHl; auto. Qed.

Lemma map_upd : forall A B (f : A -> B) l i x, map f (upd l i x) = upd (map f l) i (f x).
Proof. induction l; destruct i; simpl; intros; auto. f_equal. apply IHl. Qed.


Lemma nth_error_snoc : forall A (l : list A) x c,
  nth_error (l ++ [x]) c =
  if Nat.ltb c (length l) then nth_error l c else if Nat.eqb c (length l) then Some x else None.
Proof.
  intros. destruct (Nat.ltb_spec c (length l)).
  - apply nth_error_app1. assumption.
  - rewrite nth_error_app2 by assumption. destruct (Nat.eqb_spec c (length l)).
    + subst. rewrite Nat.sub_diag. reflexivity.
    + destruct (c - length l) as [|[|m]] eqn:E; [lia|reflexivity|reflexivity].
Qed.

Lemma nth_error_cset : forall cs c f c',
  nth_error (cset cs c f) c' = if Nat.eqb c c' then option_map f (nth_error cs c) else nth_error cs c'.
Proof.
  intros. unfold cset. destruct (nth_error cs c) eqn:E.
  - rewrite nth_error_upd. destruct (Nat.eqb_spec c c'); auto.
    assert (c < length cs) by (apply nth_error_Some; congruence).
    destruct (Nat.ltb_spec c (length cs)); try lia. reflexivity.
  - destruct (Nat.eqb_spec c c'); auto. subst. rewrite E. reflexivity.
Qed.

Lemma m_cst_eq : forall st st', mcells st' = mcells st -> forall c, m_cst st' c = m_cst st c.
Proof. intros. unfold m_cst. rewrite H. reflexivity. Qed.

Lemma m_cst_cset : forall st st' c f c',
  mcells st' = cset (mcells st) c f ->
  m_cst st' c' = if Nat.eqb c c' then option_map (fun k => cst (f k)) (nth_error (mcells st) c) else m_cst st c'.
Proof.
  intros. unfold m_cst. rewrite H, nth_error_cset. destruct (Nat.eqb c c'); auto.
  destruct (nth_error (mcells st) c); reflexivity.
Qed.

Lemma m_cst_cell : forall st c x, m_cst st c = Some x -> exists k, nth_error (mcells st) c = Some k /\ cst k = x.
Proof. intros. unfold m_cst in H. destruct (nth_error (mcells st) c); inversion H. eauto. Qed.

Lemma plain_inert : forall c fr, plain fr = true -> is_act c fr = false /\ unwrapping c fr = false.
Proof. intros. destruct fr; simpl in *; try discriminate; auto. Qed.

Lemma act_stk_app : forall c l1 l2, act_stk c (l1 ++ l2) = act_stk c l1 + act_stk c l2.
Proof. intros. unfold act_stk. rewrite filter_app, app_length. reflexivity. Qed.

Lemma act_stk_core : forall c l, act_stk c l = act_stk c (core l).
Proof.
  intros. unfold act_stk, core. induction l; simpl; auto.
  destruct a; simpl; auto; destruct (Nat.eqb c c0); simpl; auto.
Qed.

Lemma act_upd : forall st st' t th th' c,
  nth_error (thr st) t = Some th -> thr st' = upd (thr st) t th' ->
  act st' c + act_stk c (stk th) = act st c + act_stk c (stk th').
Proof.
  intros. unfold act. rewrite H0, map_upd.
  apply list_sum_upd. rewrite nth_error_map, H. reflexivity.
Qed.

Lemma act_stk_in : forall c g b l, In (KCompRet c g b) l -> 1 <= act_stk c l.
Proof.
  intros. unfold act_stk. induction l; simpl in *; [tauto|]. destruct H.
  - subst. simpl. rewrite Nat.eqb_refl. simpl. lia.
  - specialize (IHl H). destruct (is_act c a); simpl; lia.
Qed.

Lemma running_is_computing : forall restore st t th c g b,
  InvA restore st -> nth_error (thr st) t = Some th -> In (KCompRet c g b) (stk th) ->
  m_cst st c = Some Computing /\ act st c = 1.
Proof.
  intros. pose proof (act_stk_in c g b _ H1).
  assert (act_stk c (stk th) <= act st c) by (eapply list_sum_ge; unfold act; rewrite nth_error_map, H0; reflexivity).
  pose proof (ia_act _ _ H c). unfold st_is, holds in *.
  destruct (m_cst st c) as [[]|]; simpl in *; try lia. split; [reflexivity|lia].
Qed.

Lemma list_sum_pos : forall (l : list nat), 1 <= list_sum l -> exists i x, nth_error l i = Some x /\ 1 <= x.
Proof.
  induction l; simpl; intros; [lia|]. destruct a.
  - destruct (IHl H) as [i [x [Hi Hx]]]. exists (S i), x. auto.
  - exists 0, (S a). simpl. split; auto. lia.
Qed.

Lemma act_stk_pos : forall c l, 1 <= act_stk c l -> exists g b, In (KCompRet c g b) l.
Proof.
  unfold act_stk. induction l; simpl; intros; [lia|].
  destruct (is_act c a) eqn:E.
  - destruct a; simpl in E; try discriminate. apply Nat.eqb_eq in E. subst. eauto.
  - destruct (IHl H) as [g [b Hin]]. eauto.
Qed.

Lemma act_pos_frame : forall st c, 1 <= act st c ->
  exists t th g b, nth_error (thr st) t = Some th /\ In (KCompRet c g b) (stk th).
Proof.
  intros st c H. unfold act in H. destruct (list_sum_pos _ H) as [i [x [Hi Hx]]].
  rewrite nth_error_map in Hi. destruct (nth_error (thr st) i) as [th|] eqn:E; simpl in Hi; try discriminate.
  inversion Hi; subst. destruct (act_stk_pos _ _ Hx) as [g [b Hin]]. exists i, th, g, b. auto.
Qed.

(** One step of thread t: cell [c] gets state [x], the others keep theirs; the rest concerns t's frames and [c] only. *)
Lemma InvA_step : forall restore st st' t th th' c x,
  InvA restore st -> nth_error (thr st) t = Some th -> thr st' = upd (thr st) t th' ->
  (forall c' k', nth_error (mcells st') c' = Some k' ->
     nth_error (mcells st) c' = Some k' \/ c' = c /\ cell_ok restore k') ->
  (forall c', m_cst st' c' = if Nat.eqb c c' then x else m_cst st c') ->
  (forall c', c' <> c -> act_stk c' (stk th') = act_stk c' (stk th)) ->
  act st c + act_stk c (stk th') <= b2n (holds computing x) + act_stk c (stk th) ->
  (restore = true -> b2n (holds computing x) + act_stk c (stk th) <= act st c + act_stk c (stk th')) ->
  (forall fr c', In fr (stk th') -> unwrapping c' fr = true -> In fr (stk th) \/ st_is valued st' c' = true) ->
  (st_is valued st c = true -> st_is valued st' c = true) ->
  InvA restore st'.
Proof.
  intros restore st st' t th th' c x I Hth Hthr Hcells Hm Hact Hle Hge Hun Hmono.
  assert (Ha : forall c', act st' c' + act_stk c' (stk th) = act st c' + act_stk c' (stk th'))
    by (intro; eapply act_upd; eassumption).
  assert (Hold : forall c', st_is valued st c' = true -> st_is valued st' c' = true).
  { intros c' Hv. destruct (Nat.eq_dec c' c); [subst; auto|]. unfold st_is in *. rewrite Hm.
    destruct (Nat.eqb_spec c c'); [congruence|assumption]. }
  constructor.
  - intros c' k' Hk. destruct (Hcells c' k' Hk) as [Hk0|[_ Hok]]; [eapply ia_cells; eauto|exact Hok].
  - intro c'. specialize (Ha c'). unfold st_is. rewrite Hm. destruct (Nat.eqb_spec c c').
    + subst c'. lia.
    + rewrite (Hact c') in Ha by auto. pose proof (ia_act _ _ I c'). unfold st_is in *. lia.
  - intros Hr c'. specialize (Ha c'). unfold st_is. rewrite Hm. destruct (Nat.eqb_spec c c').
    + subst c'. specialize (Hge Hr). lia.
    + rewrite (Hact c') in Ha by auto. pose proof (ia_act_eq _ _ I Hr c'). unfold st_is in *. lia.
  - intros t' th'' fr c' Ht' Hin Hu. rewrite Hthr in Ht'. apply nth_error_upd_inv in Ht'.
    destruct Ht' as [[-> ->]|[Hne Ht']]; [|apply Hold; eapply ia_unwrap; eauto].
    destruct (Hun fr c' Hin Hu) as [Hin0|Hv]; [|exact Hv]. apply Hold. eapply ia_unwrap; eauto.
Qed.

(** ... when no cell changes.  [InvA_step] wants a cell that changes: cell 0 "changes" to the state it has. *)
Lemma InvA_same_cells : forall restore st st' t th th',
  InvA restore st -> nth_error (thr st) t = Some th -> thr st' = upd (thr st) t th' -> mcells st' = mcells st ->
  (forall c, act_stk c (stk th') = act_stk c (stk th)) ->
  (forall fr c, In fr (stk th') -> unwrapping c fr = true -> In fr (stk th) \/ st_is valued st c = true) ->
  InvA restore st'.
Proof.
  intros restore st st' t th th' I Hth Hthr Hc Hk Hun.
  assert (Hm : forall c, m_cst st' c = m_cst st c) by (apply m_cst_eq; assumption).
  eapply (InvA_step restore st st' t th th' 0 (m_cst st 0) I Hth Hthr).
  - intros c' k' H. left. rewrite <- Hc. exact H.
  - intro c'. rewrite Hm. destruct (Nat.eqb_spec 0 c'); [subst|]; reflexivity.
  - intros c' _. apply Hk.
  - rewrite Hk. pose proof (ia_act _ _ I 0). unfold st_is in *. lia.
  - intro Hr. rewrite Hk. pose proof (ia_act_eq _ _ I Hr 0). unfold st_is in *. lia.
  - intros fr c' Hin Hu. destruct (Hun fr c' Hin Hu) as [Hold|Hv]; [left; exact Hold|right].
    unfold st_is. rewrite Hm. exact Hv.
  - unfold st_is. rewrite Hm. auto.
Qed.

Lemma InvA_frames : forall restore st st' t th th' top new k,
  InvA restore st -> nth_error (thr st) t = Some th -> thr st' = upd (thr st) t th' ->
  stk th = top :: k -> stk th' = new ++ k -> mcells st' = mcells st ->
  (forall c, act_stk c new = act_stk c [top]) ->
  (forall fr c, In fr new -> unwrapping c fr = true -> st_is valued st c = true) ->
  InvA restore st'.
Proof.
  intros restore st st' t th th' top new k I Hth Hthr Hs Hs' Hc Hact Hun.
  apply (InvA_same_cells restore st st' t th th' I Hth Hthr Hc).
  - intro c. rewrite Hs, Hs'. change (top :: k) with ([top] ++ k). rewrite !act_stk_app, Hact. reflexivity.
  - intros fr c' Hin Hu. rewrite Hs' in Hin. apply in_app_or in Hin. destruct Hin as [Hin|Hin].
    + right. exact (Hun fr c' Hin Hu).
    + left. rewrite Hs. right. exact Hin.
Qed.

(** ... when cell [c] is rewritten and the top frame replaced by [new] *)
Lemma InvA_cset : forall restore st st' t th th' top new k c f k0,
  InvA restore st -> nth_error (thr st) t = Some th -> thr st' = upd (thr st) t th' ->
  stk th = top :: k -> stk th' = new ++ k ->
  mcells st' = cset (mcells st) c f -> nth_error (mcells st) c = Some k0 ->
  cell_ok restore (f k0) ->
  (forall c', c' <> c -> act_stk c' new = act_stk c' [top]) ->
  act st c + act_stk c new <= b2n (computing (cst (f k0))) + act_stk c [top] ->
  (restore = true -> b2n (computing (cst (f k0))) + act_stk c [top] <= act st c + act_stk c new) ->
  (forall fr c', In fr new -> unwrapping c' fr = true -> c' = c /\ valued (cst (f k0)) = true) ->
  (st_is valued st c = true -> valued (cst (f k0)) = true) ->
  InvA restore st'.
Proof.
  intros restore st st' t th th' top new k c f k0 I Hth Hthr Hs Hs' Hc Hk0 Hok Hact Hle Hge Hun Hmono.
  assert (Hm : forall c', m_cst st' c' = if Nat.eqb c c' then Some (cst (f k0)) else m_cst st c').
  { intro c'. rewrite (m_cst_cset st st' c f c' Hc), Hk0. reflexivity. }
  assert (Hv : st_is valued st' c = valued (cst (f k0))) by (unfold st_is; rewrite Hm, Nat.eqb_refl; reflexivity).
  assert (Hk : forall c', act_stk c' (stk th') + act_stk c' [top] = act_stk c' (stk th) + act_stk c' new).
  { intro c'. rewrite Hs, Hs'. change (top :: k) with ([top] ++ k). rewrite !act_stk_app. lia. }
  eapply (InvA_step restore st st' t th th' c _ I Hth Hthr); [|exact Hm| | | | |].
  - intros c' k' H. rewrite Hc, nth_error_cset in H. destruct (Nat.eqb_spec c c'); [|auto].
    subst c'. rewrite Hk0 in H. injection H as <-. auto.
  - intros c' Hne. specialize (Hk c'). rewrite (Hact c' Hne) in Hk. lia.
  - specialize (Hk c). simpl holds. lia.
  - intro Hr. specialize (Hk c). specialize (Hge Hr). simpl holds. lia.
  - intros fr c' Hin Hu. rewrite Hs' in Hin. apply in_app_or in Hin. destruct Hin as [Hin|Hin].
    + right. destruct (Hun fr c' Hin Hu) as [-> Hval]. rewrite Hv. exact Hval.
    + left. rewrite Hs. right. exact Hin.
  - rewrite Hv. exact Hmono.
Qed.

Lemma InvA_eff : forall restore st st' t th,
  InvA restore st -> nth_error (thr st) t = Some th -> eff restore t st st' th -> InvA restore st'.
Proof.
  intros restore st st' t th I Hth E.
  assert (Htop : forall top k c, stk th = top :: k -> unwrapping c top = true -> st_is valued st c = true).
  { intros top k c Hs Hu. eapply ia_unwrap; eauto. rewrite Hs. left. reflexivity. }
  assert (Hrun : forall c g b k, stk th = KCompRet c g b :: k ->
            exists k0, nth_error (mcells st) c = Some k0 /\ cst k0 = Computing /\ act st c = 1).
  { intros c g b k Hs. destruct (running_is_computing restore st t th c g b I Hth) as [Hc Hone].
    - rewrite Hs. left. reflexivity.
    - destruct (m_cst_cell _ _ _ Hc) as [k0 [Hk0 Hck]]. eauto. }
  assert (Hstart : forall c g f0 fr b k th', thr st' = upd (thr st) t th' ->
            stk th = f0 :: k -> plain f0 = true -> stk th' = fr :: KCompRet c g b :: k -> plain fr = true ->
            m_cst st c = Some (Initialized g) -> mcells st' = cset (mcells st) c f_start -> InvA restore st').
  { (* seq or _compute_seq starts the producer of c: it was Initialized, so nobody is running it *)
    intros c g f0 fr b k th' Hthr Hs Hp0 Hs' Hp Hm Hc.
    destruct (m_cst_cell _ _ _ Hm) as [k0 [Hk0 Hck]].
    pose proof (ia_act _ _ I c) as Hle0. unfold st_is in Hle0. rewrite Hm in Hle0. simpl in Hle0.
    assert (Hf0 : forall c', act_stk c' [f0] = 0).
    { intro c'. unfold act_stk. simpl. destruct (plain_inert c' _ Hp0) as [-> _]. reflexivity. }
    assert (Hfr : forall c', act_stk c' [fr; KCompRet c g b] = b2n (Nat.eqb c' c)).
    { intro c'. unfold act_stk. simpl. destruct (plain_inert c' _ Hp) as [-> _]. destruct (Nat.eqb c' c); reflexivity. }
    eapply (InvA_cset restore st st' t th th' f0 [fr; KCompRet c g b] k c f_start k0 I Hth Hthr Hs Hs' Hc Hk0).
    - exact (cell_ok_start _ _ _ (ia_cells _ _ I c k0 Hk0) Hck).
    - intros c' Hne. rewrite Hf0, Hfr. destruct (Nat.eqb_spec c' c); [congruence|reflexivity].
    - rewrite Hf0, Hfr, Nat.eqb_refl. simpl. lia.
    - intros _. rewrite Hf0, Hfr, Nat.eqb_refl. simpl. lia.
    - intros fr0 c' [<-|[<-|[]]] Hu; [destruct (plain_inert c' _ Hp) as [_ Hx]; congruence|discriminate].
    - unfold st_is. rewrite Hm. discriminate. }
  destruct E.
  - (* E_local *)
    apply (InvA_same_cells restore st st' t th th' I Hth Hthr Hcells).
    + intro c. rewrite (act_stk_core c (stk th')), (act_stk_core c (stk th)), Hcore. reflexivity.
    + intros fr c Hin Hu. left.
      assert (Hf : In fr (core (stk th'))).
      { apply filter_In. split; [exact Hin|]. destruct fr; simpl in *; try discriminate; reflexivity. }
      rewrite Hcore in Hf. apply filter_In in Hf. tauto.
  - (* E_seq_ret *)
    eapply (InvA_frames restore st st' t th th' (KSeq c) [] k I Hth Hthr Hstk Hstk' Hcells); [reflexivity|intros fr c0 []].
  - (* E_seq_start *) exact (Hstart c g (KSeq c) fr true k th' Hthr Hstk eq_refl Hstk' Hplain Hcst Hcells).
  - (* E_seq_unwrap *)
    eapply (InvA_frames restore st st' t th th' (KSeq c) [KUnwrap c o] k I Hth Hthr Hstk Hstk' Hcells); [reflexivity|].
    intros fr c0 [<-|[]] Hu. apply Nat.eqb_eq in Hu. subst. unfold st_is. rewrite Hcst. reflexivity.
  - (* E_comp_start *) exact (Hstart c g (KComp c) fr false k th' Hthr Hstk eq_refl Hstk' Hplain Hcst Hcells).
  - (* E_comp_ok *)
    destruct (Hrun c g b k Hstk) as [k0 [Hk0 [Hck Hone]]].
    eapply (InvA_cset restore st st' t th th' (KCompRet c g b) (if b then [KUnwrap c o] else []) k c _ k0 I Hth Hthr Hstk);
      [destruct b; exact Hstk'|exact Hcells|exact Hk0| | | | | |].
    + apply cell_ok_cst; [exact (ia_cells _ _ I c k0 Hk0)|rewrite Hck; reflexivity|reflexivity].
    + intros c' Hne. unfold act_stk. simpl. destruct (Nat.eqb_spec c' c); [congruence|]. destruct b; reflexivity.
    + unfold act_stk. simpl. rewrite Nat.eqb_refl. destruct b; simpl; lia.
    + intros _. unfold act_stk. simpl. rewrite Nat.eqb_refl. destruct b; simpl; lia.
    + intros fr c' Hin Hu. destruct b; [|destruct Hin]. destruct Hin as [<-|[]]. apply Nat.eqb_eq in Hu. auto.
    + reflexivity.
  - (* E_comp_exn *)
    destruct (Hrun c g b k Hstk) as [k0 [Hk0 [Hck Hone]]].
    eapply (InvA_cset restore st st' t th th' (KCompRet c g b) [] k c _ k0 I Hth Hthr Hstk Hstk' Hcells Hk0).
    + exact (cell_ok_throw _ _ _ (ia_cells _ _ I c k0 Hk0) Hck).
    + intros c' Hne. unfold act_stk. simpl. destruct (Nat.eqb_spec c' c); [congruence|]. reflexivity.
    + unfold act_stk. simpl. rewrite Nat.eqb_refl. simpl. lia.
    + intros ->. unfold act_stk. simpl. rewrite Nat.eqb_refl. simpl. lia.
    + intros fr c' [].
    + unfold st_is, m_cst. rewrite Hk0. simpl. rewrite Hck. discriminate.
  - (* E_unwrap_call *)
    eapply (InvA_frames restore st st' t th th' _ [KComp d; KUnwrapRet c] k I Hth Hthr Hstk Hstk' Hcells); [reflexivity|].
    intros fr c0 [<-|[<-|[]]] Hu; [discriminate|]. eapply Htop; eauto.
  - (* E_unwrap_back *)
    eapply (InvA_frames restore st st' t th th' _ [KUnwrap c w] k I Hth Hthr Hstk Hstk' Hcells); [reflexivity|].
    intros fr c0 [<-|[]] Hu. eapply Htop; eauto.
  - (* E_unwrap_exn *)
    eapply (InvA_frames restore st st' t th th' _ [] k I Hth Hthr Hstk Hstk' Hcells); [reflexivity|intros fr c0 []].
  - (* E_realize *)
    assert (Hcr : st_is valued st c = true) by (eapply Htop; eauto; simpl; apply Nat.eqb_refl).
    assert (Hex : exists k0, nth_error (mcells st) c = Some k0 /\ is_init (cst k0) = false /\ st_is computing st c = false).
    { unfold st_is, m_cst in *. destruct (nth_error (mcells st) c) as [k0|]; simpl in *; try discriminate.
      exists k0. destruct (cst k0); try discriminate; auto. }
    destruct Hex as [k0 [Hk0 [Hni Hnc]]].
    pose proof (ia_act _ _ I c) as Ha0. rewrite Hnc in Ha0. simpl in Ha0.
    eapply (InvA_cset restore st st' t th th' _ [] k c _ k0 I Hth Hthr Hstk Hstk' Hcells Hk0).
    + apply cell_ok_cst; [exact (ia_cells _ _ I c k0 Hk0)|exact Hni|reflexivity].
    + reflexivity.
    + unfold act_stk. simpl. lia.
    + unfold act_stk. simpl. lia.
    + intros fr c' [].
    + reflexivity.
  - (* E_alloc *)
    set (n := length (mcells st)).
    assert (Hout : forall c', n <= c' -> nth_error (mcells st) c' = None) by (intros; apply nth_error_None; assumption).
    assert (Hk : forall c, act_stk c (stk th') = act_stk c (stk th)) by (intro c; rewrite Hstk, Hstk'; reflexivity).
    pose proof (ia_act _ _ I n) as Ha0. unfold st_is, m_cst in Ha0. rewrite (Hout n (le_n _)) in Ha0. simpl in Ha0.
    eapply (InvA_step restore st st' t th th' n (Some (Initialized g)) I Hth Hthr).
    + intros c' k' Hk'. rewrite Hcells, nth_error_snoc in Hk'. fold n in Hk'. destruct (Nat.ltb c' n); [auto|].
      destruct (Nat.eqb_spec c' n); [|discriminate]. injection Hk' as <-. right. split; [assumption|].
      unfold cell_ok. simpl. destruct restore; reflexivity.
    + intro c'. unfold m_cst. rewrite Hcells, nth_error_snoc. fold n. rewrite (Nat.eqb_sym n c').
      destruct (Nat.ltb_spec c' n), (Nat.eqb_spec c' n); try lia; try reflexivity.
      rewrite (Hout c') by assumption. reflexivity.
    + intros c' _. apply Hk.
    + rewrite Hk. simpl. lia.
    + intros _. rewrite Hk. simpl. lia.
    + intros fr c' Hin Hu. left. rewrite Hstk. right. rewrite <- Hstk'. exact Hin.
    + unfold st_is, m_cst. rewrite (Hout n (le_n _)). discriminate.
Qed.

Lemma InvA_set_gil : forall restore st g, InvA restore st -> InvA restore (set_gil st g).
Proof. intros restore st g [A B C D]. constructor; assumption. Qed.

(** initial states: every cell waits to be started, nobody is inside seq.rs *)
Definition fresh_state (st : mstate) : Prop :=
  (forall c k, nth_error (mcells st) c = Some k -> is_init (cst k) = true /\ ncalls k = 0%N /\ nthrows k = 0%N) /\
  (forall t th, nth_error (thr st) t = Some th -> stk th = []) /\
  (forall c l, nth_error (mlocks st) c = Some l -> l = None) /\
  length (mlocks st) = length (mcells st) /\ glog st = [].

Lemma fresh_init_m : forall scripts its nev roots progs, fresh_state (init_m scripts its nev roots progs).
Proof.
  intros. unfold fresh_state, init_m. simpl. repeat split.
  1-3: (apply nth_error_In in H; apply in_app_or in H; destruct H as [H|H]; apply in_map_iff in H;
        destruct H as [x [Hx _]]; subst; reflexivity).
  - intros t th H. apply nth_error_In in H. apply in_map_iff in H. destruct H as [x [Hx _]]. subst. reflexivity.
  - intros c l H. apply nth_error_In in H. apply repeat_spec in H. exact H.
  - rewrite repeat_length, app_length, !map_length, seq_length. reflexivity.
Qed.

Lemma InvA_fresh : forall restore st, fresh_state st -> InvA restore st.
Proof.
  intros restore st [Hc [Ht _]].
  assert (Ha : forall c, act st c = 0).
  { intro c. unfold act. apply list_sum_zero. intros x Hx. apply in_map_iff in Hx. destruct Hx as [th [Hx Hin]].
    apply In_nth_error in Hin. destruct Hin as [t Hin]. rewrite (Ht t th Hin) in Hx. subst. reflexivity. }
  constructor.
  - intros c k Hk. destruct (Hc c k Hk) as [Hi [Hn Hth]]. unfold cell_ok. rewrite Hi, Hn, Hth. destruct restore; reflexivity.
  - intro c. rewrite Ha. lia.
  - intros _ c. rewrite Ha. unfold st_is, m_cst. destruct (nth_error (mcells st) c) as [k|] eqn:E; simpl; auto.
    destruct (Hc c k E) as [Hi _]. destruct (cst k); simpl in *; try discriminate; auto.
  - intros t th fr c Hth Hin. rewrite (Ht t th Hth) in Hin. destruct Hin.
Qed.
