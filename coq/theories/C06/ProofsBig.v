(** C06 -- proofs about the one-thread model (LazySeq.v): re-entrancy, the error path. *)
From Coq Require Import List NArith Arith Lia.
Import ListNotations.
From Verif Require Import C06.LazySeq.

Lemma reentrant_sees_empty : forall restore f s c k,
  get s c = Some k -> cst k = Computing ->
  ev restore (S (S f)) (CSeq c) s = (s, Ok ONil).
Proof.
  intros restore f s c k Hg Hc. simpl. rewrite Hg, Hc. rewrite Hg, Hc. reflexivity.
Qed.

Lemma compute_of_computing : forall restore f s c k,
  get s c = Some k -> cst k = Computing ->
  ev restore (S f) (CCompute c) s = (s, Ok ONil).
Proof. intros. simpl. rewrite H, H0. reflexivity. Qed.

(** the script-level reading: `ATouch c` inside the producer of c notes (c, saw nil = true) and goes on *)
Lemma touch_own_cell : forall restore f s c k l,
  get s c = Some k -> cst k = Computing ->
  ev restore (S (S (S f))) (CScript (ATouch c :: l)) s =
  ev restore (S (S f)) (CScript l) (note_seen s c true).
Proof.
  intros. change (ev restore (S (S (S f))) (CScript (ATouch c :: l)) s)
    with (let (s1, r) := ev restore (S (S f)) (CSeq c) s in
          match r with
          | Ok o => ev restore (S (S f)) (CScript l) (note_seen s1 c (is_nil o))
          | e => (s1, e)
          end).
  rewrite (reentrant_sees_empty restore f s c k H H0). reflexivity.
Qed.

(** cell c is being computed: a look at it sees it empty *)
Definition iscomp (x : cstate) : bool := match x with Computing => true | _ => false end.
Definition comp (s : st) (c : cid) : bool :=
  match get s c with Some k => iscomp (cst k) | None => false end.

(** returned or raised (out of fuel or stuck, nothing is claimed) *)
Definition okres (r : res) : Prop := match r with Ok _ | Exn => True | _ => False end.

Lemma get_set_heap : forall s h c, get (set_heap s h) c = nth_error h c.
Proof. reflexivity. Qed.

Lemma get_lt : forall s c k, get s c = Some k -> c < length (heap s).
Proof. intros. apply nth_error_Some. unfold get in H. congruence. Qed.

(** the common form of [set_cst], [start_call], [note_throw] *)
Definition upd_cell (s : st) (c : cid) (f : cell -> cell) : st :=
  match get s c with
  | Some k => set_heap s (upd (heap s) c (f k))
  | None => s
  end.

Lemma get_upd_cell : forall s c f c',
  get (upd_cell s c f) c' = if Nat.eqb c c' then option_map f (get s c) else get s c'.
Proof.
  intros. unfold upd_cell. destruct (get s c) eqn:E.
  - rewrite get_set_heap, nth_error_upd. destruct (Nat.eqb_spec c c'); auto.
    apply get_lt in E. destruct (Nat.ltb_spec c (length (heap s))); try lia. reflexivity.
  - destruct (Nat.eqb_spec c c'); auto. subst. rewrite E. reflexivity.
Qed.

Lemma comp_upd_cell : forall s c f c',
  comp (upd_cell s c f) c' =
  if Nat.eqb c c' then (match get s c with Some k => iscomp (cst (f k)) | None => false end) else comp s c'.
Proof.
  intros. unfold comp. rewrite get_upd_cell. destruct (Nat.eqb c c'); [|reflexivity].
  destruct (get s c); reflexivity.
Qed.

Lemma set_cst_upd : forall s c x, set_cst s c x = upd_cell s c (fun k => mkCell x (ncalls k) (nthrows k)).
Proof. reflexivity. Qed.
Lemma start_call_upd : forall s c, start_call s c = upd_cell s c (fun k => mkCell Computing (N.succ (ncalls k)) (nthrows k)).
Proof. reflexivity. Qed.
Lemma note_throw_upd : forall s c x, note_throw s c x = upd_cell s c (fun k => mkCell x (ncalls k) (N.succ (nthrows k))).
Proof. reflexivity. Qed.

Lemma comp_set_cst : forall s c x c',
  comp (set_cst s c x) c' = if Nat.eqb c c' then (match get s c with Some _ => iscomp x | None => false end) else comp s c'.
Proof. intros. rewrite set_cst_upd. apply comp_upd_cell. Qed.

Lemma comp_start_call : forall s c c',
  comp (start_call s c) c' = if Nat.eqb c c' then (match get s c with Some _ => true | None => false end) else comp s c'.
Proof. intros. rewrite start_call_upd. apply comp_upd_cell. Qed.

Lemma comp_note_throw : forall s c x c',
  comp (note_throw s c x) c' = if Nat.eqb c c' then (match get s c with Some _ => iscomp x | None => false end) else comp s c'.
Proof. intros. rewrite note_throw_upd. apply comp_upd_cell. Qed.

Lemma comp_app_init : forall s' s g n t c,
  heap s' = heap s ++ [mkCell (Initialized g) n t] -> comp s' c = comp s c.
Proof.
  intros. unfold comp, get. rewrite H.
  destruct (Nat.lt_ge_cases c (length (heap s))).
  - rewrite nth_error_app1 by lia. reflexivity.
  - rewrite nth_error_app2 by lia.
    replace (nth_error (heap s) c) with (@None cell) by (symmetry; apply nth_error_None; lia).
    destruct (c - length (heap s)) as [|m]; simpl; [reflexivity|]. destruct m; reflexivity.
Qed.

Lemma comp_mark : forall s c c', comp (mark_if_realized s c) c' = comp s c'.
Proof. intros. unfold mark_if_realized. destruct (nth_error (heap s) c); auto. destruct (cst c0); auto. Qed.

(** The loop of seq(c) ends by storing Realized in c, which would un-mark a Computing c: [CUnwrap c _] may only
    be entered on a cell that is not Computing (seq enters it on a Computed one). *)
Definition pre (k : call) (s : st) : Prop :=
  match k with CUnwrap c _ => comp s c = false | _ => True end.

(** With the repaired error path, every call -- whether it returns or raises -- leaves exactly the
    cells Computing that were Computing before. *)
Lemma computing_preserved : forall f k s s' r,
  ev true f k s = (s', r) -> okres r -> pre k s -> forall c, comp s' c = comp s c.
Proof.
  induction f; intros k s s' r H Hok Hpre c.
  - simpl in H. injection H as <- <-. simpl in Hok. contradiction.
  - destruct k; simpl in H.
    + destruct (get s c0) as [cl|] eqn:Eg; [|injection H as <- <-; simpl in Hok; contradiction].
      destruct (cst cl) eqn:Ec; [| | |injection H as <- <-; reflexivity].
      all: destruct (ev true f (CCompute c0) s) as [s1 r1] eqn:E1;
        destruct r1; try solve [injection H as <- <-; try (simpl in Hok; contradiction); eapply IHf; eauto; simpl; auto].
      all: destruct (get s1 c0) as [cl1|] eqn:Eg1; [|injection H as <- <-; simpl in Hok; contradiction];
        destruct (cst cl1) eqn:Ec1; try solve [injection H as <- <-; eapply IHf; eauto; simpl; auto];
        assert (Hc0 : comp s1 c0 = false) by (unfold comp; rewrite Eg1, Ec1; reflexivity);
        rewrite (IHf _ _ _ _ H Hok Hc0 c); eapply IHf; eauto; simpl; auto.
    + destruct (get s c0) as [cl|] eqn:Eg; [|injection H as <- <-; simpl in Hok; contradiction].
      destruct (cst cl) eqn:Ec; try solve [injection H as <- <-; reflexivity].
      destruct (ev true f (CGen g) (start_call s c0)) as [s2 r2] eqn:E2.
      assert (Hs : comp s c0 = false) by (unfold comp; rewrite Eg, Ec; reflexivity).
      destruct r2; injection H as <- <-; try (simpl in Hok; contradiction).
      * rewrite comp_set_cst. destruct (Nat.eqb_spec c0 c).
        -- subst. rewrite Hs. destruct (get s2 c); reflexivity.
        -- rewrite (IHf _ _ _ _ E2 I I), comp_start_call. destruct (Nat.eqb_spec c0 c); congruence.
      * rewrite comp_note_throw. destruct (Nat.eqb_spec c0 c).
        -- subst. rewrite Hs. destruct (get s2 c); reflexivity.
        -- rewrite (IHf _ _ _ _ E2 I I), comp_start_call. destruct (Nat.eqb_spec c0 c); congruence.
    + simpl in Hpre. destruct w.
      1-3: (injection H as <- <-; rewrite comp_set_cst; destruct (Nat.eqb_spec c0 c); auto;
            subst; rewrite Hpre; destruct (get s c); reflexivity).
      destruct (ev true f (CCompute c1) s) as [s1 r1] eqn:E1.
      destruct r1; try solve [injection H as <- <-; simpl in Hok; contradiction].
      * assert (Hc0 : comp s1 c0 = false) by (rewrite (IHf _ _ _ _ E1 I I c0); auto).
        rewrite (IHf _ _ _ _ H Hok Hc0 c). eapply IHf; eauto; simpl; auto.
      * injection H as <- <-. rewrite comp_mark. eapply IHf; eauto; simpl; auto.
    + destruct o; try solve [injection H as <- <-; reflexivity]. eapply IHf; eauto; simpl; auto.
    + destruct g; [eapply IHf; eauto; simpl; auto| | | | |
                   injection H as <- <-; erewrite (comp_app_init _ s) by reflexivity; reflexivity].
      4: destruct (n =? 0)%N; [injection H as <- <-; reflexivity|].
      all: match type of H with (let (_, _) := ?x in _) = _ => destruct x as [s1 r1] eqn:E1 end;
        destruct r1 as [[| |v rst|d]| | |]; try destruct (app_pred p v);
        injection H as <- <-; try (simpl in Hok; contradiction);
        try erewrite (comp_app_init _ s1) by reflexivity; eapply IHf; eauto; simpl; auto.
    + (* [set_ev], [note_seen], [bump_tick] leave the heap alone: [comp] reads the same by computation *)
      destruct l as [|a l]; [injection H as <- <-; reflexivity|].
      destruct a.
      * eapply IHf; eauto; simpl; auto.
      * destruct (nth e (evs s) false); [eapply IHf; eauto; simpl; auto | injection H as <- <-; simpl in Hok; contradiction].
      * exact (IHf _ _ _ _ H Hok I c).
      * destruct (ev true f (CSeq c0) s) as [s1 r1] eqn:E1.
        destruct r1; try solve [injection H as <- <-; try (simpl in Hok; contradiction); eapply IHf; eauto; simpl; auto].
        rewrite (IHf _ _ _ _ H Hok I c). exact (IHf _ _ _ _ E1 I I c).
      * injection H as <- <-; reflexivity.
      * injection H as <- <-; reflexivity.
      * injection H as <- <-; reflexivity.
    + (* likewise [set_iter], [chain_dead] *)
      destruct (nth_error (iters s) it) as [i|] eqn:Ei; [|injection H as <- <-; simpl in Hok; contradiction].
      destruct i.
      * destruct l as [|x l]; [injection H as <- <-; reflexivity|].
        destruct x; injection H as <- <-; reflexivity.
      * destruct (ev true f (CIterNext cur) s) as [s1 r1] eqn:E1.
        destruct r1 as [o| | |]; try solve [injection H as <- <-; try (simpl in Hok; contradiction); eapply IHf; eauto; simpl; auto].
        destruct o; injection H as <- <-; exact (IHf _ _ _ _ E1 I I c).
      * destruct cur as [cur|].
        -- destruct (ev true f (CIterNext cur) s) as [s1 r1] eqn:E1.
           destruct r1 as [o| | |]; try solve [injection H as <- <-; try (simpl in Hok; contradiction); eapply IHf; eauto; simpl; auto].
           pose proof (IHf _ _ _ _ E1 I I c) as Hs1.
           destruct o; try solve [rewrite (IHf _ _ _ _ H Hok I c); exact Hs1].
           injection H as <- <-. exact Hs1.
        -- destruct srcs as [|src srcs]; [injection H as <- <-; reflexivity|].
           destruct (ev true f (CToSeq src) (set_iter s it (ItChain None srcs))) as [s1 r1] eqn:E1.
           assert (Hs1 : okres r1 -> comp s1 c = comp s c) by (intro Hr; exact (IHf _ _ _ _ E1 Hr I c)).
           destruct r1 as [o| | |]; try solve [injection H as <- <-; simpl in Hok; contradiction].
           ++ destruct o; rewrite (IHf _ _ _ _ H Hok I c); exact (Hs1 I).
           ++ injection H as <- <-. exact (Hs1 I).
    + destruct cur; try solve [injection H as <- <-; reflexivity].
      destruct (ev true f (CSeq c0) s) as [s1 r1] eqn:E1.
      destruct r1 as [o| | |]; try solve [injection H as <- <-; try (simpl in Hok; contradiction); eapply IHf; eauto; simpl; auto].
      destruct o; injection H as <- <-; eapply IHf; eauto; simpl; auto.
Qed.

Definition hlen (s : st) : nat := length (heap s).

Lemma hlen_upd_cell : forall s c f, hlen (upd_cell s c f) = hlen s.
Proof. intros. unfold upd_cell, hlen. destruct (get s c); simpl; auto. apply upd_length. Qed.
Lemma hlen_set_cst : forall s c x, hlen (set_cst s c x) = hlen s.
Proof. intros. rewrite set_cst_upd. apply hlen_upd_cell. Qed.
Lemma hlen_start_call : forall s c, hlen (start_call s c) = hlen s.
Proof. intros. rewrite start_call_upd. apply hlen_upd_cell. Qed.
Lemma hlen_mark : forall s c, hlen (mark_if_realized s c) = hlen s.
Proof. intros. unfold mark_if_realized, hlen. destruct (nth_error (heap s) c); auto. destruct (cst c0); auto. Qed.

Lemma heap_mono : forall restore f k s s' r, ev restore f k s = (s', r) -> hlen s <= hlen s'.
Proof.
  (* along every path the final state comes from s by nested calls (IH; the only setter before one is [start_call])
     and by updates that keep the heap or append to it *)
  induction f; intros k s s' r H.
  - simpl in H. injection H as <- _. apply le_n.
  - destruct k; simpl in H;
      repeat match type of H with context [match ?x with _ => _ end] => destruct x eqn:? end;
      try (injection H as <- _);
      repeat match goal with E : ev _ _ _ _ = (_, _) |- _ => apply IHf in E; rewrite ?hlen_start_call in E end;
      rewrite ?hlen_set_cst, ?note_throw_upd, ?hlen_upd_cell, ?hlen_mark;
      unfold hlen in *; cbn [heap alloc set_heap set_iter set_ev bump_tick bump_f chain_dead note_seen fst snd] in *;
      rewrite ?app_length in *; cbn [length] in *; lia.
Qed.

Lemma get_survives : forall restore f k0 s c k s2 r,
  get s c = Some k -> ev restore f k0 (start_call s c) = (s2, r) -> exists k2, get s2 c = Some k2.
Proof.
  intros restore f k0 s c k s2 r Hg E. apply heap_mono in E. rewrite hlen_start_call in E. apply get_lt in Hg.
  destruct (get s2 c) eqn:E2; [eauto|]. apply nth_error_None in E2. unfold hlen in *. lia.
Qed.

(** consumer operations, returning or raising, keep the Computing cells; so none is ever left Computing *)

Definition quiet (s : st) : Prop := forall c, comp s c = false.

Lemma quiet_pre : forall k s, quiet s -> pre k s.
Proof. intros. destruct k; simpl; auto. Qed.

Lemma seq_comp : forall fuel c s s' r,
  ev true fuel (CSeq c) s = (s', r) -> okres r -> forall c', comp s' c' = comp s c'.
Proof. intros. eapply computing_preserved; eauto. exact I. Qed.

Lemma op_first_comp : forall fuel o s s' r,
  op_first true fuel o s = (s', r) -> okres r -> forall c, comp s' c = comp s c.
Proof.
  intros fuel o s s' r H Hok. unfold op_first in H. destruct o; try (inversion H; subst; reflexivity).
  destruct (ev true fuel (CSeq c) s) as [s1 r1] eqn:E.
  destruct r1 as [[]| | |]; inversion H; subst; try contradiction; eapply seq_comp; eauto; exact I.
Qed.

Lemma op_rest_comp : forall fuel o s s' r,
  op_rest true fuel o s = (s', r) -> okres r -> forall c, comp s' c = comp s c.
Proof.
  intros fuel o s s' r H Hok. unfold op_rest in H. destruct o; try (inversion H; subst; reflexivity).
  destruct (ev true fuel (CSeq c) s) as [s1 r1] eqn:E.
  destruct r1 as [[]| | |]; inversion H; subst; try contradiction; eapply seq_comp; eauto; exact I.
Qed.

Lemma op_seq_comp : forall fuel o s s' r,
  op_seq true fuel o s = (s', r) -> okres r -> forall c, comp s' c = comp s c.
Proof. intros. unfold op_seq in H. eapply computing_preserved; eauto. exact I. Qed.

Lemma op_next_comp : forall fuel o s s' r,
  op_next true fuel o s = (s', r) -> okres r -> forall c, comp s' c = comp s c.
Proof.
  intros fuel o s s' r H Hok c. unfold op_next in H.
  destruct (op_rest true fuel o s) as [s1 r1] eqn:E.
  destruct r1 as [o1| | |]; try (inversion H; subst; simpl in Hok; contradiction).
  - rewrite (op_seq_comp _ _ _ _ _ H Hok). eapply op_rest_comp; eauto. exact I.
  - inversion H; subst. eapply op_rest_comp; eauto.
Qed.

Lemma walk_comp : forall fuel n cur acc s s' r acc',
  walk true fuel n cur acc s = (s', r, acc') -> okres r -> forall c, comp s' c = comp s c.
Proof.
  induction n; intros cur acc s s' r acc' H Hok c; simpl in H.
  - inversion H; subst. reflexivity.
  - destruct (ev true fuel (CIterNext cur) s) as [s1 r1] eqn:E.
    assert (H1 : okres r1 -> comp s1 c = comp s c) by (intro; eapply computing_preserved; eauto; exact I).
    destruct r1 as [[]| | |]; try (inversion H; subst; try contradiction; apply H1; exact I).
    rewrite (IHn _ _ _ _ _ _ H Hok). apply H1. exact I.
Qed.

Lemma obs_of_res_bad : forall x f, obs_of_res x f <> BBad -> okres x.
Proof. intros. destruct x; simpl in *; auto. Qed.

Lemma do_op_comp : forall fuel o regs s s' regs' b,
  do_op true fuel o regs s = (s', regs', b) -> b <> BBad -> forall c, comp s' c = comp s c.
Proof.
  intros fuel o regs s s' regs' b H Hb. destruct o; cbv beta match delta [do_op] in H.
  - destruct (op_first true fuel (reg regs r) s) as [s1 x] eqn:E. inversion H; subst.
    eapply op_first_comp; eauto. eapply obs_of_res_bad; eauto.
  - destruct (op_rest true fuel (reg regs r) s) as [s1 x] eqn:E. inversion H; subst.
    eapply op_rest_comp; eauto. eapply obs_of_res_bad; eauto.
  - destruct (op_next true fuel (reg regs r) s) as [s1 x] eqn:E. inversion H; subst.
    eapply op_next_comp; eauto. eapply obs_of_res_bad; eauto.
  - destruct (op_seq true fuel (reg regs r) s) as [s1 x] eqn:E. inversion H; subst.
    eapply op_seq_comp; eauto. eapply obs_of_res_bad; eauto.
  - destruct (reg regs r) eqn:Er; try (inversion H; subst; reflexivity);
      (destruct (walk true fuel fuel _ [] s) as [[s1 x] acc] eqn:E; inversion H; subst;
       eapply walk_comp; eauto; destruct x as [ox| | |]; simpl; auto; try (destruct ox); congruence).
  - destruct (reg regs r) eqn:Er; try (inversion H; subst; reflexivity);
      (destruct (walk true fuel (S i) _ [] s) as [[s1 x] acc] eqn:E; inversion H; subst;
       eapply walk_comp; eauto; destruct x as [ox| | |]; simpl; auto; congruence).
  - destruct (reg regs r) eqn:Er; try (inversion H; subst; reflexivity);
      (destruct (walk true fuel limit _ [] s) as [[s1 x] acc] eqn:E; inversion H; subst;
       eapply walk_comp; eauto; destruct x as [ox| | |]; simpl; auto; congruence).
Qed.

Lemma do_ops_acc : forall restore fuel ops regs s acc s' obs,
  do_ops restore fuel ops regs s acc = (s', obs) -> forall x, In x acc -> In x obs.
Proof.
  induction ops; intros regs s acc s' obs H x Hx; simpl in H.
  - inversion H; subst. apply in_rev. rewrite rev_involutive. assumption.
  - destruct (do_op restore fuel a regs s) as [[s1 regs1] b]. eapply IHops; eauto. right. assumption.
Qed.

Lemma do_ops_comp : forall fuel ops regs s acc s' obs,
  do_ops true fuel ops regs s acc = (s', obs) -> ~ In BBad obs -> forall c, comp s' c = comp s c.
Proof.
  induction ops; intros regs s acc s' obs H Hn c; simpl in H.
  - inversion H; subst. reflexivity.
  - destruct (do_op true fuel a regs s) as [[s1 regs1] b] eqn:E.
    rewrite (IHops _ _ _ _ _ H Hn c). eapply do_op_comp; eauto.
    intros ->. apply Hn. eapply do_ops_acc; eauto. left. reflexivity.
Qed.

Lemma do_ops_quiet : forall fuel ops regs s acc s' obs,
  do_ops true fuel ops regs s acc = (s', obs) -> ~ In BBad obs -> quiet s -> quiet s'.
Proof. intros fuel ops regs s acc s' obs H Hn Hq c. rewrite (do_ops_comp _ _ _ _ _ _ _ H Hn c). apply Hq. Qed.

(** a failed producer is put back: the very generator it had, to be called again *)
Lemma failed_producer_restored : forall f s c k g s',
  get s c = Some k -> cst k = Initialized g ->
  ev true (S f) (CCompute c) s = (s', Exn) ->
  exists k', get s' c = Some k' /\ cst k' = Initialized g.
Proof.
  intros f s c k g s' Hg Hc H. simpl in H. rewrite Hg, Hc in H.
  destruct (ev true f (CGen g) (start_call s c)) as [s2 r2] eqn:E.
  destruct r2; inversion H; subst; clear H.
  destruct (get_survives _ _ _ _ _ _ _ _ Hg E) as [k2 E2].
  exists (mkCell (Initialized g) (ncalls k2) (N.succ (nthrows k2))). split; [|reflexivity].
  rewrite note_throw_upd, get_upd_cell, Nat.eqb_refl, E2. reflexivity.
Qed.
