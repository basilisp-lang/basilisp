(** C06 -- the cell mutex: [lock_ok] (the depth recorded in the mutex of c is the number of times the frames of its
    owner hold it; nobody else holds it) holds initially and is kept by every step. *)
From Coq Require Import List Bool Arith Lia.
Import ListNotations.
From Verif Require Import C06.Machine C06.ProofsMachine C06.ProofsConc.

(** a [KCompRet _ _ true] frame holds c twice: once for seq, once for the _compute_seq it called *)
Definition hold (c : cid) (fr : frame) : nat :=
  match fr with
  | KCompRet c' _ b => if Nat.eqb c c' then (if b then 2 else 1) else 0
  | KUnwrap c' _ | KUnwrapRet c' => if Nat.eqb c c' then 1 else 0
  | _ => 0
  end.
Definition hcnt (c : cid) (l : list frame) : nat := list_sum (map (hold c) l).

Definition depth (l : option (option (tid * nat))) (t : tid) : nat :=
  match l with Some (Some (o, n)) => if Nat.eqb t o then S n else 0 | _ => 0 end.

Definition lock_ok (st : mstate) : Prop :=
  forall c t th, nth_error (thr st) t = Some th -> hcnt c (stk th) = depth (nth_error (mlocks st) c) t.

Lemma depth_snoc : forall (ls : list (option (tid * nat))) c t,
  depth (nth_error (ls ++ [None]) c) t = depth (nth_error ls c) t.
Proof.
  intros. rewrite nth_error_snoc. destruct (Nat.ltb_spec c (length ls)); [reflexivity|].
  replace (nth_error ls c) with (@None (option (tid * nat))) by (symmetry; apply nth_error_None; assumption).
  destruct (Nat.eqb c (length ls)); reflexivity.
Qed.

Lemma plain_hold : forall c fr, plain fr = true -> hold c fr = 0.
Proof. intros. destruct fr; simpl in *; try discriminate; reflexivity. Qed.

Lemma hcnt_core : forall c l, hcnt c l = hcnt c (core l).
Proof.
  intros. unfold hcnt, core. induction l; simpl; auto.
  destruct a; simpl; auto; lia.
Qed.

Lemma hcnt_cons : forall c fr l, hcnt c (fr :: l) = hold c fr + hcnt c l.
Proof. reflexivity. Qed.

Lemma plain_hcnt : forall c k, forallb plain k = true -> hcnt c k = 0.
Proof.
  induction k; simpl; intros; auto. apply andb_true_iff in H. destruct H.
  rewrite hcnt_cons, IHk, plain_hold by assumption. reflexivity.
Qed.

Lemma in_hcnt : forall c fr l, In fr l -> 1 <= hold c fr -> 1 <= hcnt c l.
Proof.
  induction l; simpl; intros; [tauto|]. rewrite hcnt_cons. destruct H.
  - subst. lia.
  - specialize (IHl H H0). lia.
Qed.

Definition can_l (ls : list (option (tid * nat))) (c : cid) (t : tid) : bool :=
  match nth_error ls c with
  | Some None => true
  | Some (Some (t', _)) => Nat.eqb t' t
  | None => false
  end.

Lemma can_lock_l : forall st c t, can_lock st c t = can_l (mlocks st) c t.
Proof. reflexivity. Qed.

Lemma depth_upd : forall ls c0 x c t', c0 < length ls ->
  depth (nth_error (upd ls c0 x) c) t' = if Nat.eqb c c0 then depth (Some x) t' else depth (nth_error ls c) t'.
Proof.
  intros. rewrite nth_error_upd. destruct (Nat.eqb_spec c0 c).
  - subst. rewrite Nat.eqb_refl. destruct (Nat.ltb_spec c (length ls)); [reflexivity|lia].
  - destruct (Nat.eqb_spec c c0); [congruence|reflexivity].
Qed.

Lemma depth_acq : forall ls c0 t c t',
  can_l ls c0 t = true ->
  depth (nth_error (acq_l ls c0 t) c) t' =
  depth (nth_error ls c) t' + (if Nat.eqb c c0 && Nat.eqb t' t then 1 else 0).
Proof.
  intros ls c0 t c t' Hc. unfold can_l in Hc. unfold acq_l.
  destruct (nth_error ls c0) as [[[o n]|]|] eqn:E; try discriminate; [apply Nat.eqb_eq in Hc; subst o|].
  all: rewrite depth_upd by (apply nth_error_Some; congruence);
    destruct (Nat.eqb_spec c c0); [subst c; rewrite E|]; simpl; [destruct (Nat.eqb t' t); simpl; lia|lia].
Qed.

Lemma can_l_acq : forall ls c0 t, can_l ls c0 t = true -> can_l (acq_l ls c0 t) c0 t = true.
Proof.
  intros ls c0 t Hc. unfold can_l in *. unfold acq_l.
  destruct (nth_error ls c0) as [[[o n]|]|] eqn:E; try discriminate.
  - rewrite nth_error_upd_same by (apply nth_error_Some; congruence). exact Hc.
  - rewrite nth_error_upd_same by (apply nth_error_Some; congruence). apply Nat.eqb_refl.
Qed.

(** releasing: the releasing thread is the owner *)
Lemma depth_rel : forall ls c0 t c t',
  1 <= depth (nth_error ls c0) t ->
  depth (nth_error (rel_l ls c0) c) t' + (if Nat.eqb c c0 && Nat.eqb t' t then 1 else 0) =
  depth (nth_error ls c) t'.
Proof.
  intros ls c0 t c t' Hd. unfold rel_l. unfold depth in Hd.
  destruct (nth_error ls c0) as [[[o n]|]|] eqn:E; try lia.
  destruct (Nat.eqb_spec t o); try lia. subst o.
  destruct n.
  all: rewrite depth_upd by (apply nth_error_Some; congruence);
    destruct (Nat.eqb_spec c c0); [subst c; rewrite E|]; simpl; [destruct (Nat.eqb t' t); simpl; lia|lia].
Qed.

(** the generic step: thread t's holds change by [dp] - [dm] at cell c0, the mutex table accordingly *)
Lemma lock_ok_step : forall st st' t th th' c0 (dp dm : nat) ls',
  lock_ok st -> nth_error (thr st) t = Some th -> thr st' = upd (thr st) t th' ->
  (forall c, hcnt c (stk th') + (if Nat.eqb c c0 then dm else 0) = hcnt c (stk th) + (if Nat.eqb c c0 then dp else 0)) ->
  mlocks st' = ls' ->
  (forall c t', depth (nth_error ls' c) t' + (if Nat.eqb c c0 && Nat.eqb t' t then dm else 0) =
                depth (nth_error (mlocks st) c) t' + (if Nat.eqb c c0 && Nat.eqb t' t then dp else 0)) ->
  lock_ok st'.
Proof.
  intros st st' t th th' c0 dp dm ls' L Hth Hthr Hh Hl Hd c t' th'' Ht'.
  rewrite Hl. specialize (Hd c t'). rewrite Hthr in Ht'. apply nth_error_upd_inv in Ht'.
  destruct Ht' as [[-> ->]|[Hne Ht']].
  - specialize (Hh c). rewrite (L c t th Hth) in Hh. rewrite Nat.eqb_refl, andb_true_r in Hd. lia.
  - rewrite (L c t' th'' Ht'). destruct (Nat.eqb_spec t' t); [congruence|]. rewrite andb_false_r in Hd. lia.
Qed.

Lemma lock_ok_eff : forall restore st st' t th,
  lock_ok st -> nth_error (thr st) t = Some th -> eff restore t st st' th -> lock_ok st'.
Proof.
  intros restore st st' t th L Hth E.
  (* the two common shapes: no mutex moves and t holds what it held; one level of c is given back *)
  assert (Hkeep : forall th', thr st' = upd (thr st) t th' ->
            (forall c0, hcnt c0 (stk th') = hcnt c0 (stk th)) -> mlocks st' = mlocks st -> lock_ok st').
  { intros th' Hthr Hb Hlocks. eapply (lock_ok_step st st' t th th' 0 0 0 _ L Hth Hthr); [ | exact Hlocks | intros; reflexivity].
    intro c0. rewrite Hb. reflexivity. }
  assert (Hrel : forall th' c, thr st' = upd (thr st) t th' ->
            (forall c0, hcnt c0 (stk th') + (if Nat.eqb c0 c then 1 else 0) = hcnt c0 (stk th)) ->
            mlocks st' = rel_l (mlocks st) c -> lock_ok st').
  { intros th' c Hthr Hb Hlocks.
    assert (Hd : 1 <= depth (nth_error (mlocks st) c) t).
    { rewrite <- (L c t th Hth). specialize (Hb c). rewrite Nat.eqb_refl in Hb. lia. }
    eapply (lock_ok_step st st' t th th' c 0 1 _ L Hth Hthr); [ | exact Hlocks | ].
    - intro c0. specialize (Hb c0). destruct (Nat.eqb c0 c); lia.
    - intros c0 t'. pose proof (depth_rel (mlocks st) c t c0 t' Hd). destruct (Nat.eqb c0 c && Nat.eqb t' t); lia. }
  destruct E.
  - (* E_local *)
    apply (Hkeep th' Hthr); [|exact Hlocks].
    intro c. rewrite (hcnt_core c (stk th')), (hcnt_core c (stk th)), Hcore. reflexivity.
  - (* E_seq_ret *)
    apply (Hkeep th' Hthr); [|exact Hlocks]. intro c0. rewrite Hstk, Hstk', hcnt_cons. reflexivity.
  - (* E_seq_start *)
    eapply (lock_ok_step st st' t th th' c 2 0 _ L Hth Hthr); [ | eassumption | ].
    + intro c0. rewrite Hstk, Hstk', !hcnt_cons. simpl. rewrite (plain_hold c0 fr) by assumption.
      destruct (Nat.eqb c0 c); lia.
    + intros c0 t'. rewrite can_lock_l in Hcan. rewrite depth_acq by (apply can_l_acq; exact Hcan). rewrite depth_acq by exact Hcan.
      destruct (Nat.eqb c0 c && Nat.eqb t' t); lia.
  - (* E_seq_unwrap *)
    eapply (lock_ok_step st st' t th th' c 1 0 _ L Hth Hthr); [ | eassumption | ].
    + intro c0. rewrite Hstk, Hstk', !hcnt_cons. simpl. destruct (Nat.eqb c0 c); lia.
    + intros c0 t'. rewrite can_lock_l in Hcan. rewrite depth_acq by exact Hcan. destruct (Nat.eqb c0 c && Nat.eqb t' t); lia.
  - (* E_comp_start *)
    eapply (lock_ok_step st st' t th th' c 1 0 _ L Hth Hthr); [ | eassumption | ].
    + intro c0. rewrite Hstk, Hstk', !hcnt_cons. simpl. rewrite (plain_hold c0 fr) by assumption.
      destruct (Nat.eqb c0 c); lia.
    + intros c0 t'. rewrite can_lock_l in Hcan. rewrite depth_acq by exact Hcan. destruct (Nat.eqb c0 c && Nat.eqb t' t); lia.
  - (* E_comp_ok: if called from seq, the loop frame keeps the other level *)
    apply (Hrel th' c Hthr); [|exact Hlocks].
    intro c0. rewrite Hstk, Hstk'. destruct b; rewrite !hcnt_cons; simpl; destruct (Nat.eqb c0 c); lia.
  - (* E_comp_exn *)
    destruct b; [|apply (Hrel th' c Hthr); [|exact Hlocks]; intro c0; rewrite Hstk, Hstk', !hcnt_cons; simpl;
                  destruct (Nat.eqb c0 c); lia].
    assert (Hd1 : 1 <= depth (nth_error (mlocks st) c) t /\ 2 <= depth (nth_error (mlocks st) c) t).
    { rewrite <- (L c t th Hth), Hstk, hcnt_cons. simpl. rewrite Nat.eqb_refl. lia. }
    destruct Hd1 as [Hd1 Hd].
    eapply (lock_ok_step st st' t th th' c 0 2 _ L Hth Hthr); [ | eassumption | ].
    + intro c0. rewrite Hstk, Hstk', !hcnt_cons. simpl. destruct (Nat.eqb c0 c); lia.
    + intros c0 t'.
      pose proof (depth_rel (mlocks st) c t c t Hd1) as Hs. rewrite !Nat.eqb_refl in Hs. simpl in Hs.
      assert (Hd2 : 1 <= depth (nth_error (rel_l (mlocks st) c) c) t) by lia.
      pose proof (depth_rel (mlocks st) c t c0 t' Hd1).
      pose proof (depth_rel (rel_l (mlocks st) c) c t c0 t' Hd2).
      destruct (Nat.eqb c0 c && Nat.eqb t' t); lia.
  - (* E_unwrap_call *)
    apply (Hkeep th' Hthr); [|exact Hlocks]. intro c0. rewrite Hstk, Hstk', !hcnt_cons. simpl. lia.
  - (* E_unwrap_back *)
    apply (Hkeep th' Hthr); [|exact Hlocks]. intro c0. rewrite Hstk, Hstk', !hcnt_cons. simpl. lia.
  - (* E_unwrap_exn *)
    apply (Hrel th' c Hthr); [|exact Hlocks]. intro c0. rewrite Hstk, Hstk', hcnt_cons. simpl. lia.
  - (* E_realize *)
    apply (Hrel th' c Hthr); [|exact Hlocks]. intro c0. rewrite Hstk, Hstk', hcnt_cons. simpl. lia.
  - (* E_alloc *)
    eapply (lock_ok_step st st' t th th' 0 0 0 _ L Hth Hthr); [ | eassumption | ].
    + intro c0. rewrite Hstk, Hstk', hcnt_cons. simpl. destruct (Nat.eqb c0 0); lia.
    + intros c0 t'. rewrite depth_snoc. reflexivity.
Qed.

Lemma lock_ok_fresh : forall st, fresh_state st -> lock_ok st.
Proof.
  intros st [_ [Ht [Hl _]]] c t th Hth. rewrite (Ht t th Hth). simpl.
  destruct (nth_error (mlocks st) c) as [l|] eqn:E; simpl; auto. rewrite (Hl c l E). reflexivity.
Qed.
