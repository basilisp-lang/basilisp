(** C06 -- laziness of core.lpy take over instrumented chains. *)
From Coq Require Import List NArith Arith Lia.
From Verif Require Import C06.LazySeq C06.ProofsBig C06.ProofsLazy C06.ProofsMap.

Definition take_at (k : N) (vs : list N) (b j c : nat) (s : st) : Prop :=
  chain_at vs b j s /\ get s c = Some (out_cell (GTake k (OLazy (b + j)))) /\ b + length vs < c.

(** (take 0 s) answers nil without looking at s *)
Lemma take_step_zero : forall restore f vs b j c s,
  take_at 0 vs b j c s ->
  exists s', ev restore (S (S (S f))) (CSeq c) s = (s', Ok ONil) /\ chain_at vs b j s'.
Proof.
  intros restore f vs b j c s [Hc [Hg Hout]]. eexists. split.
  - eapply (seq_fresh restore (S f) s c _ _ _ ONil Hg eq_refl); reflexivity.
  - apply chain_at_finish; [|assumption]. apply chain_at_upd_cell; assumption.
Qed.

Lemma take_step_cons : forall restore f k vs b j c s v,
  take_at k vs b j c s -> (k <> 0)%N -> nth_error vs j = Some v ->
  exists s',
    ev restore (S (S (S (S (S (S (S (S f)))))))) (CSeq c) s = (s', Ok (OCons v (OLazy (hlen s))))
    /\ take_at (N.pred k) vs b (S j) (hlen s) s'.
Proof.
  intros restore f k vs b j c s v [Hc [Hg Hout]] Hk Ev.
  assert (Hj : j < length vs) by (apply nth_error_Some; congruence).
  apply N.eqb_neq in Hk.
  destruct (src_step restore f vs b j c s Hc ltac:(lia) Hout) as [s1 [Hev [Hc1 [Hh _]]]].
  rewrite (chain_ret_cons vs b j v Ev) in Hev.
  pose proof (chain_at_hlen _ _ _ _ Hc) as Hb. pose proof (get_lt _ _ _ Hg) as Hclt.
  eexists. split.
  - eapply (seq_fresh restore _ s c _ _ _ (OCons v (OLazy (hlen s))) Hg eq_refl); [|reflexivity].
    rewrite ev_CGen_take, Hk, Hev. cbn [rest_norm]. unfold alloc. fold (hlen s1). rewrite Hh. reflexivity.
  - split; [|split; [|assumption]].
    + apply chain_at_finish; [|assumption]. apply (chain_at_alloc vs b (S j) s1). exact Hc1.
    + rewrite get_finish_other by (unfold hlen; lia). rewrite <- Hh. apply (get_alloc_new s1).
Qed.

Lemma take_step_nil : forall restore f k vs b c s,
  take_at k vs b (length vs) c s -> (k <> 0)%N ->
  exists s',
    ev restore (S (S (S (S (S (S (S (S f)))))))) (CSeq c) s = (s', Ok ONil)
    /\ chain_at vs b (S (length vs)) s'.
Proof.
  intros restore f k vs b c s [Hc [Hg Hout]] Hk. apply N.eqb_neq in Hk.
  destruct (src_step restore f vs b (length vs) c s Hc (le_n _) Hout) as [s1 [Hev [Hc1 _]]].
  rewrite chain_ret_end in Hev.
  eexists. split.
  - eapply (seq_fresh restore _ s c _ _ _ ONil Hg eq_refl); [|reflexivity]. rewrite ev_CGen_take, Hk, Hev. reflexivity.
  - apply chain_at_finish; assumption.
Qed.

(** walking m elements of (take k chain) runs the producers of min m k source cells (plus the final
    nil cell when the walk reaches the end of the source before k runs out) *)
Lemma walk_take : forall restore f vs b m k j c s acc,
  take_at k vs b j c s -> j <= length vs ->
  exists s' cur,
    walk restore (S (S (S (S (S (S (S (S (S f))))))))) m (OLazy c) acc s =
      (s', Ok cur, rev (chain_vals vs j (Nat.min m (N.to_nat k))) ++ acc)
    /\ chain_at vs b (Nat.min (j + Nat.min m (N.to_nat k)) (S (length vs))) s'.
Proof.
  induction m; intros k j c s acc Ht Hj.
  - exists s, (OLazy c). simpl. unfold chain_vals. simpl. split; [reflexivity|].
    replace (Nat.min (j + 0) (S (length vs))) with j by lia. apply Ht.
  - destruct (N.eq_dec k 0) as [Hk|Hk].
    + subst k. destruct (take_step_zero restore (S (S (S (S (S f))))) vs b j c s Ht) as [s1 [Hev Hc1]].
      exists s1, ONil. rewrite (walk_nil restore _ m c acc s _ Hev). change (N.to_nat 0) with 0. rewrite Nat.min_0_r.
      unfold chain_vals. simpl. split; [reflexivity|].
      replace (Nat.min (j + 0) (S (length vs))) with j by lia. exact Hc1.
    + assert (Hkn : N.to_nat k = S (N.to_nat (N.pred k))) by lia. rewrite Hkn. simpl Nat.min.
      destruct (nth_error vs j) as [v|] eqn:Ev.
      * assert (Hlt : j < length vs) by (apply nth_error_Some; congruence).
        destruct (take_step_cons restore f k vs b j c s v Ht Hk Ev) as [s1 [Hev Ht1]].
        destruct (IHm (N.pred k) (S j) (hlen s) s1 (v :: acc) Ht1 ltac:(lia)) as [s' [cur [Hw Hc']]].
        exists s', cur. rewrite (walk_cons restore _ m c acc s _ _ _ Hev), Hw. split.
        -- rewrite (chain_vals_S vs j _ v acc Ev). reflexivity.
        -- replace (j + S (Nat.min m (N.to_nat (N.pred k)))) with (S j + Nat.min m (N.to_nat (N.pred k))) by lia.
           exact Hc'.
      * assert (j = length vs) by (apply nth_error_None in Ev; lia). subst j.
        destruct (take_step_nil restore f k vs b c s Ht Hk) as [s1 [Hev Hc1]].
        exists s1, ONil. rewrite (walk_nil restore _ m c acc s _ Hev). split.
        -- rewrite chain_vals_end. reflexivity.
        -- replace (Nat.min (length vs + S (Nat.min m (N.to_nat (N.pred k)))) (S (length vs))) with (S (length vs)) by lia.
           exact Hc1.
Qed.
