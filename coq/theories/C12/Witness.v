(** C12 witnesses: concrete executions of the model (closed computations). *)
From Coq Require Import List Bool Arith ZArith NArith Lia.
Import ListNotations.
From Verif Require Import Common.ListX Gen.Tables.
From Verif Require Import C12.Spec C12.Model C12.Corr.
From Verif Require Import C12.Proofs C12.ProofsHist C12.ProofsLin C12.ProofsTerm C12.ProofsConc.

Notation mreach vld nw := (@reach val fn cas_ok apply (valid vld) nw).

Lemma run_case_reach (c : case) s :
  run_case c = Some s -> mreach (c_vld c) (c_nwatch c) (init_state c) s.
Proof. intro E. eapply run_schedule_reach; [apply reach_refl|exact E]. Qed.

(** the guard is satisfiable on a non-trivial execution: two racing swap! inc, one retry *)
Definition inc_inc_case : case :=
  mkCase (VInt 0) None 0 [[OSwap Py FInc false]; [OSwap Core FInc true]]
    [(0, LRead, false); (0, LCompute, false); (1, LDL, false); (1, LDRead, false); (1, LDL, false);
     (1, LCompute, false); (1, LVal, false); (1, LCL, false); (1, LCmp, false); (1, LSet, false);
     (1, LCL, false); (0, LVal, false); (0, LCL, false); (0, LCmp, false); (0, LCL, false);
     (0, LRead, false); (0, LCompute, false); (0, LVal, false); (0, LCL, false); (0, LCmp, false);
     (0, LSet, false); (0, LCL, false)].

Lemma guard_inhabited :
  exists s, mreach (c_vld inc_inc_case) (c_nwatch inc_inc_case) (init_state inc_inc_case) s
            /\ cell s = VInt 2 /\ length (hist s) = 2
            /\ (exists d, t_done (thr s 0) = [d] /\ snd d = 1)      (* thread 0 retried once *)
            /\ plain (c_init inc_inc_case) = true
            /\ forallb (forallb (opP plain fn_plain)) (c_threads inc_inc_case) = true.
Proof.
  destruct (run_case inc_inc_case) as [s|] eqn:E; [|vm_compute in E; discriminate E].
  exists s. split; [apply run_case_reach; exact E|].
  vm_compute in E. injection E as <-.
  repeat split; try reflexivity. eexists; split; reflexivity.
Qed.

(** Without the guard the clause is false for the code as it is: 1 and 1.0.  Thread 0 runs
    (swap! a str), thread 1 (reset! a 1.0) on an atom holding 1; thread 0 reads 1, thread 1
    installs 1.0, thread 0's compare-and-set succeeds because 1.0 == 1 and installs "1":
    neither order of the two calls gives "1" as the final value. *)
Definition aba_case : case :=
  mkCase (VInt 1) None 0 [[OSwap Py FStr false]; [OReset Py (VFlt 1) false]]
    [(0, LRead, false); (0, LCompute, false); (0, LVal, false);
     (1, LRead, false); (1, LVal, false); (1, LCL, false); (1, LCmp, false); (1, LSet, false); (1, LCL, false);
     (0, LCL, false); (0, LCmp, false); (0, LSet, false); (0, LCL, false)].

Lemma eq_aba_refuted :
  exists c s, run_case c = Some s
    /\ mreach (c_vld c) (c_nwatch c) (init_state c) s
    /\ (forall t, t < length (c_threads c) -> t_ops (thr s t) = [])   (* every call has returned *)
    /\ cell s = VStr [49%N]                                           (* final value "1" *)
    /\ (exists e, In e (hist s) /\ e_read e <> e_before e /\ installs (e_op e) (e_res e) = true)
    /\ spec_ok c (model c) = false.                       (* no sequential order explains it *)
Proof.
  exists aba_case. destruct (run_case aba_case) as [s|] eqn:E; [|vm_compute in E; discriminate E].
  exists s. split; [reflexivity|]. split; [apply run_case_reach; exact E|].
  vm_compute in E. injection E as <-.
  split; [intros [|[|t]] Ht; try reflexivity; simpl in Ht; lia|].
  split; [reflexivity|]. split; [|vm_compute; reflexivity].
  eexists; split; [left; reflexivity|]. split; [discriminate|reflexivity].
Qed.
