(** An owner lock: [inl p] says program point [p] is inside.  "Inside iff owner" survives
    a step that stays on its side, takes the free lock, or gives its own up. *)
From Coq Require Import Bool Arith.

Lemma lock_step {T} (inl : T -> bool) (pcs pcs' : nat -> T) (lk lk' : option nat) t :
  (forall u, inl (pcs u) = true <-> lk = Some u) ->
  (forall u, u <> t -> pcs' u = pcs u) ->
  (inl (pcs' t) = inl (pcs t) /\ lk' = lk)
  \/ (lk = None /\ inl (pcs' t) = true /\ lk' = Some t)
  \/ (inl (pcs t) = true /\ inl (pcs' t) = false /\ lk' = None) ->
  forall u, inl (pcs' u) = true <-> lk' = Some u.
Proof.
  intros I Fr C u. destruct (Nat.eq_dec u t) as [->|Hu].
  - destruct C as [[E ->]|[(L & E & ->)|(E0 & E & ->)]]; rewrite E; [apply I|tauto|split; discriminate].
  - rewrite (Fr u Hu). destruct C as [[_ ->]|[(-> & _ & ->)|(E0 & _ & ->)]]; [apply I| |].
    + rewrite I. split; [discriminate|congruence].
    + apply I in E0. rewrite I, E0. split; [congruence|discriminate].
Qed.
