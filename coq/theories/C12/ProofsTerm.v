(** C12 proofs: termination of an operation that runs alone.  If the
    compare-and-set test is reflexive ([cas_ok v v = true]: identity-first test) every
    operation started with the lock free finishes within [9 + nwatch] of its own steps,
    without a single retry, and does exactly what the sequential specification says.  If
    the test is plain [==] and the cell holds a value not equal to itself, [reset] started
    alone never finishes (the defect repaired in atom.py). *)
From Coq Require Import List Bool Arith Lia.
Import ListNotations.
From Verif Require Import C12.Spec C12.Model C12.Proofs.

Section Term.
  Context {V F : Type}.
  Variable cas_ok : V -> V -> bool.
  Variable apply : F -> V -> option V.
  Variable valid : V -> bool.
  Variable nwatch : nat.

  Notation op := (op V F).
  Notation res := (res V).
  Notation thread := (thread V F).
  Notation state := (state V F).
  Notation step := (@step V F cas_ok apply valid nwatch).
  Notation solo := (@solo V F cas_ok apply valid nwatch).
  Notation seq_step := (@seq_step V F cas_ok apply valid).

  (** thread [t] alone finishes its current operation [o] within [k] steps, with result [r],
      leaving [c'] in the cell, the lock free, and the retry counter untouched *)
  Definition Fin (s : state) (t : nat) (rest : list op) (o : op) (r : res) (c' : V) (k : nat) : Prop :=
    exists n s', n <= k /\ solo t n s = Some s'
      /\ t_ops (thr s' t) = rest /\ t_pc (thr s' t) = PIdle
      /\ t_done (thr s' t) = (o, r, t_iters (thr s t)) :: t_done (thr s t)
      /\ cell s' = c' /\ lock s' = None.

  Notation tstep := (@tstep V F cas_ok apply valid nwatch).

  (** one row of [tstep] taken by [t], then [Fin] from wherever it leads *)
  Lemma Fin_step s t o0 r0 p c1 lk1 th1 e w rest o r c' k :
    t_ops (thr s t) = o0 :: r0 -> t_pc (thr s t) = p ->
    tstep t o0 (cell s) (lock s) (thr s t) p c1 lk1 th1 e w ->
    t_iters th1 = t_iters (thr s t) -> t_done th1 = t_done (thr s t) ->
    (forall s1, thr s1 t = th1 -> cell s1 = c1 -> lock s1 = lk1 -> Fin s1 t rest o r c' k) ->
    Fin s t rest o r c' (S k).
  Proof.
    intros E Hp Sv Hi Hd K.
    destruct (K (after s t c1 lk1 th1 e w) (upd_same _ _ _) eq_refl eq_refl)
      as (n & s' & Hn & Hs & H1 & H2 & H3 & H4 & H5).
    exists (S n), s'. simpl. rewrite (tstep_step _ _ _ _ _ _ _ _ _ _ _ _ _ _ E Hp Sv).
    simpl in H3. rewrite upd_same, Hi, Hd in H3. repeat split; auto. lia.
  Qed.

  Lemma Fin_last s t o0 r0 p c1 lk1 th1 e w rest o r :
    t_ops (thr s t) = o0 :: r0 -> t_pc (thr s t) = p ->
    tstep t o0 (cell s) (lock s) (thr s t) p c1 lk1 th1 e w -> lk1 = None ->
    t_ops th1 = rest -> t_pc th1 = PIdle ->
    t_done th1 = (o, r, t_iters (thr s t)) :: t_done (thr s t) ->
    Fin s t rest o r c1 1.
  Proof.
    intros E Hp Sv -> H1 H2 H3. exists 1, (after s t c1 None th1 e w).
    simpl. rewrite (tstep_step _ _ _ _ _ _ _ _ _ _ _ _ _ _ E Hp Sv), upd_same. repeat split; auto.
  Qed.

  (* [row R]: the thread takes row [R] of [tstep]; operation and program point by assumption *)
  Ltac row R := eapply Fin_step; [eassumption|eassumption|R|reflexivity|reflexivity|].

  Lemma Fin_le s t rest o r c' k k' : k <= k' -> Fin s t rest o r c' k -> Fin s t rest o r c' k'.
  Proof. intros L (n & s' & H & R). exists n, s'. split; [lia|exact R]. Qed.

  Hypothesis cas_refl : forall v, cas_ok v v = true.

  Section Solo.
    Variables (t : nat) (o : op) (rest : list op).

    Lemma L_notify : forall k s,
      t_ops (thr s t) = o :: rest -> t_pc (thr s t) = PNotify (S k) -> lock s = None ->
      Fin s t rest o (inst_res o (t_old (thr s t)) (t_new (thr s t))) (cell s) (S k).
    Proof.
      induction k as [|k IH]; intros s Hops Hpc Hl.
      - eapply Fin_last; [exact Hops|exact Hpc|apply ts_notify_last|exact Hl
                          |simpl; rewrite Hops; reflexivity|reflexivity..].
      - row ltac:(apply ts_notify).
        intros s1 E1 Ec El. rewrite Hl in El.
        pose proof (IH s1) as X. rewrite E1, Ec in X. exact (X Hops eq_refl El).
    Qed.

    Lemma L_relT s :
      t_ops (thr s t) = o :: rest -> t_pc (thr s t) = PRel true ->
      Fin s t rest o (inst_res o (t_old (thr s t)) (t_new (thr s t))) (cell s) (1 + nwatch).
    Proof.
      intros Hops Hpc. destruct nwatch as [|k] eqn:En.
      - eapply Fin_last; [exact Hops|exact Hpc|apply ts_rel_done; assumption|reflexivity
                          |simpl; rewrite Hops; reflexivity|reflexivity..].
      - row ltac:(eapply ts_rel_watch; eassumption).
        intros s1 E1 Ec El. pose proof (L_notify k s1) as X. rewrite E1, Ec in X. exact (X Hops eq_refl El).
    Qed.

    Lemma L_set s :
      t_ops (thr s t) = o :: rest -> t_pc (thr s t) = PSet ->
      Fin s t rest o (inst_res o (t_old (thr s t)) (t_new (thr s t))) (t_new (thr s t)) (2 + nwatch).
    Proof.
      intros Hops Hpc. row ltac:(apply ts_set).
      intros s1 E1 Ec _. pose proof (L_relT s1) as X. rewrite E1, Ec in X. exact (X Hops eq_refl).
    Qed.

    Lemma L_cmp s :
      t_ops (thr s t) = o :: rest -> t_pc (thr s t) = PCmp ->
      cas_ok (cell s) (t_old (thr s t)) = true ->
      Fin s t rest o (inst_res o (t_old (thr s t)) (t_new (thr s t))) (t_new (thr s t)) (3 + nwatch).
    Proof.
      intros Hops Hpc Hc. row ltac:(apply ts_cmp_ok; assumption).
      intros s1 E1 _ _. pose proof (L_set s1) as X. rewrite E1 in X. exact (X Hops eq_refl).
    Qed.

    Lemma L_acq s :
      t_ops (thr s t) = o :: rest -> t_pc (thr s t) = PAcq -> lock s = None ->
      cas_ok (cell s) (t_old (thr s t)) = true ->
      Fin s t rest o (inst_res o (t_old (thr s t)) (t_new (thr s t))) (t_new (thr s t)) (4 + nwatch).
    Proof.
      intros Hops Hpc Hl Hc. row ltac:(apply ts_acq; assumption).
      intros s1 E1 Ec _. pose proof (L_cmp s1) as X. rewrite E1, Ec in X. exact (X Hops eq_refl Hc).
    Qed.


    Lemma seq_step_regs (th : thread) c : not_cas o -> regs_ok apply o th -> t_old th = c ->
      seq_step o c = if valid (t_new th) then (t_new th, inst_res o c (t_new th)) else (c, RInvalid).
    Proof.
      destruct o as [a f b|a v b| |]; simpl; try tauto; intros _ R <-; [rewrite R|subst v]; reflexivity.
    Qed.

    Lemma L_val s :
      t_ops (thr s t) = o :: rest -> t_pc (thr s t) = PValidate -> not_cas o ->
      regs_ok apply o (thr s t) -> lock s = None -> t_old (thr s t) = cell s ->
      Fin s t rest o (snd (seq_step o (cell s))) (fst (seq_step o (cell s))) (5 + nwatch).
    Proof.
      intros Hops Hpc Hn Hr Hl Ho. rewrite (seq_step_regs _ _ Hn Hr Ho), <- Ho.
      destruct (valid (t_new (thr s t))) eqn:Hv; simpl.
      - row ltac:(apply ts_validate; assumption).
        intros s1 E1 Ec El. pose proof (L_acq s1) as X. rewrite E1, Ec, El in X.
        apply X; auto. simpl. rewrite Ho. apply cas_refl.
      - apply Fin_le with (k := 1); [lia|]. rewrite Ho.
        eapply Fin_last; [exact Hops|exact Hpc|apply ts_invalid; assumption|exact Hl
                          |simpl; rewrite Hops; reflexivity|reflexivity..].
    Qed.

    (** the locked read of the core.lpy loops and of deref: acquire, read *)
    Lemma L_read s r c' k :
      t_ops (thr s t) = o :: rest -> t_pc (thr s t) = PIdle -> entry o = PRdAcq -> lock s = None ->
      (forall s2, thr s2 t = with_pc (with_old (thr s t) (cell s)) PRdRel -> cell s2 = cell s ->
                  Fin s2 t rest o r c' k) ->
      Fin s t rest o r c' (2 + k).
    Proof.
      intros Hops Hpc He Hl K.
      row ltac:(apply ts_rdacq; assumption).
      intros s1 E1 Ec _.
      eapply Fin_step; [rewrite E1; exact Hops|rewrite E1; reflexivity|apply ts_rdread|rewrite E1; reflexivity..|].
      intros s2 E2 Ec2 _. rewrite E1, Ec in E2. apply K; [exact E2|congruence].
    Qed.
  End Solo.

  Lemma L_compute t a f vals rest s :
    t_ops (thr s t) = OSwap a f vals :: rest -> t_pc (thr s t) = PCompute -> lock s = None ->
    t_old (thr s t) = cell s ->
    Fin s t rest (OSwap a f vals) (snd (seq_step (OSwap a f vals) (cell s)))
        (fst (seq_step (OSwap a f vals) (cell s))) (6 + nwatch).
  Proof.
    intros Hops Hpc Hl Ho. destruct (apply f (cell s)) as [n|] eqn:Ea.
    - row ltac:(eapply ts_compute; [reflexivity|rewrite Ho; exact Ea]).
      intros s1 E1 Ec El. pose proof (L_val t (OSwap a f vals) rest s1) as X. rewrite E1, Ec, El in X.
      apply X; simpl; auto. rewrite Ho. exact Ea.
    - simpl. rewrite Ea. simpl. apply Fin_le with (k := 1); [lia|].
      eapply Fin_last; [exact Hops|exact Hpc|eapply ts_compute_exc; [reflexivity|rewrite Ho; exact Ea]|exact Hl
                        |simpl; rewrite Hops; reflexivity|reflexivity..].
  Qed.

  Theorem terminates_solo s t o rest :
    t_ops (thr s t) = o :: rest -> t_pc (thr s t) = PIdle -> lock s = None ->
    Fin s t rest o (snd (seq_step o (cell s))) (fst (seq_step o (cell s))) (9 + nwatch).
  Proof.
    intros Hops Hpc Hl.
    destruct o as [[] f vals|[] v vals|o' n'|].
    - apply Fin_le with (k := S (6 + nwatch)); [lia|].
      row ltac:(eapply ts_read_swap; reflexivity).
      intros s1 E1 Ec El. pose proof (L_compute t Py f vals rest s1) as X. rewrite E1, Ec, El in X.
      apply X; auto.
    - apply (L_read t _ rest s _ _ (7 + nwatch) Hops Hpc eq_refl Hl). intros s2 E2 Ec.
      eapply Fin_step; [rewrite E2; exact Hops|rewrite E2; reflexivity|eapply ts_rdrel_swap; reflexivity|rewrite E2; reflexivity..|].
      intros s3 E3 Ec3 El3. rewrite E2 in E3. pose proof (L_compute t Core f vals rest s3) as X. rewrite E3, Ec3, El3, Ec in X.
      apply X; auto.
    - apply Fin_le with (k := S (5 + nwatch)); [lia|].
      row ltac:(eapply ts_read_reset; reflexivity).
      intros s1 E1 Ec El. pose proof (L_val t (OReset Py v vals) rest s1) as X. rewrite E1, Ec, El in X.
      apply X; simpl; auto.
    - apply Fin_le with (k := 2 + S (5 + nwatch)); [lia|].
      apply (L_read t _ rest s _ _ _ Hops Hpc eq_refl Hl). intros s2 E2 Ec.
      eapply Fin_step; [rewrite E2; exact Hops|rewrite E2; reflexivity|eapply ts_rdrel_reset; reflexivity|rewrite E2; reflexivity..|].
      intros s3 E3 Ec3 El3. rewrite E2 in E3. pose proof (L_val t (OReset Core v vals) rest s3) as X. rewrite E3, Ec3, El3, Ec in X.
      apply X; simpl; auto.
    - simpl. destruct (valid n') eqn:Ev.
      + apply Fin_le with (k := 2 + (3 + nwatch)); [lia|].
        row ltac:(eapply ts_cas_validate; [reflexivity|exact Ev]).
        intros s1 E1 Ec El. rewrite Hl in El.
        eapply Fin_step; [rewrite E1; exact Hops|rewrite E1; reflexivity|apply ts_acq; exact El
                          |rewrite E1; reflexivity..|].
        intros s2 E2 Ec2 _. rewrite E1 in E2. simpl in E2. rewrite Ec in Ec2.
        destruct (cas_ok (cell s) o') eqn:Ecas; simpl.
        * pose proof (L_cmp t (OCas o' n') rest s2) as X. rewrite E2, Ec2 in X. apply X; auto.
        * apply Fin_le with (k := 2); [lia|].
          eapply Fin_step; [rewrite E2; exact Hops|rewrite E2; reflexivity|apply ts_cmp_fail; rewrite E2, ?Ec2; simpl; auto
                            |rewrite E2; reflexivity..|].
          intros s3 E3 Ec3 _. rewrite <- Ec2, <- Ec3.
          eapply Fin_last; [rewrite E3, E2; exact Hops|rewrite E3, E2; reflexivity|eapply ts_rel_cas; reflexivity|reflexivity
                            |rewrite E3, E2; simpl; rewrite Hops; reflexivity|rewrite E3, E2; reflexivity..].
      + apply Fin_le with (k := 1); [lia|].
        eapply Fin_last; [exact Hops|exact Hpc|eapply ts_cas_invalid; [reflexivity|exact Ev]|exact Hl
                          |simpl; rewrite Hops; reflexivity|reflexivity..].
    - apply Fin_le with (k := 2 + 1); [lia|].
      apply (L_read t _ rest s _ _ _ Hops Hpc eq_refl Hl). intros s2 E2 Ec. rewrite <- Ec.
      eapply Fin_last; [rewrite E2; exact Hops|rewrite E2; reflexivity|eapply ts_rdrel_deref; reflexivity|reflexivity
                        |rewrite E2; simpl; rewrite Hops; reflexivity|rewrite E2; try rewrite Ec; reflexivity..].
  Qed.
End Term.

(** The retry loop with a test that is not reflexive on the value in the cell. *)
Section Spin.
  Context {V F : Type}.
  Variable cas_ok : V -> V -> bool.
  Variable apply : F -> V -> option V.
  Variable valid : V -> bool.
  Variable nwatch : nat.
  Notation step := (@step V F cas_ok apply valid nwatch).
  Notation solo := (@solo V F cas_ok apply valid nwatch).

  Variables (t : nat) (v w : V) (vals : bool) (rest : list (op V F)).
  Hypothesis not_refl : cas_ok v v = false.
  Hypothesis w_valid : valid w = true.

  Definition Spin (s : state V F) : Prop :=
    cell s = v /\ t_ops (thr s t) = OReset Py w vals :: rest
    /\ (   (t_pc (thr s t) = PIdle /\ lock s = None)
         \/ (t_pc (thr s t) = PValidate /\ lock s = None /\ t_new (thr s t) = w /\ t_old (thr s t) = v)
         \/ (t_pc (thr s t) = PAcq /\ lock s = None /\ t_old (thr s t) = v)
         \/ (t_pc (thr s t) = PCmp /\ t_old (thr s t) = v)
         \/ (t_pc (thr s t) = PRel false)).

  Lemma Spin_step s : Spin s -> exists s', step t s = Some s' /\ Spin s'.
  Proof.
    intros (Hc & Hops & [[Hpc Hl]|[[Hpc [Hl [Hn Ho]]]|[[Hpc [Hl Ho]]|[[Hpc Ho]|Hpc]]]]);
      unfold Model.step; rewrite Hops; unfold cur_pc; rewrite Hpc; try rewrite Hops; simpl;
      rewrite ?Hn, ?w_valid, ?Hl, ?Hc, ?Ho, ?not_refl;
      (eexists; split; [reflexivity|]); unfold Spin; simpl; rewrite upd_same; simpl; intuition auto.
  Qed.


  Theorem reset_never_finishes s :
    cell s = v -> t_ops (thr s t) = OReset Py w vals :: rest -> t_pc (thr s t) = PIdle -> lock s = None ->
    forall n, exists s', solo t n s = Some s' /\ t_ops (thr s' t) = OReset Py w vals :: rest.
  Proof.
    intros Hc Hops Hpc Hl n.
    assert (Sp : Spin s) by (repeat split; auto).
    clear Hc Hops Hpc Hl. revert s Sp. induction n as [|n IH]; intros s Sp.
    - exists s. split; [reflexivity|]. apply Sp.
    - destruct (Spin_step s Sp) as (s1 & H1 & Sp1). destruct (IH s1 Sp1) as (s' & H2 & H3).
      exists s'. simpl. rewrite H1. auto.
  Qed.
End Spin.
