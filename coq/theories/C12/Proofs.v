(** C12 proofs: mutual exclusion and the per-thread facts (invariant [Inv]) under any
    interleaving; [tstep], the rows of [step] as a relation, and [emits], the event a
    step appends, through which the other proofs read [step]. *)
From Coq Require Import List Bool Arith Lia.
Import ListNotations.
From Verif Require Import C12.Lock C12.Spec C12.Model.

  (* every way [step t s = Some s'] (hypothesis H) can come about *)
  Ltac step_destruct H :=
    unfold Model.step, after_read in H;
    repeat match type of H with
           | context [match ?x with _ => _ end] =>
               let E := fresh "E" in destruct x eqn:E; try discriminate
           end;
    inversion H; subst; clear H.

  (* [cur_pc th = p] back to the stored [t_pc th]: [p] itself, or [PIdle] with [entry o = p] *)
  Ltac pc_norm :=
    match goal with
    | E : t_ops ?th = ?o :: _, E0 : cur_pc ?th = _ |- _ =>
        let Hpc := fresh "Hpc" in
        unfold cur_pc in E0; rewrite E in E0;
        destruct (t_pc th) eqn:Hpc; try discriminate E0;
        [ unfold entry in E0;
          repeat match type of E0 with
                 | context [match ?x with _ => _ end] => is_var x; destruct x
                 end; try discriminate E0
        | inversion E0; subst; clear E0 .. ]
    end;
    simpl in *;
    repeat match goal with
           | X : Some _ = Some _ |- _ => inversion X; subst; clear X
           | X : None = Some _ |- _ => discriminate X
           end.

Section Proofs.
  Context {V F : Type}.
  Variable cas_ok : V -> V -> bool.
  Variable apply : F -> V -> option V.
  Variable valid : V -> bool.
  Variable nwatch : nat.

  Notation op := (op V F).
  Notation res := (res V).
  Notation thread := (thread V F).
  Notation state := (state V F).
  Notation step := (@step V F cas_ok apply valid nwatch).
  Notation reach := (@reach V F cas_ok apply valid nwatch).

  Definition in_cs (p : pc) : bool :=
    match p with PRdRead | PRdRel | PCmp | PSet | PRel _ => true | _ => false end.

  Definition regs_ok (o : op) (th : thread) : Prop :=
    match o with
    | OSwap _ f _ => apply f (t_old th) = Some (t_new th)
    | OReset _ v _ => t_new th = v
    | OCas o' n' => t_old th = o' /\ t_new th = n'
    | ODeref => False
    end.

  Definition pc_ok (o : op) (p : pc) : Prop :=
    match p with
    | PIdle => True
    | PRdAcq | PRead => False
    | PRdRead | PRdRel => match o with OSwap Core _ _ | OReset Core _ _ | ODeref => True | _ => False end
    | PCompute => match o with OSwap _ _ _ => True | _ => False end
    | PValidate => match o with OSwap _ _ _ | OReset _ _ _ => True | _ => False end
    | PAcq | PCmp | PSet | PRel _ => match o with ODeref => False | _ => True end
    | PNotify k => match o with ODeref => False | _ => 1 <= k <= nwatch end
    end.

  Definition local_facts (c : V) (o : op) (th : thread) : Prop :=
    pc_ok o (t_pc th)
    /\ match t_pc th with
       | PValidate | PAcq | PCmp | PSet | PRel _ | PNotify _ => regs_ok o th
       | _ => True end
    /\ match t_pc th with PAcq | PCmp | PSet => valid (t_new th) = true | _ => True end
    /\ match t_pc th with PSet => cas_ok c (t_old th) = true | _ => True end.

  Definition local_ok (c : V) (th : thread) : Prop :=
    match t_ops th with [] => t_pc th = PIdle | o :: _ => local_facts c o th end.

  Definition Inv (s : state) : Prop :=
    (forall t, in_cs (t_pc (thr s t)) = true <-> lock s = Some t)
    /\ (forall t, local_ok (cell s) (thr s t)).

  Lemma upd_same (f : nat -> thread) t th : upd f t th t = th.
  Proof. unfold upd. rewrite Nat.eqb_refl. reflexivity. Qed.
  Lemma upd_other (f : nat -> thread) t th u : u <> t -> upd f t th u = f u.
  Proof. unfold upd. intro H. apply Nat.eqb_neq in H. rewrite H. reflexivity. Qed.

  Lemma Inv_init v0 progs : Inv (init v0 progs).
  Proof.
    split; intro t; simpl.
    - split; intro H; discriminate.
    - unfold local_ok, local_facts, init_thread; simpl. destruct (progs t); simpl; auto.
  Qed.

  Lemma step_other s t s' :
    step t s = Some s' -> forall u, u <> t -> thr s' u = thr s u.
  Proof.
    intros H u Hu. step_destruct H; simpl; apply upd_other; assumption.
  Qed.

  Lemma local_ok_cell c c' (th : thread) : t_pc th <> PSet -> local_ok c th -> local_ok c' th.
  Proof.
    unfold local_ok, local_facts. intros H. destruct (t_ops th); auto.
    destruct (t_pc th); try congruence; auto.
  Qed.

  Lemma local_ok_idle c (th : thread) : t_pc th = PIdle -> local_ok c th.
  Proof. unfold local_ok, local_facts. intros ->. destruct (t_ops th); simpl; auto. Qed.

  Lemma local_at s t o r : Inv s -> t_ops (thr s t) = o :: r -> local_facts (cell s) o (thr s t).
  Proof. intros [_ IT] E. specialize (IT t). unfold local_ok in IT. rewrite E in IT. exact IT. Qed.

  Definition not_cas (o : op) : Prop := match o with OCas _ _ => False | _ => True end.

  Definition push {A} (e : option A) (l : list A) : list A :=
    match e with Some x => x :: l | None => l end.

  (** One constructor per row of the table in Model.v: cell, lock, thread record, stored
      program point; then new cell, lock, record, event appended, watch call logged. *)
  Inductive tstep (t : nat) (o : op) (c : V) (lk : option nat) (th : thread) :
    pc -> V -> option nat -> thread -> option (event V F) -> option (nat * V * V) -> Prop :=
  | ts_rdacq : entry o = PRdAcq -> lk = None ->
      tstep t o c lk th PIdle c (Some t) (with_pc th PRdRead) None None
  | ts_rdread :
      tstep t o c lk th PRdRead c lk (with_pc (with_old th c) PRdRel)
            (option_map (mkE t o c c c) (prophecy apply valid o c)) None
  | ts_rdrel_deref : o = ODeref ->
      tstep t o c lk th PRdRel c None (finish th o (RVals [t_old th])) None None
  | ts_rdrel_swap a f b : o = OSwap a f b ->
      tstep t o c lk th PRdRel c None (with_pc th PCompute) None None
  | ts_rdrel_reset a v b : o = OReset a v b ->
      tstep t o c lk th PRdRel c None (with_pc (with_new th v) PValidate) None None
  | ts_read_swap f b : o = OSwap Py f b ->
      tstep t o c lk th PIdle c lk (with_pc (with_old th c) PCompute)
            (option_map (mkE t o c c c) (prophecy apply valid o c)) None
  | ts_read_reset v b : o = OReset Py v b ->
      tstep t o c lk th PIdle c lk (with_pc (with_new (with_old th c) v) PValidate)
            (option_map (mkE t o c c c) (prophecy apply valid o c)) None
  | ts_compute_exc a f b : o = OSwap a f b -> apply f (t_old th) = None ->
      tstep t o c lk th PCompute c lk (finish th o RExc) None None
  | ts_compute a f b n : o = OSwap a f b -> apply f (t_old th) = Some n ->
      tstep t o c lk th PCompute c lk (with_pc (with_new th n) PValidate) None None
  | ts_validate : not_cas o -> valid (t_new th) = true ->
      tstep t o c lk th PValidate c lk (with_pc th PAcq) None None
  | ts_invalid : not_cas o -> valid (t_new th) = false ->
      tstep t o c lk th PValidate c lk (finish th o RInvalid) None None
  | ts_cas_validate a b : o = OCas a b -> valid b = true ->
      tstep t o c lk th PIdle c lk (with_pc (with_new (with_old th a) b) PAcq) None None
  | ts_cas_invalid a b : o = OCas a b -> valid b = false ->
      tstep t o c lk th PIdle c lk (finish (with_new (with_old th a) b) o RInvalid)
            (Some (mkE t o c c c RInvalid)) None
  | ts_acq : lk = None -> tstep t o c lk th PAcq c (Some t) (with_pc th PCmp) None None
  | ts_cmp_ok : cas_ok c (t_old th) = true -> tstep t o c lk th PCmp c lk (with_pc th PSet) None None
  | ts_cmp_fail : cas_ok c (t_old th) = false ->
      tstep t o c lk th PCmp c lk (with_pc th (PRel false))
            (match o with OCas _ _ => Some (mkE t o (t_old th) c c (RBool false)) | _ => None end) None
  | ts_set :
      tstep t o c lk th PSet (t_new th) lk (with_pc th (PRel true))
            (Some (mkE t o (t_old th) c (t_new th) (inst_res o (t_old th) (t_new th)))) None
  | ts_rel_done : nwatch = 0 ->
      tstep t o c lk th (PRel true) c None (finish th o (inst_res o (t_old th) (t_new th))) None None
  | ts_rel_watch k : nwatch = S k ->
      tstep t o c lk th (PRel true) c None (with_pc th (PNotify (S k))) None None
  | ts_rel_cas a b : o = OCas a b ->
      tstep t o c lk th (PRel false) c None (finish th o (RBool false)) None None
  | ts_rel_retry : not_cas o -> tstep t o c lk th (PRel false) c None (retry th) None None
  | ts_notify_last :
      tstep t o c lk th (PNotify 1) c lk (finish th o (inst_res o (t_old th) (t_new th)))
            None (Some (nwatch - 1, t_old th, t_new th))
  | ts_notify k :
      tstep t o c lk th (PNotify (S (S k))) c lk (with_pc th (PNotify (S k)))
            None (Some (nwatch - S (S k), t_old th, t_new th)).

  Definition after (s : state) (t : nat) c' lk' th' e w : state :=
    mkS c' lk' (upd (thr s) t th') (push e (hist s)) (push w (wlog s)).

  Lemma log_push t (o : op) (c : V) r h : log t o c r h = push (option_map (mkE t o c c c) r) h.
  Proof. destruct r; reflexivity. Qed.

  Definition stepped (t : nat) (s s' : state) : Prop :=
    exists o r p c' lk' th' e w,
      t_ops (thr s t) = o :: r /\ t_pc (thr s t) = p
      /\ tstep t o (cell s) (lock s) (thr s t) p c' lk' th' e w /\ s' = after s t c' lk' th' e w.

  (* the goal stays folded while [step] is taken apart: every case analysis there copies it *)
  Lemma step_view t s s' : Inv s -> step t s = Some s' -> stepped t s s'.
  Proof.
    intros I H. step_destruct H; pc_norm.
    all: try match goal with X : PRel _ = PRel _ |- _ => inversion X; subst; clear X end.
    all: match goal with E : t_ops _ = _ :: _ |- _ => pose proof (proj1 (local_at s t _ _ I E)) as Lp end;
      rewrite Hpc in Lp; simpl in Lp; try (exfalso; exact Lp).
    all: unfold stepped, after; rewrite ?log_push.
    all: solve [do 8 eexists; split; [eassumption|split; [exact Hpc|split;
                  [econstructor; first [reflexivity|eassumption|exact Logic.I]|reflexivity]]]].
  Qed.

  Lemma tstep_step t s o r p c' lk' th' e w :
    t_ops (thr s t) = o :: r -> t_pc (thr s t) = p ->
    tstep t o (cell s) (lock s) (thr s t) p c' lk' th' e w -> step t s = Some (after s t c' lk' th' e w).
  Proof.
    intros E Hp Sv. unfold Model.step, cur_pc, after. rewrite E, Hp.
    destruct Sv; repeat match goal with X : _ = _ |- _ => rewrite X end; simpl; rewrite ?log_push;
      try reflexivity.
    all: destruct o; simpl in *; try discriminate; try tauto;
      repeat match goal with X : _ = _ |- _ => rewrite X end; reflexivity.
  Qed.


  (** The event appended and the cell left: a prophecy logged at the read, a
      compare-and-set! that ends without installing, or the install. *)
  Inductive emits (t : nat) (o : op) (c : V) (th : thread) : option (event V F) -> V -> Prop :=
  | em_none : emits t o c th None c
  | em_log x : prophecy apply valid o c = Some x -> emits t o c th (Some (mkE t o c c c x)) c
  | em_cas_invalid a b : o = OCas a b -> valid b = false ->
      emits t o c th (Some (mkE t o c c c RInvalid)) c
  | em_cas_fail a b : o = OCas a b -> t_pc th = PCmp -> cas_ok c (t_old th) = false ->
      emits t o c th (Some (mkE t o (t_old th) c c (RBool false))) c
  | em_set : t_pc th = PSet ->
      emits t o c th (Some (mkE t o (t_old th) c (t_new th) (inst_res o (t_old th) (t_new th)))) (t_new th).

  Lemma tstep_emits t o c lk th p c' lk' th' e w :
    tstep t o c lk th p c' lk' th' e w -> t_pc th = p -> emits t o c th e c'.
  Proof.
    destruct 1; intro Hp; try (constructor; assumption);
      try (destruct (prophecy apply valid o c) eqn:X; constructor; exact X).
    - econstructor; eassumption.
    - destruct o; try constructor. econstructor; [reflexivity|assumption..].
  Qed.

  Lemma step_emits t s s' : Inv s -> step t s = Some s' ->
    exists o r e, t_ops (thr s t) = o :: r /\ emits t o (cell s) (thr s t) e (cell s')
                  /\ hist s' = push e (hist s).
  Proof.
    intros I H. destruct (step_view t s s' I H) as (o & r & p & c' & lk' & th' & e & w & E & Hp & Sv & ->).
    exists o, r, e. split; [exact E|split; [exact (tstep_emits _ _ _ _ _ _ _ _ _ _ _ Sv Hp)|reflexivity]].
  Qed.

  Lemma Inv_step s t s' : Inv s -> step t s = Some s' -> Inv s'.
  Proof.
    intros I H. pose proof I as [IL IT].
    destruct (step_view t s s' I H) as (o & r & p & c' & lk' & th' & e & w & E & Hp & Sv & ->).
    destruct (local_at s t o r I E) as (Lp & Lr & Lv & Lc). rewrite Hp in Lp, Lr, Lv, Lc.
    split; simpl.
    - apply (lock_step in_cs (fun u => t_pc (thr s u)) _ (lock s) _ t IL).
      { intros u Hu. rewrite upd_other by exact Hu. reflexivity. }
      rewrite upd_same, Hp. destruct Sv; simpl.
      all: first [ left; split; reflexivity | right; left; repeat split; (assumption || reflexivity)
                 | right; right; repeat split; reflexivity ].
    - intro u. destruct (Nat.eq_dec u t) as [->|Hu].
      + rewrite upd_same. destruct Sv; try (apply local_ok_idle; reflexivity).
        all: unfold local_ok, local_facts; simpl; rewrite E; simpl in *; try subst o; simpl; try tauto.
        all: destruct o as [[] ? ?|[] ? ?|? ?|]; simpl in *; try discriminate; try tauto; (split; [lia|tauto]).
      + (* the cell changes only at PSet, inside the lock: no other thread is there *)
        rewrite upd_other by exact Hu. destruct Sv; try exact (IT u).
        apply local_ok_cell with (c := cell s); [|exact (IT u)]. intro Hp'.
        assert (lock s = Some t) as L1 by (apply IL; rewrite Hp; reflexivity).
        assert (lock s = Some u) as L2 by (apply IL; rewrite Hp'; reflexivity). congruence.
  Qed.

  Theorem reach_Inv s0 s : Inv s0 -> reach s0 s -> Inv s.
  Proof. intros I R; induction R; eauto using Inv_step. Qed.

  Theorem mutual_exclusion v0 progs s t u : reach (init v0 progs) s ->
    in_cs (t_pc (thr s t)) = true -> in_cs (t_pc (thr s u)) = true -> t = u.
  Proof.
    intros R Ht Hu. destruct (reach_Inv _ s (Inv_init v0 progs) R) as [IL _].
    apply IL in Ht. apply IL in Hu. congruence.
  Qed.
End Proofs.
