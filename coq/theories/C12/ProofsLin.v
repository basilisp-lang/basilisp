(** C12 proofs: linearizability.  Under the guard "on the values in play, the
    compare-and-set test succeeds only on the identical object" every event of the ghost
    history is a step of the sequential specification, so the history, read in commit
    order, is a sequential execution that produces the final value and every result. *)
From Coq Require Import List Bool Arith Lia.
Import ListNotations.
From Verif Require Import C12.Spec C12.Model C12.Proofs C12.ProofsHist.

Section Lin.
  Context {V F : Type}.
  Variable cas_ok : V -> V -> bool.
  Variable apply : F -> V -> option V.
  Variable valid : V -> bool.
  Variable nwatch : nat.
  Variable v0 : V.
  Variable progs : nat -> list (op V F).

  Notation op := (op V F).
  Notation res := (res V).
  Notation thread := (thread V F).
  Notation event := (event V F).
  Notation state := (state V F).
  Notation step := (@step V F cas_ok apply valid nwatch).
  Notation reach := (@reach V F cas_ok apply valid nwatch).
  Notation Inv := (@Inv V F cas_ok apply valid nwatch).
  Notation seq_step := (@seq_step V F cas_ok apply valid).
  Notation seq_run := (@seq_run V F cas_ok apply valid).

  (** the guard: a decidable class [P] of values, closed under the update functions, on
      which the CAS test is identity *)
  Variable P : V -> bool.
  Variable fP : F -> bool.
  Hypothesis P_apply : forall f a b, fP f = true -> P a = true -> apply f a = Some b -> P b = true.
  Hypothesis P_id : forall a b, P a = true -> P b = true -> cas_ok a b = true -> a = b.

  Definition opP (o : op) : bool :=
    match o with
    | OSwap _ f _ => fP f
    | OReset _ v _ => P v
    | OCas a b => P a && P b
    | ODeref => true
    end.

  Definition PInv (s : state) : Prop :=
    P (cell s) = true
    /\ forall t, P (t_old (thr s t)) = true /\ P (t_new (thr s t)) = true
                 /\ forallb opP (t_ops (thr s t)) = true.

  Lemma PInv_init : P v0 = true -> (forall t, forallb opP (progs t) = true) -> PInv (init v0 progs).
  Proof. intros H1 H2. split; simpl; auto. Qed.

  Lemma PInv_step s t s' : Inv s -> PInv s -> step t s = Some s' -> PInv s'.
  Proof.
    intros I [P1 P2] H. destruct (P2 t) as (Po & Pn & Pops).
    destruct (step_view _ _ _ _ t s s' I H) as (o & r & p & c' & lk' & th' & e & w & E & Hp & Sv & ->).
    rewrite E in Pops. change (opP o && forallb opP r = true) in Pops. apply andb_true_iff in Pops as [Pop Pr].
    cut (P c' = true /\ P (t_old th') = true /\ P (t_new th') = true /\ forallb opP (t_ops th') = true).
    { intros (C & Rest). split; [exact C|]. intro u. simpl. destruct (Nat.eq_dec u t) as [->|Hu].
      - rewrite upd_same. exact Rest.
      - rewrite upd_other by exact Hu. exact (P2 u). }
    destruct Sv; try subst o; simpl in *; rewrite ?E; simpl; rewrite ?Pop, ?Pr; try (repeat split; auto; fail).
    - repeat split; eauto.
    - apply andb_true_iff in Pop as [Pa Pb]. repeat split; auto.
    - apply andb_true_iff in Pop as [Pa Pb]. repeat split; auto.
  Qed.

  (** all values recorded in the history are in [P] *)
  Definition HPInv (s : state) : Prop :=
    forall e, In e (hist s) -> P (e_read e) = true /\ P (e_before e) = true /\ P (e_after e) = true.

  Lemma HPInv_step s t s' : Inv s -> PInv s -> HPInv s -> step t s = Some s' -> HPInv s'.
  Proof.
    intros I [P1 P2] HP H. destruct (P2 t) as (Po & Pn & _).
    destruct (step_emits _ _ _ _ t s s' I H) as (o & r & e & E & Em & Hh).
    unfold HPInv. rewrite Hh.
    destruct Em; simpl; try exact HP; intros e' [<-|Hin]; auto.
  Qed.

  (** every event is a step of the sequential specification, and every install compared
      against the very object that was in the cell *)
  Definition SInv (s : state) : Prop :=
    forall e, In e (hist s) ->
      seq_step (e_op e) (e_before e) = (e_after e, e_res e)
      /\ (installs (e_op e) (e_res e) = true -> e_read e = e_before e).

  Lemma prophecy_seq o c x :
    prophecy apply valid o c = Some x -> seq_step o c = (c, x) /\ installs o x = false.
  Proof.
    destruct o as [a f b|a v b|a b|]; simpl;
      [destruct (apply f c) as [n|]; [destruct (valid n)|]|destruct (valid v)| |];
      intro H; inversion H; auto.
  Qed.

  Lemma inst_seq o (th : thread) c :
    regs_ok apply o th -> valid (t_new th) = true -> cas_ok c (t_old th) = true -> t_old th = c ->
    seq_step o c = (t_new th, inst_res o c (t_new th)) /\ installs o (inst_res o c (t_new th)) = true.
  Proof.
    destruct o as [a f b|a v b|a b|]; simpl; intros R Hv Hc <-; try tauto.
    - rewrite R, Hv. auto.
    - subst v. rewrite Hv. auto.
    - destruct R as [<- <-]. rewrite Hv, Hc. auto.
  Qed.

  Lemma SInv_step s t s' : Inv s -> PInv s -> SInv s -> step t s = Some s' -> SInv s'.
  Proof.
    intros I [P1 P2] S H. destruct (P2 t) as (Po & _).
    destruct (step_emits _ _ _ _ t s s' I H) as (o & r & e & E & Em & Hh).
    destruct (local_at _ _ _ _ s t o r I E) as (Lp & Lr & Lv & Lc).
    unfold SInv. rewrite Hh.
    destruct Em as [|x Hx|a b -> Hb|a b -> Hp Hf|Hp]; simpl; try exact S; intros e' [<-|Hin]; auto; simpl.
    - apply prophecy_seq in Hx as [-> Hx]. split; [reflexivity|congruence].
    - rewrite Hb. split; [reflexivity|discriminate].
    - rewrite Hp in *. destruct Lr as [<- <-]. rewrite Lv, Hf. split; [reflexivity|discriminate].
    - (* the guard: what the test let through is the object itself *)
      rewrite Hp in *. pose proof (P_id _ _ P1 Po Lc) as Hid.
      destruct (inst_seq o (thr s t) (cell s) Lr Lv Lc (eq_sym Hid)) as [A B].
      rewrite <- Hid. split; [exact A|reflexivity].
  Qed.

  Lemma seq_run_app c l1 l2 :
    seq_run c (l1 ++ l2) =
    let '(c1, r1) := seq_run c l1 in let '(c2, r2) := seq_run c1 l2 in (c2, r1 ++ r2).
  Proof.
    revert c; induction l1 as [|o l1 IH]; intro c; simpl.
    - destruct (seq_run c l2); reflexivity.
    - destruct (seq_step o c) as [c1 x]. rewrite IH.
      destruct (seq_run c1 l1) as [c2 r1]. destruct (seq_run c2 l2). reflexivity.
  Qed.

  Lemma chain_seq_run (h : list event) :
    chain v0 h ->
    (forall e, In e h -> seq_step (e_op e) (e_before e) = (e_after e, e_res e)) ->
    seq_run v0 (map (@e_op V F) (rev h)) = (last_after v0 h, map (@e_res V F) (rev h)).
  Proof.
    induction h as [|e h IH]; simpl; intros C S; [reflexivity|].
    destruct C as [C1 C2]. rewrite !map_app, seq_run_app.
    rewrite IH by auto. simpl. rewrite <- C1, (S e) by auto. reflexivity.
  Qed.

  Definition AllInv (s : state) : Prop :=
    Inv s /\ HInv v0 s /\ RInv apply valid progs s /\ PInv s /\ SInv s /\ HPInv s.

  Lemma AllInv_reach s :
    P v0 = true -> (forall t, forallb opP (progs t) = true) ->
    reach (init v0 progs) s -> AllInv s.
  Proof.
    intros H1 H2 R.
    destruct (reach_hist cas_ok apply valid nwatch v0 progs s R) as (I1 & I2 & I3 & _).
    cut (PInv s /\ SInv s /\ HPInv s); [unfold AllInv; tauto|]. clear I1 I2 I3.
    induction R as [|s t s' R IH St].
    - split; [apply PInv_init; auto|]. split; intros e [].
    - destruct IH as (I4 & I5 & I6).
      destruct (reach_hist cas_ok apply valid nwatch v0 progs s R) as (I1 & _).
      split; [eapply PInv_step; eauto|]. split; [eapply SInv_step; eauto|]. eapply HPInv_step; eauto.
  Qed.

  Theorem linearizable s :
    P v0 = true -> (forall t, forallb opP (progs t) = true) -> reach (init v0 progs) s ->
    let lin := rev (hist s) in
    seq_run v0 (map (@e_op V F) lin) = (cell s, map (@e_res V F) lin)
    /\ (forall t, evs t (hist s) = pend apply valid (thr s t) ++ dones (thr s t)
                  /\ progs t = rev (map fst (dones (thr s t))) ++ t_ops (thr s t))
    /\ (forall e, In e (hist s) -> installs (e_op e) (e_res e) = true -> e_read e = e_before e).
  Proof.
    intros Hv Hp R lin. destruct (AllInv_reach s Hv Hp R) as (I1 & [H1 H2] & I3 & I4 & I5 & _).
    split; [|split].
    - unfold lin. rewrite (chain_seq_run (hist s) H2).
      + rewrite <- H1. reflexivity.
      + intros e He. apply (I5 e He).
    - exact I3.
    - intros e He. apply (I5 e He).
  Qed.

  Theorem watch_pairs_are_transitions s k o n :
    P v0 = true -> (forall t, forallb opP (progs t) = true) -> reach (init v0 progs) s ->
    In (k, o, n) (wlog s) -> exists e, In e (hist s) /\ e_before e = o /\ e_after e = n.
  Proof.
    intros Hv Hp R Hin.
    destruct (watch_pairs_are_commits cas_ok apply valid nwatch v0 progs s k o n R Hin)
      as [_ (e & He & Hr & Ha & Hc)].
    exists e. split; [exact He|]. split; [|exact Ha].
    destruct (AllInv_reach s Hv Hp R) as (_ & _ & _ & [P1 _] & _ & HP).
    destruct (HP e He) as (Pr & Pb & _).
    apply P_id; [exact Pb|rewrite <- Hr; exact Pr|exact Hc].
  Qed.
End Lin.
