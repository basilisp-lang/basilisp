(** C12 proofs: facts about the concrete value universe of Corr.v (Python [==] on
    it, the regenerated compare-and-set test, the update functions). *)
From Coq Require Import List Bool Arith ZArith NArith Lia.
Import ListNotations.
From Verif Require Import Common.ListX Gen.Tables C12.Spec C12.Model C12.Corr.

Lemma val_eqb_eq a b : val_eqb a b = true <-> a = b.
Proof.
  destruct a, b; simpl; rewrite ?andb_true_iff, ?Z.eqb_eq, ?N.eqb_eq, ?str_eqb_eq, ?Bool.eqb_true_iff;
    split; intro H; try discriminate; try reflexivity; try (inversion H; auto); try (destruct H; congruence); congruence.
Qed.

Lemma val_eqb_refl a : val_eqb a a = true.
Proof. apply val_eqb_eq; reflexivity. Qed.

(** the guard of the linearizability theorem: values whose [==] coincides with identity
    (no float equal to an int, no object with a pathological __eq__) *)
Definition plain (v : val) : bool :=
  match v with
  | VNone | VInt _ | VStr _ | VNaN _ | VOpq _ => true
  | VFlt _ | VW _ _ | VUnk => false
  end.

Definition fn_plain (f : fn) : bool := match f with FConst c => plain c | _ => true end.

Lemma plain_apply f a b : fn_plain f = true -> plain a = true -> apply f a = Some b -> plain b = true.
Proof.
  destruct f; simpl; intros Hf Ha H.
  - destruct a; try discriminate; inversion H; reflexivity.
  - inversion H. destruct a; reflexivity.
  - inversion H; subst; exact Ha.
  - discriminate.
  - inversion H; subst; exact Hf.
Qed.

Lemma plain_id_any mode a b : plain a = true -> plain b = true -> cas_test mode a b = true -> a = b.
Proof.
  intros Ha Hb H.
  assert (E : val_eqb a b = true \/ py_eq a b = true).
  { unfold cas_test in H. destruct mode as [|[p|p|]]; auto; try (apply orb_true_iff in H; exact H). }
  destruct E as [E|E]; [apply val_eqb_eq; exact E|].
  destruct a, b; simpl in *; try discriminate; try reflexivity.
  - apply Z.eqb_eq in E; congruence.
  - apply str_eqb_eq in E; congruence.
  - apply N.eqb_eq in E; congruence.
Qed.

Lemma plain_id a b : plain a = true -> plain b = true -> cas_ok a b = true -> a = b.
Proof. apply plain_id_any. Qed.

(** the compare-and-set test of the current atom.py is reflexive *)
Lemma cas_mode_is_1 : atom_cas_mode = 1%N.
Proof. reflexivity. Qed.

Lemma cas_ok_refl v : cas_ok v v = true.
Proof. unfold cas_ok. rewrite cas_mode_is_1. simpl. rewrite val_eqb_refl. reflexivity. Qed.

(** ... and the one it replaced was not: NaN is not equal to itself *)
Lemma eq_only_not_refl k : cas_test 0 (VNaN k) (VNaN k) = false.
Proof. reflexivity. Qed.
