(** C12 proofs: the ghost history is a sequential execution (linearization), every
    operation returns the result recorded at its linearization point, watch notifications
    are committed installs, the validator is never violated.  All statements are
    invariants of [reach], i.e. hold under every interleaving of any number of threads. *)
From Coq Require Import List Bool Arith Lia.
Import ListNotations.
From Verif Require Import C12.Spec C12.Model C12.Proofs.

Section Hist.
  Context {V F : Type}.
  Variable cas_ok : V -> V -> bool.
  Variable apply : F -> V -> option V.
  Variable valid : V -> bool.
  Variable nwatch : nat.
  Variable v0 : V.
  Variable progs : nat -> list (op V F).

  Notation op := (op V F).
  Notation res := (res V).
  Notation thread := (thread V F).
  Notation event := (event V F).
  Notation state := (state V F).
  Notation step := (@step V F cas_ok apply valid nwatch).
  Notation reach := (@reach V F cas_ok apply valid nwatch).
  Notation Inv := (@Inv V F cas_ok apply valid nwatch).
  Notation prophecy := (@prophecy V F apply valid).
  Notation seq_step := (@seq_step V F cas_ok apply valid).
  Notation seq_run := (@seq_run V F cas_ok apply valid).

  Definition last_after (h : list event) : V :=
    match h with [] => v0 | e :: _ => e_after e end.
  Fixpoint chain (h : list event) : Prop :=
    match h with [] => True | e :: r => e_before e = last_after r /\ chain r end.
  Definition HInv (s : state) : Prop := cell s = last_after (hist s) /\ chain (hist s).

  Lemma HInv_step s t s' : Inv s -> HInv s -> step t s = Some s' -> HInv s'.
  Proof.
    intros I [H1 H2] H. destruct (step_emits _ _ _ _ t s s' I H) as (o & r & e & _ & Em & Hh).
    unfold HInv. rewrite Hh. destruct Em; split; simpl; auto.
  Qed.

  Definition evs (t : nat) (h : list event) : list (op * res) :=
    map (fun e => (e_op e, e_res e)) (filter (fun e => Nat.eqb (e_tid e) t) h).
  Definition dones (th : thread) : list (op * res) :=
    map (fun d : op * res * nat => (fst (fst d), snd (fst d))) (t_done th).

  (** the operation in flight has already taken effect with this result *)
  Definition pend (th : thread) : list (op * res) :=
    match t_ops th with
    | [] => []
    | o :: _ =>
        match t_pc th with
        | PRdRel | PCompute | PValidate =>
            match prophecy o (t_old th) with Some r => [(o, r)] | None => [] end
        | PRel true | PNotify _ => [(o, inst_res o (t_old th) (t_new th))]
        | PRel false => match o with OCas _ _ => [(o, RBool false)] | _ => [] end
        | _ => []
        end
    end.

  Definition RInv (s : state) : Prop :=
    forall t, evs t (hist s) = pend (thr s t) ++ dones (thr s t)
              /\ progs t = rev (map fst (dones (thr s t))) ++ t_ops (thr s t).

  Lemma evs_cons_same t e h : e_tid e = t -> evs t (e :: h) = (e_op e, e_res e) :: evs t h.
  Proof. intro H. unfold evs. simpl. rewrite H, Nat.eqb_refl. reflexivity. Qed.
  Lemma evs_cons_other t e h : e_tid e <> t -> evs t (e :: h) = evs t h.
  Proof. intro H. unfold evs. simpl. apply Nat.eqb_neq in H. rewrite H. reflexivity. Qed.

  Lemma RInv_init : RInv (init v0 progs).
  Proof. intro t. simpl. unfold pend, dones, init_thread; simpl. destruct (progs t); auto. Qed.

  Lemma emits_tid t o c th e c' : emits cas_ok apply valid t o c th (Some e) c' -> e_tid e = t /\ e_op e = o.
  Proof. intro Em. inversion Em; subst; auto. Qed.

  Lemma prophecy_regs o (th : thread) : not_cas o -> regs_ok apply o th ->
    prophecy o (t_old th) = if valid (t_new th) then None else Some RInvalid.
  Proof. destruct o; simpl; try tauto; intros _ R; [rewrite R|subst]; reflexivity. Qed.

  Lemma RInv_step s t s' : Inv s -> RInv s -> step t s = Some s' -> RInv s'.
  Proof.
    intros I R H u.
    destruct (step_view _ _ _ _ t s s' I H) as (o & r & p & c' & lk' & th' & e & w & E & Hp & Sv & ->).
(* what the stepping thread has shown, [pend ++ dones], grows by the event it emits *)
    simpl. destruct (Nat.eq_dec u t) as [->|Hu];
      [|rewrite upd_other by exact Hu; destruct e as [e|]; [|exact (R u)]; simpl;
        rewrite evs_cons_other; [exact (R u)|];
        destruct (emits_tid _ _ _ _ _ _ (tstep_emits _ _ _ _ _ _ _ _ _ _ _ _ _ _ _ Sv Hp)); congruence].
    rewrite upd_same. destruct (R t) as [R1 R2].
    assert (Nil : forall l : list op, match l with [] => @nil (op * res) | _ :: _ => [] end = [])
      by (intros []; reflexivity).
    destruct (local_at _ _ _ _ s t o r I E) as (_ & Lr & _). rewrite Hp in Lr.
    unfold pend, dones in *. rewrite E, Hp in R1. rewrite E in R2. simpl in R1.
    destruct Sv as [He Hl| |Ho|a f b Ho|a v b Ho|f b Ho|v b Ho|a f b Ho Ha|a f b n Ho Ha|Hn Hv|Hn Hv
                   |a b Ho Hv|a b Ho Hv|Hl|Hc|Hc| |Hw|k Hw|a b Ho|Hn| |k]; simpl; rewrite ?E; simpl.
    all: rewrite ?Nil, <- ?app_assoc; simpl in *; try (split; [exact R1|exact R2]).
    all: try (destruct (prophecy o (cell s)); simpl; rewrite ?evs_cons_same by reflexivity; simpl;
              (split; [congruence|exact R2])).
    all: try (rewrite evs_cons_same by reflexivity; simpl; (split; [congruence|exact R2])).
    - subst o. split; [exact R1|exact R2].
    - subst o. simpl in R1. rewrite Ha in R1. split; [exact R1|exact R2].
    - rewrite (prophecy_regs o _ Hn Lr), Hv in R1. split; [exact R1|exact R2].
    - rewrite (prophecy_regs o _ Hn Lr), Hv in R1. split; [exact R1|exact R2].
    - destruct o; simpl; rewrite ?evs_cons_same by reflexivity; simpl; (split; [congruence|exact R2]).
    - subst o. split; [exact R1|exact R2].
    - destruct o; try (exfalso; exact Hn); (split; [exact R1|exact R2]).
  Qed.

  Definition VInv (s : state) : Prop :=
    valid (cell s) = true
    /\ forall e, In e (hist s) -> valid (e_before e) = true /\ valid (e_after e) = true.

  Lemma VInv_step s t s' : Inv s -> VInv s -> step t s = Some s' -> VInv s'.
  Proof.
    intros I [V1 V2] H. destruct (step_emits _ _ _ _ t s s' I H) as (o & r & e & E & Em & Hh).
    unfold VInv. rewrite Hh.
    destruct Em as [| | | |Hp]; simpl; (split; [|try exact V2; intros e' [<-|Hin]; simpl]); auto.
    all: destruct (local_at _ _ _ _ s t o r I E) as (_ & _ & L & _); rewrite Hp in L; auto.
  Qed.

  Definition committed (s : state) (t : nat) (o n : V) : Prop :=
    exists e, In e (hist s) /\ e_tid e = t /\ e_read e = o /\ e_after e = n
              /\ cas_ok (e_before e) o = true.

  Definition notifying (p : pc) : bool :=
    match p with PRel true | PNotify _ => true | _ => false end.

  Definition WInv (s : state) : Prop :=
    (forall t, notifying (t_pc (thr s t)) = true ->
               committed s t (t_old (thr s t)) (t_new (thr s t)))
    /\ (forall k o n, In (k, o, n) (wlog s) -> k < nwatch /\ exists t, committed s t o n).

  Lemma committed_mono s s' t o n :
    (forall e, In e (hist s) -> In e (hist s')) -> committed s t o n -> committed s' t o n.
  Proof. intros M (e & H & R). exists e. split; auto. Qed.

  Lemma WInv_step s t s' : Inv s -> WInv s -> step t s = Some s' -> WInv s'.
  Proof.
    intros I [W1 W2] H.
    destruct (step_view _ _ _ _ t s s' I H) as (o & r & p & c' & lk' & th' & e & w & E & Hp & Sv & ->).
    assert (M : forall x, In x (hist s) -> In x (push e (hist s))) by (destruct e; simpl; auto).
    destruct (local_at _ _ _ _ s t o r I E) as (Lp & _ & _ & Lc). pose proof (W1 t) as Wt.
    rewrite Hp in Lp, Lc, Wt.
    split; simpl.
    - intro u. destruct (Nat.eq_dec u t) as [->|Hu];
        [|rewrite upd_other by exact Hu; intro N; eapply committed_mono; [exact M|]; apply W1; exact N].
      rewrite upd_same. destruct Sv; simpl; try (intro N; discriminate N); intros _.
      + eexists; split; [left; reflexivity|]; simpl; auto.
      + eapply committed_mono; [exact M|]. apply Wt; reflexivity.
      + eapply committed_mono; [exact M|]. apply Wt; reflexivity.
    - assert (KeepW : forall k a n, In (k, a, n) (wlog s) -> k < nwatch /\ exists t', committed (after s t c' lk' th' e w) t' a n).
      { intros k a n Hin. destruct (W2 _ _ _ Hin) as [Hk [t' Hc]]. split; [exact Hk|].
        exists t'. eapply committed_mono; eauto. }
      destruct Sv; simpl; try exact KeepW.
      all: intros k' a n [X|Hin]; [|exact (KeepW _ _ _ Hin)]; inversion X; subst; clear X; split;
        [destruct o; simpl in Lp; lia|exists t; eapply committed_mono; [exact M|]; apply Wt; reflexivity].
  Qed.

  Lemma reach_hist s :
    reach (init v0 progs) s ->
    Inv s /\ HInv s /\ RInv s /\ WInv s /\ (valid v0 = true -> VInv s).
  Proof.
    intro R. induction R as [|s t s' R IH St].
    - split; [apply Inv_init|]. split; [split; simpl; auto|]. split; [apply RInv_init|].
      split; [split; simpl; [intros t H; discriminate|intros k o n []]|].
      intro Hv. split; simpl; [exact Hv|intros e []].
    - destruct IH as (I1 & I2 & I3 & I4 & I5).
      split; [eapply Inv_step; eauto|]. split; [eapply HInv_step; eauto|].
      split; [eapply RInv_step; eauto|]. split; [eapply WInv_step; eauto|].
      intro Hv. eapply VInv_step; eauto.
  Qed.

  Theorem validator_never_visible s : valid v0 = true -> reach (init v0 progs) s ->
    valid (cell s) = true
    /\ (forall e, In e (hist s) -> valid (e_before e) = true /\ valid (e_after e) = true)
    /\ (forall k o n, In (k, o, n) (wlog s) -> valid n = true).
  Proof.
    intros Hv R. destruct (reach_hist s R) as (_ & _ & _ & [_ W2] & I5).
    destruct (I5 Hv) as [V1 V2]. split; [exact V1|split; [exact V2|]].
    intros k o n Hin. destruct (W2 k o n Hin) as [_ [t (e & He & _ & _ & Ha & _)]].
    rewrite <- Ha. apply (V2 e He).
  Qed.

  Theorem watch_pairs_are_commits s k o n : reach (init v0 progs) s -> In (k, o, n) (wlog s) ->
    k < nwatch /\ exists e, In e (hist s) /\ e_read e = o /\ e_after e = n
                            /\ cas_ok (e_before e) o = true.
  Proof.
    intros R Hin. destruct (reach_hist s R) as (_ & _ & _ & [_ W2] & _).
    destruct (W2 k o n Hin) as [Hk [t (e & He & _ & Hr & Ha & Hc)]].
    split; [exact Hk|]. exists e. auto.
  Qed.
End Hist.
