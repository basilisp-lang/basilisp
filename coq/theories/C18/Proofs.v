(** C18 proofs about histories, a refinement in three layers: the model with its dispatch
    cache computes what the cache-free machine [cstep] computes on (hierarchy, methods,
    preferences, default) alone; that machine gives the same answers for every re-arrangement
    of the table; with the table in insertion order it is the specification's machine
    [s_step], as long as no call hits an exact key that another matching key dominates
    ([s_guard]). *)
From Coq Require Import List Bool NArith Permutation.
Import ListNotations.
From Verif Require Import C18.HierarchyProofs C18.MultiFnProofs C18.Spec C18.IsaProofs C18.Model C18.Corr.

Definition perm_fn (sh : list (tag * N) -> list (tag * N)) : Prop := forall l, Permutation (sh l) l.

Section Machine.
  Variable supers : N -> list N.
  Variable sub : N -> N -> bool.
  Hypothesis sub_spec : forall a b, sub a b = true <-> a = b \/ In b (supers a).

  Notation m_isa := (m_isa supers sub).
  Notation step := (step supers sub).
  Notation run := (run supers sub).
  Notation cache_ok := (cache_ok tag hier tag_eqb m_isa).
  Notation core := (core tag hier).
  Notation fresh := (fresh tag hier tag_eqb m_isa).
  Notation call := (call tag hier tag_eqb m_isa hier_eqb).
  Notation lookup := (@lookup tag tag_eqb N).
  Notation remove_key := (@remove_key tag tag_eqb N).
  Notation has_pref := (has_pref tag tag_eqb).

  Definition cstate := (hier * list (tag * N) * list (tag * tag) * tag)%type.

  Definition mfn_of (c : cstate) : mfn tag hier :=
    let '(h, ms, pf, d) := c in
    {| methods := ms; prefs := pf; cache := ms; cached_h := h; dflt := d |}.

  Definition cfresh (c : cstate) (k : tag) : res := fresh (fst (fst (fst c))) (mfn_of c) k.

  Definition cstep (sh : list (tag * N) -> list (tag * N)) (c : cstate) (o : op) : sres * cstate :=
    let '(h, ms, pf, d) := c in
    match o with
    | OAdd k m => (SOk, (h, sh ((k, m) :: remove_key k ms), pf, d))
    | ORemove k => (SOk, (h, match lookup k ms with Some _ => sh (remove_key k ms) | None => ms end, pf, d))
    | ORemoveAll => (SOk, (h, [], pf, d))
    | OPrefer x y => if has_pref pf y x then (SErr, c) else (SOk, (h, ms, (x, y) :: pf, d))
    | ODerive t p => match derive h t p with Some h' => (SOk, (h', ms, pf, d)) | None => (SErr, c) end
    | OUnderive t p => match underive h t p with Some h' => (SOk, (h', ms, pf, d)) | None => (SErr, c) end
    | OCall k => (SRes (cfresh c k), c)
    end.

  Fixpoint crun sh (c : cstate) (ops : list op) : list sres * cstate :=
    match ops with
    | [] => ([], c)
    | o :: r => let (x, c1) := cstep sh c o in
                let (xs, c2) := crun sh c1 r in (x :: xs, c2)
    end.

  Lemma cfresh_core (w : W) k : cfresh (core w) k = fresh (w_hier w) (mf w) k.
  Proof. unfold cfresh, MultiFnProofs.core. simpl. apply fresh_same; reflexivity. Qed.

  Lemma step_core sh (w : W) o :
    cache_ok (mf w) ->
    cstep sh (core w) o = (fst (step sh w o), core (snd (step sh w o))) /\ cache_ok (mf (snd (step sh w o))).
  Proof.
    intros Hc. destruct o as [k m|k| |x y|t p|t p|k]; unfold Model.step; cbn [fst snd].
    - split; [reflexivity|apply reset_ok].
    - unfold remove_method, MultiFnProofs.core, cstep. cbn beta iota. cbn [fst snd].
      destruct (lookup k (methods (mf w))); (split; [reflexivity|apply reset_ok]).
    - split; [reflexivity|apply reset_ok].
    - unfold prefer_method, MultiFnProofs.core, cstep. cbn beta iota. cbn [fst snd].
      destruct (has_pref (prefs (mf w)) y x); cbn [fst snd].
      + split; auto.
      + split; [reflexivity|apply reset_ok].
    - unfold MultiFnProofs.core, cstep. cbn beta iota. cbn [fst snd].
      destruct (derive (w_hier w) t p); cbn [fst snd]; split; auto.
    - unfold MultiFnProofs.core, cstep. cbn beta iota. cbn [fst snd].
      destruct (underive (w_hier w) t p); cbn [fst snd]; split; auto.
    - destruct (call_transparent tag hier tag_eqb m_isa hier_eqb tag_eqb_eq (hier_eqb_isa supers sub) k w Hc) as [H1 [H2 H3]].
      destruct (call k w) as [r w'] eqn:E. cbn [fst snd] in *. split; auto.
      rewrite H3. subst r. rewrite <- cfresh_core. unfold MultiFnProofs.core.
      destruct w as [h [ms pf ca ch d]]. reflexivity.
  Qed.

  Theorem run_core sh : forall ops (w : W),
    cache_ok (mf w) ->
    crun sh (core w) ops = (fst (run sh w ops), core (snd (run sh w ops))) /\ cache_ok (mf (snd (run sh w ops))).
  Proof.
    induction ops as [|o ops IH]; intros w Hc; [simpl; auto|]. cbn [crun Model.run].
    destruct (step_core sh w o Hc) as [E Hc1]. rewrite E.
    destruct (step sh w o) as [x w1]. cbn [fst snd] in *.
    destruct (IH w1 Hc1) as [E2 Hc2]. rewrite E2.
    destruct (run sh w1 ops) as [xs w2]. cbn [fst snd] in *. auto.
  Qed.

  Lemma init_ok d : cache_ok (mf (init d)).
  Proof. apply new_ok. Qed.

  Lemma run_init sh ops d :
    fst (run sh (init d) ops) = fst (crun sh (core (init d)) ops)
    /\ core (snd (run sh (init d) ops)) = snd (crun sh (core (init d)) ops)
    /\ cache_ok (mf (snd (run sh (init d) ops))).
  Proof. destruct (run_core sh ops (init d) (init_ok d)) as [E Hc]. now rewrite E. Qed.

  Theorem cache_transparent_explicit sh ops d :
    let w := snd (run sh (init d) ops) in
    (forall k v, lookup k (cache (mf w)) = Some v -> fresh (cached_h (mf w)) (mf w) k = RMethod v) /\
    (forall k, fst (call k w) = fresh (w_hier w) (mf w) k).
  Proof.
    intros w. destruct (run_init sh ops d) as (_ & _ & Hc). split; [apply Hc|].
    intros k. now destruct (call_transparent tag hier tag_eqb m_isa hier_eqb tag_eqb_eq (hier_eqb_isa supers sub) k w Hc).
  Qed.

  Definition is_call (o : op) : bool := match o with OCall _ => true | _ => false end.

  Lemma crun_cons_snd sh c o ops : snd (crun sh c (o :: ops)) = snd (crun sh (snd (cstep sh c o)) ops).
  Proof.
    cbn [crun]. destruct (cstep sh c o) as [x c1]. cbn [snd]. now destruct (crun sh c1 ops).
  Qed.

  Lemma cstep_call_snd sh c k : snd (cstep sh c (OCall k)) = c.
  Proof. destruct c as [[[h ms] pf] d]. reflexivity. Qed.

  Lemma crun_skip_calls sh : forall ops c,
    snd (crun sh c ops) = snd (crun sh c (filter (fun o => negb (is_call o)) ops)).
  Proof.
    induction ops as [|o ops IH]; intros c; [reflexivity|].
    rewrite crun_cons_snd. cbn [filter]. destruct (is_call o) eqn:E; cbn [negb].
    - destruct o; try discriminate. rewrite cstep_call_snd. apply IH.
    - rewrite crun_cons_snd. apply IH.
  Qed.

  Theorem calls_do_not_matter sh ops d k :
    fst (call k (snd (run sh (init d) ops)))
    = fst (call k (snd (run sh (init d) (filter (fun o => negb (is_call o)) ops)))).
  Proof.
    destruct (cache_transparent_explicit sh ops d) as [_ H1].
    destruct (cache_transparent_explicit sh (filter (fun o => negb (is_call o)) ops) d) as [_ H2].
    rewrite H1, H2, <- !cfresh_core.
    rewrite (proj1 (proj2 (run_init sh ops d))), (proj1 (proj2 (run_init sh _ d))).
    now rewrite crun_skip_calls.
  Qed.

  Definition psim (c1 c2 : cstate) : Prop :=
    let '(h1, ms1, pf1, d1) := c1 in
    let '(h2, ms2, pf2, d2) := c2 in
    h1 = h2 /\ Permutation ms1 ms2 /\ pf1 = pf2 /\ d1 = d2 /\ NoDup (map fst ms1).

  Lemma remove_key_not_in k ms : ~ In k (map fst (remove_key k ms)).
  Proof.
    intros H. apply in_map_iff in H. destruct H as [e [E H]]. apply filter_In in H.
    destruct H as [_ H]. rewrite <- E, tag_eqb_refl in H. discriminate.
  Qed.

  Lemma NoDup_add k m ms : NoDup (map fst ms) -> NoDup (map fst ((k, m) :: remove_key k ms)).
  Proof.
    intros Hn. simpl. constructor; [apply remove_key_not_in|].
    now apply (NoDup_fst_filter tag).
  Qed.

  Lemma cstep_psim sh1 sh2 c1 c2 o :
    perm_fn sh1 -> perm_fn sh2 -> psim c1 c2 ->
    fst (cstep sh1 c1 o) = fst (cstep sh2 c2 o) /\ psim (snd (cstep sh1 c1 o)) (snd (cstep sh2 c2 o)).
  Proof.
    intros P1 P2. destruct c1 as [[[h1 ms1] pf1] d1], c2 as [[[h2 ms2] pf2] d2].
    intros [-> [Hp [-> [-> Hn]]]].
    assert (Hrk : forall k, Permutation (remove_key k ms1) (remove_key k ms2)).
    { intros. now apply Permutation_filter'. }
    destruct o as [k m|k| |x y|t p|t p|k]; simpl.
    - split; auto. repeat split; auto.
      + eapply perm_trans; [apply P1|]. eapply perm_trans; [|apply Permutation_sym, P2].
        now apply perm_skip.
      + apply (perm_NoDup_fst tag _ _ (Permutation_sym (P1 _))). now apply NoDup_add.
    - split; auto. rewrite <- (lookup_perm tag tag_eqb tag_eqb_eq k ms1 ms2 Hp Hn).
      destruct (lookup k ms1); repeat split; auto.
      + eapply perm_trans; [apply P1|]. eapply perm_trans; [|apply Permutation_sym, P2]. auto.
      + apply (perm_NoDup_fst tag _ _ (Permutation_sym (P1 _))). now apply (NoDup_fst_filter tag).
    - split; auto. repeat split; auto. constructor.
    - destruct (has_pref pf2 y x); simpl; split; auto; repeat split; auto.
    - destruct (derive h2 t p); simpl; split; auto; repeat split; auto.
    - destruct (underive h2 t p); simpl; split; auto; repeat split; auto.
    - split; [|repeat split; auto]. f_equal.
      apply (fresh_perm tag hier tag_eqb m_isa tag_eqb_eq (isa_refl supers sub)); auto.
  Qed.

  Lemma crun_psim sh1 sh2 : perm_fn sh1 -> perm_fn sh2 -> forall ops c1 c2,
    psim c1 c2 ->
    fst (crun sh1 c1 ops) = fst (crun sh2 c2 ops) /\ psim (snd (crun sh1 c1 ops)) (snd (crun sh2 c2 ops)).
  Proof.
    intros P1 P2. induction ops as [|o ops IH]; intros c1 c2 Hs; simpl; auto.
    destruct (cstep_psim sh1 sh2 c1 c2 o P1 P2 Hs) as [E Hs1].
    destruct (cstep sh1 c1 o) as [x1 c1'], (cstep sh2 c2 o) as [x2 c2']. simpl in *.
    destruct (IH c1' c2' Hs1) as [E2 Hs2].
    destruct (crun sh1 c1' ops) as [xs1 c1''], (crun sh2 c2' ops) as [xs2 c2'']. simpl in *.
    split; auto. congruence.
  Qed.

  Lemma psim_init d : psim (core (init d)) (core (init d)).
  Proof. simpl. repeat split; auto. constructor. Qed.

  Theorem order_independent sh1 sh2 ops d :
    perm_fn sh1 -> perm_fn sh2 -> fst (run sh1 (init d) ops) = fst (run sh2 (init d) ops).
  Proof.
    intros P1 P2.
    rewrite (proj1 (run_init sh1 ops d)), (proj1 (run_init sh2 ops d)).
    apply (crun_psim sh1 sh2 P1 P2 ops _ _ (psim_init d)).
  Qed.

  Definition rsim (c : cstate) (s : sstate) : Prop :=
    let '(h, ms, pf, d) := c in
    hsim h (sP s) /\ ms = sM s /\ pf = sPf s /\ d = sD s /\ NoDup (map fst ms).

  Lemma rsim_intro h ms pf d s :
    hsim h (sP s) -> ms = sM s -> pf = sPf s -> d = sD s -> NoDup (map fst ms) -> rsim (h, ms, pf, d) s.
  Proof. intros. unfold rsim. auto. Qed.

  Lemma remove_key_absent k ms : lookup k ms = None -> remove_key k ms = ms.
  Proof.
    induction ms as [|[k' v] ms IH]; simpl; auto.
    destruct (tag_eqb k k'); [discriminate|]. simpl. intros H. now rewrite IH.
  Qed.

  Lemma has_pref_rmem pf x y : has_pref pf x y = rmem x y pf.
  Proof. reflexivity. Qed.

  Lemma resolve_ref_ext (isa1 isa2 : tag -> tag -> bool) M Pf d k :
    (forall x y, isa1 x y = isa2 x y) ->
    resolve_ref tag tag_eqb isa1 M Pf d k = resolve_ref tag tag_eqb isa2 M Pf d k.
  Proof.
    intros E. unfold resolve_ref.
    rewrite (filter_ext (fun c => isa1 k c) (fun c => isa2 k c)) by (intros; apply E).
    set (cands := filter (fun c => isa2 k c) (map fst M)).
    rewrite (filter_ext (s_dominant tag tag_eqb isa1 Pf cands) (s_dominant tag tag_eqb isa2 Pf cands)); auto.
    intros c. unfold s_dominant. apply forallb_ext'. intros o. unfold s_dominates. now rewrite E.
  Qed.

  Lemma exact_ok_guard h s ms pf d k :
    hsim h (sP s) -> ms = sM s -> pf = sPf s ->
    exact_ok tag hier tag_eqb m_isa h {| methods := ms; prefs := pf; cache := ms; cached_h := h; dflt := d |} k
    = s_guard supers s k.
  Proof.
    intros Hs -> ->. unfold exact_ok, s_guard. simpl. rewrite lookup_is_s_lookup.
    destruct (s_lookup tag tag_eqb k (sM s)); auto.
    assert (E : forall x y, m_isa h x y = isa_ref_b supers (sP s) x y).
    { intros. now apply (isa_model_spec supers sub sub_spec h (sP s)). }
    rewrite (filter_ext (fun c => m_isa h k c) (fun c => isa_ref_b supers (sP s) k c)) by (intros; apply E).
    apply forallb_ext'. intros c. unfold s_dominates. now rewrite E.
  Qed.

  Lemma cstep_rsim c s o :
    rsim c s -> (match o with OCall k => s_guard supers s k | _ => true end) = true ->
    fst (cstep id_shuffle c o) = fst (s_step supers s o) /\ rsim (snd (cstep id_shuffle c o)) (snd (s_step supers s o)).
  Proof.
    destruct c as [[[h ms] pf] d]. intros [Hs [Em [Ep [Ed Hn]]]] Hg. subst ms pf d.
    destruct o as [k m|k| |x y|t p|t p|k]; unfold cstep, s_step.
    - cbn [fst snd]. split; auto. unfold id_shuffle. apply rsim_intro; cbn [sP sM sPf sD]; auto.
      now apply NoDup_add.
    - cbn [fst snd]. split; auto. apply rsim_intro; cbn [sP sM sPf sD]; auto.
      + destruct (lookup k (sM s)) eqn:El.
        * reflexivity.
        * symmetry. exact (remove_key_absent k (sM s) El).
      + destruct (lookup k (sM s)); auto. unfold id_shuffle. now apply (NoDup_fst_filter tag).
    - cbn [fst snd]. split; auto. apply rsim_intro; cbn [sP sM sPf sD]; auto. constructor.
    - rewrite has_pref_rmem. destruct (rmem y x (sPf s)); cbn [fst snd]; split; auto;
        apply rsim_intro; cbn [sP sM sPf sD]; auto.
    - pose proof (derive_refines h (sP s) t p Hs) as D.
      destruct (derive h t p), (spec_derive (sP s) t p); cbn [fst snd]; try contradiction; split; auto;
        apply rsim_intro; cbn [sP sM sPf sD]; auto.
    - destruct (underive_refines h (sP s) t p Hs) as [h' [U Hs']]. rewrite U. cbn [fst snd].
      split; auto. apply rsim_intro; cbn [sP sM sPf sD]; auto.
    - cbn [fst snd]. split; [|apply rsim_intro; auto]. f_equal. unfold cfresh, s_call. cbn [fst snd mfn_of].
      rewrite (fresh_is_resolve_ref tag hier tag_eqb m_isa tag_eqb_eq (isa_refl supers sub)); cbn [methods prefs dflt]; auto.
      + apply resolve_ref_ext. intros.
        now apply (isa_model_spec supers sub sub_spec h (sP s)).
      + rewrite (exact_ok_guard h s (sM s) (sPf s) (sD s) k); auto.
  Qed.

  Lemma crun_rsim : forall ops c s,
    rsim c s -> s_guard_run supers s ops = true ->
    fst (crun id_shuffle c ops) = fst (s_run supers s ops) /\ rsim (snd (crun id_shuffle c ops)) (snd (s_run supers s ops)).
  Proof.
    induction ops as [|o ops IH]; intros c s Hs Hg; simpl; auto.
    simpl in Hg. apply andb_true_iff in Hg. destruct Hg as [Hg1 Hg2].
    destruct (cstep_rsim c s o Hs Hg1) as [E Hs1].
    destruct (cstep id_shuffle c o) as [x1 c1], (s_step supers s o) as [x2 s1]. simpl in *.
    destruct (IH c1 s1 Hs1 Hg2) as [E2 Hs2].
    destruct (crun id_shuffle c1 ops) as [xs1 c2], (s_run supers s1 ops) as [xs2 s2]. simpl in *.
    split; auto. congruence.
  Qed.

  Lemma rsim_init d : rsim (core (init d)) (s_init d).
  Proof. apply rsim_intro; simpl; auto. apply hsim_make. constructor. Qed.

  Lemma id_shuffle_perm : perm_fn id_shuffle.
  Proof. intros l. apply Permutation_refl. Qed.

  Theorem choice_partial sh ops d :
    perm_fn sh -> s_guard_run supers (s_init d) ops = true ->
    fst (run sh (init d) ops) = fst (s_run supers (s_init d) ops).
  Proof.
    intros Psh Hg. rewrite (order_independent sh id_shuffle ops d Psh id_shuffle_perm).
    rewrite (proj1 (run_init id_shuffle ops d)). apply (crun_rsim ops _ _ (rsim_init d) Hg).
  Qed.

  Lemma run_keeps_closed sh : forall ops (w : W),
    closed (w_hier w) -> closed (w_hier (snd (run sh w ops))).
  Proof.
    induction ops as [|o ops IH]; intros w Hc; simpl; auto.
    assert (Hc1 : closed (w_hier (snd (step sh w o)))).
    { destruct o; simpl; auto.
      - unfold remove_method. destruct (lookup k (methods (mf w))); auto.
      - unfold prefer_method. destruct (has_pref (prefs (mf w)) y x); auto.
      - pose proof (hstep_closed _ (HDerive t p) Hc) as H. simpl in H. now destruct (derive (w_hier w) t p).
      - pose proof (hstep_closed _ (HUnderive t p) Hc) as H. simpl in H. now destruct (underive (w_hier w) t p).
      - pose proof (call_hier tag hier tag_eqb m_isa hier_eqb k w) as H.
        destruct (call k w). simpl in *. now rewrite H. }
    destruct (step sh w o) as [x w1]. simpl in *.
    specialize (IH w1 Hc1). destruct (run sh w1 ops) as [xs w2]. auto.
  Qed.

  Theorem run_hier_closed sh ops d : closed (w_hier (snd (run sh (init d) ops))).
  Proof. apply run_keeps_closed, closed_make. Qed.
End Machine.
