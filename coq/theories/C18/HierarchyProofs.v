(** C18 proofs about hierarchies: derive/underive keep the three maps of a hierarchy mutually
    consistent:  :ancestors = transitive closure of :parents, :descendants = its converse,
    no cycles; underive never fails on such a hierarchy and yields the closure of the
    remaining parent pairs whatever the order of re-derivation. *)
From Coq Require Import List Bool NArith Relations.
Import ListNotations.
From Verif Require Import C18.Hierarchy.

Section TagInd.
  Variable P : tag -> Prop.
  Hypothesis HK : forall n, P (K n).
  Hypothesis HC : forall n, P (C n).
  Hypothesis HV : forall l, Forall P l -> P (V l).
  Fixpoint tag_ind' (t : tag) : P t :=
    match t with
    | K n => HK n
    | C n => HC n
    | V l => HV l ((fix go (l : list tag) : Forall P l :=
                      match l with
                      | [] => Forall_nil P
                      | x :: r => Forall_cons x (tag_ind' x) (go r)
                      end) l)
    end.
End TagInd.

Lemma tag_eqb_eq : forall a b, tag_eqb a b = true <-> a = b.
Proof.
  induction a as [n|n|l IH] using tag_ind'; intros [m|m|l']; simpl; try (split; congruence).
  - rewrite N.eqb_eq. split; congruence.
  - rewrite N.eqb_eq. split; congruence.
  - revert l'. induction IH as [|x xs Hx _ IHxs]; intros [|y ys]; try (split; congruence).
    rewrite andb_true_iff, Hx, IHxs. split.
    + intros [-> H]. congruence.
    + intros H. inversion H. auto.
Qed.

Lemma tag_eqb_refl a : tag_eqb a a = true.
Proof. now apply tag_eqb_eq. Qed.

Lemma tag_eqb_neq a b : tag_eqb a b = false <-> a <> b.
Proof.
  split.
  - intros H E. apply tag_eqb_eq in E. congruence.
  - intros H. destruct (tag_eqb a b) eqn:E; auto. apply tag_eqb_eq in E. contradiction.
Qed.

Lemma tag_eqb_sym a b : tag_eqb a b = tag_eqb b a.
Proof.
  destruct (tag_eqb a b) eqn:E.
  - apply tag_eqb_eq in E. subst. now rewrite tag_eqb_refl.
  - symmetry. apply tag_eqb_neq. apply tag_eqb_neq in E. congruence.
Qed.

Lemma pair_eqb_eq p q : pair_eqb p q = true <-> p = q.
Proof.
  destruct p, q. unfold pair_eqb. simpl. rewrite andb_true_iff, !tag_eqb_eq.
  split; [intros [-> ->]; auto | intros H; inversion H; auto].
Qed.

Lemma rmem_In x y r : rmem x y r = true <-> In (x, y) r.
Proof.
  unfold rmem. rewrite existsb_exists. split.
  - intros [q [Hq E]]. apply pair_eqb_eq in E. now subst.
  - intros H. exists (x, y). split; auto. now apply pair_eqb_eq.
Qed.

Lemma tmem_In x l : tmem x l = true <-> In x l.
Proof.
  unfold tmem. rewrite existsb_exists. split.
  - intros [q [Hq E]]. apply tag_eqb_eq in E. now subst.
  - intros H. exists x. split; auto. apply tag_eqb_refl.
Qed.

Lemma In_image r x y : In y (image r x) <-> In (x, y) r.
Proof.
  unfold image. rewrite in_map_iff. split.
  - intros [[a b] [E H]]. simpl in E. subst. apply filter_In in H. destruct H as [H E].
    simpl in E. apply tag_eqb_eq in E. now subst.
  - intros H. exists (x, y). split; auto. apply filter_In. split; auto. simpl. apply tag_eqb_refl.
Qed.

Lemma In_product x y A B : In (x, y) (product A B) <-> In x A /\ In y B.
Proof.
  unfold product. rewrite in_flat_map. split.
  - intros [a [Ha H]]. apply in_map_iff in H. destruct H as [b [E Hb]]. inversion E. subst. auto.
  - intros [Ha Hb]. exists x. split; auto. apply in_map_iff. exists y. auto.
Qed.

Lemma In_radd q t p r : In q (radd t p r) <-> q = (t, p) \/ In q r.
Proof.
  unfold radd. destruct (rmem t p r) eqn:E.
  - apply rmem_In in E. split; auto. intros [->|H]; auto.
  - simpl. split; intros [H|H]; auto.
Qed.

Lemma In_radd_pair x y t p r : In (x, y) (radd t p r) <-> In (x, y) r \/ (x = t /\ y = p).
Proof.
  rewrite In_radd. split.
  - intros [E|H]; auto. inversion E. auto.
  - intros [H|[-> ->]]; auto.
Qed.

Lemma In_runion q l : forall r, In q (runion r l) <-> In q r \/ In q l.
Proof.
  unfold runion. induction l as [|[a b] l IH]; intros r; simpl.
  - tauto.
  - rewrite IH, In_radd. split.
    + intros [[->|H]|H]; auto.
    + intros [H|[<-|H]]; auto.
Qed.

Definition R (r : rel) : tag -> tag -> Prop := fun x y => In (x, y) r.

Record closed (h : hier) : Prop := {
  cl_anc : forall x y, In (x, y) (ha h) <-> clos_trans tag (R (hp h)) x y;
  cl_desc : forall x y, In (x, y) (hd h) <-> In (y, x) (ha h);
  cl_acyc : forall x, ~ In (x, x) (ha h);
  cl_wf : forall x y, In (x, y) (hp h) -> is_ident y = true /\ (is_ident x || is_class x) = true
}.

Lemma closed_make : closed make_hierarchy.
Proof.
  constructor; simpl; try tauto.
  intros x y. split; [tauto|]. intros H. apply clos_trans_t1n in H. destruct H as [? H|? ? H _]; exact H.
Qed.

Lemma clos_trans_mono {T} (A B : T -> T -> Prop) :
  (forall x y, A x y -> B x y) -> forall x y, clos_trans T A x y -> clos_trans T B x y.
Proof.
  intros HAB x y H. induction H.
  - apply t_step. auto.
  - eapply t_trans; eauto.
Qed.

Lemma tc_add_edge {T} (P P' : T -> T -> Prop) t p :
  (forall x y, P' x y <-> P x y \/ (x = t /\ y = p)) ->
  forall x y, clos_trans T P' x y <->
              clos_trans T P x y \/
              ((x = t \/ clos_trans T P x t) /\ (y = p \/ clos_trans T P p y)).
Proof.
  intros HP' x y. split.
  - intros H. apply clos_trans_t1n in H. induction H as [x y H|x z y H _ IH].
    + apply HP' in H. destruct H as [H|[-> ->]].
      * left. now apply t_step.
      * right. auto.
    + apply HP' in H. destruct H as [H|[-> ->]].
      * destruct IH as [IH|[[->|IH1] IH2]].
        -- left. eapply t_trans; [apply t_step; eauto|auto].
        -- right. split; auto. right. now apply t_step.
        -- right. split; auto. right. eapply t_trans; [apply t_step; eauto|auto].
      * destruct IH as [IH|[_ IH2]].
        -- right. auto.
        -- right. auto.
  - assert (M : forall a b, clos_trans T P a b -> clos_trans T P' a b).
    { apply clos_trans_mono. intros. apply HP'. auto. }
    assert (E : clos_trans T P' t p). { apply t_step. apply HP'. auto. }
    intros [H|[H1 H2]]; auto.
    assert (X : clos_trans T P' x p).
    { destruct H1 as [->|H1]; auto. eapply t_trans; eauto. }
    destruct H2 as [->|H2]; auto. eapply t_trans; eauto.
Qed.

(** [derive] as one test followed by the three updated maps; the test has the shape of
    [Spec.spec_derive] *)
Definition derive_refused (h : hier) (t p : tag) : bool :=
  tag_eqb t p || negb (is_ident p) || negb (is_ident t || is_class t) || tmem t (image (ha h) p).

Lemma derive_eq h t p :
  derive h t p =
  if derive_refused h t p then None
  else Some {| hp := radd t p (hp h);
               ha := runion (ha h) (product (t :: image (hd h) t) (p :: image (ha h) p));
               hd := runion (hd h) (product (p :: image (ha h) p) (t :: image (hd h) t)) |}.
Proof.
  unfold derive, derive_refused.
  destruct (tag_eqb t p); [reflexivity|]. destruct (is_ident p); [|reflexivity].
  destruct (is_ident t || is_class t); reflexivity.
Qed.

Lemma derive_refused_spec h t p :
  closed h ->
  (derive_refused h t p = true <->
   t = p \/ is_ident p = false \/ (is_ident t || is_class t) = false \/ clos_trans tag (R (hp h)) p t).
Proof.
  intros Hc. unfold derive_refused.
  rewrite !orb_true_iff, !negb_true_iff, tag_eqb_eq, tmem_In, In_image, (cl_anc _ Hc). tauto.
Qed.

(* [product] is kept folded so that [cbn] and [rewrite In_product] see it *)
Local Opaque product.
Lemma derive_closed h t p h' :
  closed h -> derive h t p = Some h' ->
  closed h' /\ (forall x y, In (x, y) (hp h') <-> In (x, y) (hp h) \/ (x = t /\ y = p)).
Proof.
  intros [Hanc Hdesc Hacyc Hwf] D. rewrite derive_eq in D.
  destruct (derive_refused h t p) eqn:Ref; [discriminate|]. inversion D; subst h'; clear D. cbn [hp ha hd].
  unfold derive_refused in Ref. rewrite !orb_false_iff, !negb_false_iff, tag_eqb_neq in Ref.
  destruct Ref as [[[Etp Ep] Et] Ecyc].
  assert (Ncyc : ~ In (p, t) (ha h)).
  { intros H. apply In_image, tmem_In in H. congruence. }
  pose proof (fun x y => In_radd_pair x y t p (hp h)) as HP.
  assert (TC := tc_add_edge (R (hp h)) (R (radd t p (hp h))) t p HP).
  assert (InA : forall x, In x (t :: image (hd h) t) <-> x = t \/ clos_trans tag (R (hp h)) x t).
  { intros x. simpl. rewrite In_image, Hdesc, Hanc. split; intros [H|H]; auto. }
  assert (InB : forall y, In y (p :: image (ha h) p) <-> y = p \/ clos_trans tag (R (hp h)) p y).
  { intros y. simpl. rewrite In_image, Hanc. split; intros [H|H]; auto. }
  assert (NewA : forall x y, In (x, y) (runion (ha h) (product (t :: image (hd h) t) (p :: image (ha h) p)))
                             <-> clos_trans tag (R (radd t p (hp h))) x y).
  { intros x y. rewrite In_runion, In_product, InA, InB, TC, Hanc. reflexivity. }
  split; [|exact HP].
  constructor; cbn [hp ha hd].
  - exact NewA.
  - intros x y. rewrite !In_runion, !In_product, Hdesc. tauto.
  - intros x H. apply NewA in H. apply TC in H. destruct H as [H|[H1 H2]].
    + apply Hanc in H. eapply Hacyc; eauto.
    + apply Ncyc. apply Hanc.
      destruct H1 as [->|H1]; destruct H2 as [E|H2]; subst; try congruence; auto.
      eapply t_trans; eauto.
  - intros x y H. apply HP in H. destruct H as [H|[-> ->]]; auto.
Qed.

Local Transparent product.

Lemma derive_ok h t p :
  closed h -> t <> p -> is_ident p = true -> (is_ident t || is_class t) = true ->
  ~ clos_trans tag (R (hp h)) p t -> exists h', derive h t p = Some h'.
Proof.
  intros Hc Htp Hp Ht Hn. rewrite derive_eq.
  destruct (derive_refused h t p) eqn:E; [exfalso|eauto].
  apply (derive_refused_spec h t p Hc) in E. rewrite Hp, Ht in E. intuition discriminate.
Qed.

Lemma derive_none h t p :
  closed h -> derive h t p = None ->
  t = p \/ is_ident p = false \/ (is_ident t || is_class t) = false \/ clos_trans tag (R (hp h)) p t.
Proof.
  intros Hc. rewrite derive_eq. destruct (derive_refused h t p) eqn:E; [intros _|discriminate].
  now apply derive_refused_spec.
Qed.

Definition acyclic (P : tag -> tag -> Prop) : Prop := forall x, ~ clos_trans tag P x x.
Definition wf_pairs (l : rel) : Prop :=
  forall x y, In (x, y) l -> is_ident y = true /\ (is_ident x || is_class x) = true.

Lemma rebuild_none l : rebuild l make_hierarchy = rebuild l make_hierarchy -> True.
Proof. auto. Qed.

Lemma fold_none (l : rel) :
  fold_left (fun acc q => match acc with
                          | Some h => derive h (fst q) (snd q)
                          | None => None
                          end) l None = None.
Proof. induction l; simpl; auto. Qed.

Lemma rebuild_closed l : forall h0,
  closed h0 -> wf_pairs l ->
  acyclic (fun x y => In (x, y) (hp h0) \/ In (x, y) l) ->
  exists h', rebuild l h0 = Some h' /\ closed h' /\
             (forall x y, In (x, y) (hp h') <-> In (x, y) (hp h0) \/ In (x, y) l).
Proof.
  induction l as [|[t p] l IH]; intros h0 Hc Hwf Hac.
  - exists h0. simpl. split; auto. split; auto. intros; tauto.
  - unfold rebuild. simpl.
    destruct (Hwf t p) as [Wp Wt]; [left; auto|].
    assert (E : clos_trans tag (fun x y => In (x, y) (hp h0) \/ In (x, y) ((t, p) :: l)) t p).
    { apply t_step. right. left. auto. }
    destruct (derive_ok h0 t p) as [h1 D]; auto.
    + intros ->. eapply Hac; eauto.
    + intros H. apply (Hac t). eapply t_trans; [exact E|].
      eapply clos_trans_mono; [|exact H]. unfold R. auto.
    + rewrite D. destruct (derive_closed _ _ _ _ Hc D) as [Hc1 Hp1].
      destruct (IH h1) as [h' [Rb [Hc' Hp']]]; auto.
      * intros x y H. apply Hwf. right. auto.
      * intros x H. apply (Hac x). eapply clos_trans_mono; [|exact H].
        simpl. intros a b [Hab|Hab]; auto. apply Hp1 in Hab. destruct Hab as [Hab|[-> ->]]; auto.
      * exists h'. split; [exact Rb|]. split; auto.
        intros x y. rewrite Hp', Hp1. simpl. split.
        -- intros [[H|[-> ->]]|H]; auto.
        -- intros [H|[H|H]]; auto. inversion H. auto.
Qed.

Lemma In_remove_pair (l : rel) t p x y :
  In (x, y) (filter (fun q => negb (pair_eqb (t, p) q)) l) <-> In (x, y) l /\ (x, y) <> (t, p).
Proof.
  rewrite filter_In, negb_true_iff, <- not_true_iff_false, pair_eqb_eq.
  split; intros [H1 H2]; split; auto.
Qed.

Lemma underive_closed h t p :
  closed h ->
  exists h', underive h t p = Some h' /\ closed h' /\
             (forall x y, In (x, y) (hp h') <-> In (x, y) (hp h) /\ (x, y) <> (t, p)).
Proof.
  intros Hc. unfold underive.
  set (l := filter (fun q => negb (pair_eqb (t, p) q)) (hp h)).
  destruct (rebuild_closed l make_hierarchy) as [h' [Rb [Hc' Hp']]].
  - apply closed_make.
  - intros x y H. apply In_remove_pair in H. apply (cl_wf _ Hc). tauto.
  - intros x H. apply (cl_acyc _ Hc x). apply (cl_anc _ Hc).
    eapply clos_trans_mono; [|exact H]. simpl. intros a b [[]|Hab]. apply In_remove_pair in Hab. unfold R. tauto.
  - exists h'. split; auto. split; auto. intros x y. rewrite Hp'. simpl. unfold l. rewrite In_remove_pair. tauto.
Qed.

Inductive hop := HDerive (t p : tag) | HUnderive (t p : tag).

(** a failing operation throws and leaves the hierarchy reference unchanged *)
Definition hstep (h : hier) (o : hop) : hier :=
  match o with
  | HDerive t p => match derive h t p with Some h' => h' | None => h end
  | HUnderive t p => match underive h t p with Some h' => h' | None => h end
  end.

Lemma hstep_closed h o : closed h -> closed (hstep h o).
Proof.
  intros Hc. destruct o as [t p|t p]; simpl.
  - destruct (derive h t p) eqn:D; auto. now destruct (derive_closed _ _ _ _ Hc D).
  - destruct (underive_closed h t p Hc) as [h' [U [Hc' _]]]. now rewrite U.
Qed.

Lemma hsteps_closed ops : forall h, closed h -> closed (fold_left hstep ops h).
Proof. induction ops; simpl; auto. intros h Hc. apply IHops. now apply hstep_closed. Qed.

(** [_explicit]: the invariant with its record written out as a conjunction *)
Theorem hierarchy_closed_explicit : forall ops,
  let h := fold_left hstep ops make_hierarchy in
  (forall x y, In (x, y) (ha h) <-> clos_trans tag (fun a b => In (a, b) (hp h)) x y) /\
  (forall x y, In (x, y) (hd h) <-> In (y, x) (ha h)) /\
  (forall x, ~ In (x, x) (ha h)).
Proof.
  intros ops h. destruct (hsteps_closed ops _ closed_make) as [A B C' _]. fold h in A, B, C'. auto.
Qed.

Lemma rel_incl_spec r1 r2 : rel_incl r1 r2 = true <-> forall x y, In (x, y) r1 -> In (x, y) r2.
Proof.
  unfold rel_incl. rewrite forallb_forall. split.
  - intros H x y Hi. apply rmem_In. apply (H (x, y) Hi).
  - intros H [x y] Hi. apply rmem_In. simpl. auto.
Qed.

Lemma rel_eqb_spec r1 r2 : rel_eqb r1 r2 = true <-> forall x y, In (x, y) r1 <-> In (x, y) r2.
Proof.
  unfold rel_eqb. rewrite andb_true_iff, !rel_incl_spec. split.
  - intros [A B] x y. split; auto.
  - intros H. split; intros x y; apply H.
Qed.
