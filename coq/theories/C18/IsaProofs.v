(** C18 proofs about isa?: on every hierarchy value that derive/underive can produce, the
    code's isa? is the specification's [isa_ref_b] (hence the reflexive-transitive closure of
    parent pairs + class inheritance, pointwise on equal-length vectors); derive and underive
    refine the specification's operations on the set of parent pairs. *)
From Coq Require Import List Bool NArith Relations.
Import ListNotations.
From Verif Require Import C18.Hierarchy C18.HierarchyProofs C18.Spec C18.SpecProofs.

(** the code's hierarchy value h represents the set P of parent pairs *)
Definition hsim (h : hier) (P : rel) : Prop :=
  closed h /\ forall x y, In (x, y) (hp h) <-> In (x, y) P.

Lemma hsim_make : hsim make_hierarchy [].
Proof. split; [apply closed_make|]. intros; simpl; tauto. Qed.

Lemma hsim_tc h P x y : hsim h P -> (In (x, y) (ha h) <-> clos_trans tag (R P) x y).
Proof.
  intros [Hc Hp]. rewrite (cl_anc _ Hc). split; apply clos_trans_mono; intros a b; apply Hp.
Qed.

Lemma hsim_anc h P x y : hsim h P -> tmem y (image (ha h) x) = tc_dec P x y.
Proof.
  intros Hs. apply eq_true_iff_eq. now rewrite tmem_In, In_image, tc_dec_spec, (hsim_tc h P).
Qed.

Lemma hsim_wf h P : hsim h P -> wf_pairs P.
Proof. intros [Hc Hp] x y H. apply (cl_wf _ Hc). now apply Hp. Qed.

Lemma derive_refines h P t p :
  hsim h P ->
  match derive h t p, spec_derive P t p with
  | Some h', Some P' => hsim h' P'
  | None, None => True
  | _, _ => False
  end.
Proof.
  intros Hs. unfold spec_derive. rewrite <- (hsim_anc h P p t Hs). fold (derive_refused h t p).
  pose proof (derive_eq h t p) as D. rewrite D.
  destruct (derive_refused h t p); [exact I|].
  destruct Hs as [Hc Hp]. destruct (derive_closed _ _ _ _ Hc D) as [Hc' Hp'].
  split; auto. intros x y. now rewrite Hp', In_radd_pair, Hp.
Qed.

Lemma underive_refines h P t p :
  hsim h P -> exists h', underive h t p = Some h' /\ hsim h' (spec_underive P t p).
Proof.
  intros [Hc Hp]. destruct (underive_closed h t p Hc) as [h' [U [Hc' Hp']]].
  exists h'. split; auto. split; auto. intros x y.
  unfold spec_underive. now rewrite Hp', In_remove_pair, Hp.
Qed.

Section IsaModel.
  Variable supers : N -> list N.
  Variable sub : N -> N -> bool.
  Hypothesis sub_spec : forall a b, sub a b = true <-> a = b \/ In b (supers a).

  Notation isa := (isa supers sub).

  (** the four disjuncts of isa? by the kind of the first tag; what is constantly [false]
      or [[]] for that kind is left out *)
  Lemma isa_K h n y : isa h (K n) y = tag_eqb (K n) y || tmem y (image (ha h) (K n)).
  Proof.
    change (isa h (K n) y) with (tag_eqb (K n) y || false || tmem y (image (ha h) (K n) ++ []) || false).
    now rewrite app_nil_r, !orb_false_r.
  Qed.

  Lemma isa_C h a y :
    isa h (C a) y =
    tag_eqb (C a) y
    || tmem y (image (ha h) (C a) ++ flat_map (fun s => C s :: image (ha h) (C s)) (supers a))
    || match y with C b => sub a b | _ => false end.
  Proof.
    change (isa h (C a) y) with
      (tag_eqb (C a) y || false
       || tmem y (image (ha h) (C a) ++ flat_map (fun s => C s :: image (ha h) (C s)) (supers a))
       || match y with C b => sub a b | _ => false end).
    now rewrite orb_false_r.
  Qed.

  Lemma tmem_class_ancestors h a y :
    tmem y (image (ha h) (C a) ++ flat_map (fun s => C s :: image (ha h) (C s)) (supers a)) = true <->
    In (C a, y) (ha h) \/ exists s, In s (supers a) /\ (C s = y \/ In (C s, y) (ha h)).
  Proof.
    rewrite tmem_In, in_app_iff, In_image, in_flat_map. simpl. now setoid_rewrite In_image.
  Qed.

  Lemma isa_V h xs y :
    isa h (V xs) y =
    tag_eqb (V xs) y
    || match y with
       | V ys => Nat.eqb (length xs) (length ys) && zipall (isa h) xs ys
       | _ => false
       end
    || tmem y (image (ha h) (V xs)).
  Proof.
    transitivity (tag_eqb (V xs) y
                  || match y with
                     | V ys => Nat.eqb (length xs) (length ys) && zipall (isa h) xs ys
                     | _ => false
                     end
                  || tmem y (image (ha h) (V xs) ++ []) || false); [destruct y; reflexivity|].
    now rewrite app_nil_r, orb_false_r.
  Qed.

  Lemma isa_refl h x : isa h x x = true.
  Proof.
    destruct x.
    - now rewrite isa_K, tag_eqb_refl.
    - now rewrite isa_C, tag_eqb_refl.
    - now rewrite isa_V, tag_eqb_refl.
  Qed.

  Theorem isa_model_spec h P : hsim h P -> forall x y, isa h x y = isa_ref_b supers P x y.
  Proof.
    intros Hs. induction x as [n|a|xs IH] using tag_ind'; intros y.
    - now rewrite isa_K, isa_ref_b_K, (hsim_anc h P).
    - rewrite isa_C, isa_ref_b_C.
      destruct (tag_eqb (C a) y) eqn:E; [reflexivity|]. cbn [orb].
      apply eq_true_iff_eq. rewrite !orb_true_iff, tmem_class_ancestors, existsb_exists, tc_dec_spec.
      setoid_rewrite orb_true_iff. setoid_rewrite tag_eqb_eq. setoid_rewrite tc_dec_spec.
      setoid_rewrite (hsim_tc h P _ _ Hs). split; [intros [H|H]; [exact H|]|now left].
      destruct y as [|b|]; try discriminate. apply sub_spec in H. destruct H as [->|H].
      + rewrite tag_eqb_refl in E. discriminate.
      + right. exists b. auto.
    - rewrite isa_V, isa_ref_b_V.
      assert (Z : tmem y (image (ha h) (V xs)) = false).
      { destruct (tmem y (image (ha h) (V xs))) eqn:E; auto.
        apply tmem_In, In_image in E. apply (hsim_tc h P _ _ Hs) in E.
        apply tc_source in E; [discriminate|]. now apply (hsim_wf h). }
      rewrite Z, orb_false_r. f_equal. destruct y as [| |ys]; auto.
      now rewrite (zipall_ext _ _ xs IH).
  Qed.

  Lemma isa_ext h1 h2 :
    (forall x y, In (x, y) (ha h1) <-> In (x, y) (ha h2)) -> forall x y, isa h1 x y = isa h2 x y.
  Proof.
    intros E.
    assert (Ei : forall x y, tmem y (image (ha h1) x) = tmem y (image (ha h2) x)).
    { intros. apply eq_true_iff_eq. now rewrite !tmem_In, !In_image. }
    induction x as [n|a|xs IH] using tag_ind'; intros y.
    - now rewrite !isa_K, Ei.
    - rewrite !isa_C. f_equal. f_equal. apply eq_true_iff_eq.
      rewrite !tmem_class_ancestors. now setoid_rewrite E.
    - rewrite !isa_V, Ei. destruct y as [| |ys]; auto. now rewrite (zipall_ext _ _ xs IH).
  Qed.

  Lemma hier_eqb_isa h1 h2 : hier_eqb h1 h2 = true -> forall x y, isa h1 x y = isa h2 x y.
  Proof.
    unfold hier_eqb. rewrite !andb_true_iff. intros [[_ H] _]. apply isa_ext. now apply rel_eqb_spec.
  Qed.

  (** on two vectors only the second disjunct of isa? can hold besides equality: a vector
      has no ancestors in a closed hierarchy *)
  Theorem isa_vector_pointwise h : closed h -> forall xs ys,
    isa h (V xs) (V ys) = true <-> Forall2 (fun a b => isa h a b = true) xs ys.
  Proof.
    intros Hc xs ys. rewrite isa_V.
    assert (Z : tmem (V ys) (image (ha h) (V xs)) = false).
    { destruct (tmem (V ys) (image (ha h) (V xs))) eqn:E; auto.
      apply tmem_In, In_image, (cl_anc _ Hc) in E.
      apply tc_source in E; [discriminate|]. exact (cl_wf _ Hc). }
    rewrite Z, orb_false_r, orb_true_iff.
    rewrite (zipall_Forall2 (isa h) (fun a b => isa h a b = true) xs) by (apply Forall_forall; reflexivity).
    split; [intros [E|H]; [|exact H]|now right].
    apply tag_eqb_eq in E. injection E as <-. clear Z.
    induction xs as [|x xs IH]; constructor; [apply isa_refl|exact IH].
  Qed.

  Hypothesis supers_trans : forall a s s', In s (supers a) -> In s' (supers s) -> In s' (supers a).

  Theorem isa_is_closure h : closed h -> forall x y, isa h x y = true <-> isa_ref supers (hp h) x y.
  Proof.
    intros Hc x y. assert (Hs : hsim h (hp h)) by (split; auto; tauto).
    rewrite (isa_model_spec h (hp h) Hs). apply isa_ref_b_spec; auto. now apply (hsim_wf h).
  Qed.

  Corollary isa_vector_length h : closed h -> forall xs ys,
    isa h (V xs) (V ys) = true -> length xs = length ys.
  Proof using sub_spec supers_trans.
    intros Hc xs ys H. apply (isa_vector_pointwise h Hc) in H. induction H; simpl; auto.
  Qed.
End IsaModel.
