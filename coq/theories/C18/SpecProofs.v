(** C18: the executable parts of the specification are what their declarative parts say.
    - [tc_dec] decides the transitive closure of a finite relation;
    - [resolve_ref] satisfies [resolves], and [resolves] is deterministic;
    - [isa_ref_b] decides [isa_ref]. *)
From Coq Require Import List Bool NArith Arith Relations Lia.
Import ListNotations.
From Verif Require Import C18.HierarchyProofs C18.Spec.

Definition drop_from (x : tag) (P : rel) : rel := filter (fun e => negb (tag_eqb (fst e) x)) P.

Lemma In_drop_from x P a b : In (a, b) (drop_from x P) <-> In (a, b) P /\ a <> x.
Proof.
  unfold drop_from. rewrite filter_In. simpl. rewrite negb_true_iff, tag_eqb_neq. tauto.
Qed.

Lemma reach_sound : forall fuel P x y, reach fuel P x y = true -> clos_trans tag (R P) x y.
Proof.
  induction fuel as [|f IH]; simpl; intros P x y H; [discriminate|].
  apply existsb_exists in H. destruct H as [[a b] [Hq H]]. simpl in H.
  destruct (tag_eqb a x) eqn:Ha; [|discriminate]. apply tag_eqb_eq in Ha. subst a.
  destruct (tag_eqb b y) eqn:Hb.
  - apply tag_eqb_eq in Hb. subst. now apply t_step.
  - apply IH in H. eapply t_trans; [apply t_step; exact Hq|].
    eapply clos_trans_mono; [|exact H]. intros u v Huv. apply In_drop_from in Huv. apply Huv.
Qed.

Lemma last_departure P x : forall z y, clos_trans tag (R P) z y ->
  clos_trans tag (R (drop_from x P)) z y \/
  exists w, In (x, w) P /\ (w = y \/ clos_trans tag (R (drop_from x P)) w y).
Proof.
  intros z y H. apply clos_trans_t1n in H. induction H as [z y H|z u y H _ IH].
  - destruct (tag_eqb z x) eqn:E.
    + apply tag_eqb_eq in E. subst. right. exists y. auto.
    + apply tag_eqb_neq in E. left. apply t_step. apply In_drop_from. auto.
  - destruct IH as [IH|IH]; auto.
    destruct (tag_eqb z x) eqn:E.
    + apply tag_eqb_eq in E. subst. right. exists u. auto.
    + apply tag_eqb_neq in E. left. eapply t_trans; [|exact IH]. apply t_step. apply In_drop_from. auto.
Qed.

Lemma no_start P x y : ~ clos_trans tag (R (drop_from x P)) x y.
Proof.
  intros H. apply clos_trans_t1n in H.
  destruct H as [y H|u y H _]; apply In_drop_from in H; destruct H; congruence.
Qed.

Lemma first_step_from P x y : clos_trans tag (R P) x y ->
  exists w, In (x, w) P /\ (w = y \/ clos_trans tag (R (drop_from x P)) w y).
Proof.
  intros H. destruct (last_departure P x x y H) as [H'|H']; auto. now apply no_start in H'.
Qed.

Lemma filter_length_le' {A} (f : A -> bool) (l : list A) : length (filter f l) <= length l.
Proof. induction l as [|b l IH]; simpl; auto. destruct (f b); simpl; lia. Qed.

Lemma filter_length_lt {A} (f : A -> bool) (l : list A) a :
  In a l -> f a = false -> length (filter f l) < length l.
Proof.
  induction l as [|b l IH]; simpl; [tauto|]. intros [->|H] Hf.
  - rewrite Hf. pose proof (filter_length_le' f l). lia.
  - specialize (IH H Hf). destruct (f b); simpl; lia.
Qed.

Lemma reach_complete : forall fuel P x y,
  length P <= fuel -> clos_trans tag (R P) x y -> reach fuel P x y = true.
Proof.
  induction fuel as [|f IH]; intros P x y Hl H.
  - destruct P; simpl in Hl; [|lia]. apply first_step_from in H. destruct H as [w [[] _]].
  - apply first_step_from in H. destruct H as [w [Hw H]]. simpl.
    apply existsb_exists. exists (x, w). split; auto. simpl. rewrite tag_eqb_refl.
    destruct H as [->|H]; [now rewrite tag_eqb_refl|].
    destruct (tag_eqb w y); auto. apply IH; auto.
    assert (length (drop_from x P) < length P).
    { apply (filter_length_lt _ P (x, w)); auto. simpl. now rewrite tag_eqb_refl. }
    fold (drop_from x P). lia.
Qed.

Theorem tc_dec_spec P x y : tc_dec P x y = true <-> clos_trans tag (R P) x y.
Proof.
  split; [apply reach_sound|]. apply reach_complete. auto.
Qed.

Section LookupProofs.
  Variable key : Type.
  Variable key_eqb : key -> key -> bool.
  Hypothesis key_eqb_spec : forall a b, key_eqb a b = true <-> a = b.
  Notation s_lookup := (s_lookup key key_eqb).

  Lemma key_eqb_refl a : key_eqb a a = true.
  Proof. now apply key_eqb_spec. Qed.

  Lemma s_lookup_Some k l v : s_lookup k l = Some v -> In (k, v) l.
  Proof.
    induction l as [|[k' v'] l IH]; simpl; [discriminate|].
    destruct (key_eqb k k') eqn:E.
    - apply key_eqb_spec in E. subst. intros H. inversion H. auto.
    - auto.
  Qed.

  Lemma s_lookup_None k l : s_lookup k l = None -> forall v, ~ In (k, v) l.
  Proof.
    induction l as [|[k' v'] l IH]; simpl; [intros _ v []|].
    destruct (key_eqb k k') eqn:E; [discriminate|].
    intros H v [H1|H1].
    - inversion H1. subst. rewrite key_eqb_refl in E. discriminate.
    - eapply IH; eauto.
  Qed.

  Lemma s_lookup_In k l v : In (k, v) l -> exists v', s_lookup k l = Some v'.
  Proof.
    intros H. destruct (s_lookup k l) eqn:E; eauto. exfalso. eapply s_lookup_None; eauto.
  Qed.

  Lemma s_lookup_NoDup k l v : NoDup (map fst l) -> In (k, v) l -> s_lookup k l = Some v.
  Proof.
    induction l as [|[k' v'] l IH]; simpl; [intros _ []|]. intros Hn [H|H].
    - inversion H. subst. now rewrite key_eqb_refl.
    - inversion Hn as [|? ? Hni Hn']. subst.
      destruct (key_eqb k k') eqn:E.
      + apply key_eqb_spec in E. subst. exfalso. apply Hni. apply in_map_iff. exists (k', v). auto.
      + auto.
  Qed.

  Lemma s_lookup_iff k l v : NoDup (map fst l) -> (s_lookup k l = Some v <-> In (k, v) l).
  Proof. intro Hn. split; [apply s_lookup_Some|now apply s_lookup_NoDup]. Qed.

  Lemma NoDup_fst_functional (M : list (key * N)) :
    NoDup (map fst M) -> forall c m m', In (c, m) M -> In (c, m') M -> m = m'.
  Proof.
    intros Hn c m m' H1 H2.
    pose proof (s_lookup_NoDup c M m Hn H1) as E1.
    pose proof (s_lookup_NoDup c M m' Hn H2) as E2. congruence.
  Qed.

End LookupProofs.

Section ResolveProofs.
  Variable key : Type.
  Variable key_eqb : key -> key -> bool.
  Hypothesis key_eqb_spec : forall a b, key_eqb a b = true <-> a = b.
  Variable isa : key -> key -> bool.
  Variable M : list (key * N).
  Variable Pf : list (key * key).
  Variable d : key.

  Notation s_lookup := (s_lookup key key_eqb).
  Notation s_lookup_Some := (s_lookup_Some key key_eqb key_eqb_spec).
  Notation s_lookup_None := (s_lookup_None key key_eqb key_eqb_spec).
  Notation s_lookup_In := (s_lookup_In key key_eqb key_eqb_spec).
  Notation key_eqb_refl := (key_eqb_refl key key_eqb key_eqb_spec).
  Notation matches := (matches key isa M).
  Notation dominates := (dominates key isa Pf).
  Notation dominant := (dominant key isa M Pf).
  Notation resolves := (resolves key isa M Pf d).

  Lemma s_pref_In x y : s_pref key key_eqb Pf x y = true <-> In (x, y) Pf.
  Proof.
    unfold s_pref. rewrite existsb_exists. split.
    - intros [[a b] [H E]]. simpl in E. apply andb_true_iff in E. destruct E as [E1 E2].
      apply key_eqb_spec in E1, E2. now subst.
    - intros H. exists (x, y). split; auto. simpl. now rewrite !key_eqb_refl.
  Qed.

  Lemma s_dominates_spec x y : s_dominates key key_eqb isa Pf x y = true <-> dominates x y.
  Proof.
    unfold s_dominates, Spec.dominates. now rewrite orb_true_iff, s_pref_In.
  Qed.

  Lemma has_method_map c : has_method key M c <-> In c (map fst M).
  Proof.
    unfold has_method. rewrite in_map_iff. split.
    - intros [m H]. exists (c, m). auto.
    - intros [[c' m] [E H]]. simpl in E. subst. eauto.
  Qed.

  Lemma In_cands k c : In c (filter (fun c => isa k c) (map fst M)) <-> matches k c.
  Proof. rewrite filter_In. unfold Spec.matches. now rewrite has_method_map. Qed.

  Lemma s_dominant_spec k c :
    matches k c ->
    (s_dominant key key_eqb isa Pf (filter (fun c => isa k c) (map fst M)) c = true <-> dominant k c).
  Proof.
    intros Hc. unfold s_dominant, Spec.dominant. rewrite forallb_forall. split.
    - intros H. split; auto. intros o Ho Hne. apply In_cands in Ho. apply H in Ho.
      apply orb_true_iff in Ho. destruct Ho as [Ho|Ho].
      + apply key_eqb_spec in Ho. contradiction.
      + now apply s_dominates_spec.
    - intros [_ H] o Ho. apply In_cands in Ho. destruct (key_eqb o c) eqn:E; auto. simpl.
      apply s_dominates_spec. apply H; auto. intros ->. rewrite key_eqb_refl in E. discriminate.
  Qed.

  Theorem resolve_ref_correct k :
    NoDup (map fst M) -> resolves k (resolve_ref key key_eqb isa M Pf d k).
  Proof.
    intros Hn. unfold resolve_ref.
    set (cands := filter (fun c => isa k c) (map fst M)).
    assert (Hc : forall c, In c cands <-> matches k c) by (intros; apply In_cands).
    destruct cands as [|c0 cs] eqn:Ec.
    - assert (Hno : forall c, ~ matches k c). { intros c H. apply Hc in H. destruct H. }
      destruct (s_lookup d M) eqn:E.
      + apply res_default with (m := n); auto. now apply s_lookup_Some.
      + apply res_nomethod; auto. now apply s_lookup_None.
    - rewrite <- Ec in *.
      assert (Hex : exists c, matches k c). { exists c0. apply Hc. rewrite Ec. left. auto. }
      set (L := filter (s_dominant key key_eqb isa Pf cands) cands).
      assert (HL : forall c, In c L <-> dominant k c).
      { intros c. unfold L. rewrite filter_In. split.
        - intros [H1 H2]. apply Hc in H1. unfold cands in H2. now apply s_dominant_spec in H2.
        - intros H. assert (Hm : matches k c) by apply H. split; [now apply Hc|].
          unfold cands. now apply s_dominant_spec. }
      assert (HnL : NoDup L). { unfold L, cands. now repeat apply NoDup_filter. }
      destruct L as [|c1 [|c2 L']] eqn:EL.
      + apply res_ambiguous; auto. intros [c [H _]]. apply HL in H. destruct H.
      + assert (Hd : dominant k c1). { apply HL. left. auto. }
        destruct Hd as [[[m Hm] Hi] Hd'].
        destruct (s_lookup_In _ _ _ Hm) as [v Hv]. rewrite Hv.
        apply res_best with (c := c1).
        * split; [split; [exists m; exact Hm|exact Hi]|exact Hd'].
        * intros c' H. apply HL in H. destruct H as [H|[]]. auto.
        * now apply s_lookup_Some.
      + apply res_ambiguous; auto. intros [c [_ Hu]].
        assert (c1 = c) by (apply Hu, HL; left; auto).
        assert (c2 = c) by (apply Hu, HL; right; left; auto).
        subst. inversion HnL as [|? ? Hni _]. apply Hni. left. auto.
  Qed.

  Theorem resolves_functional k r1 r2 :
    (forall c m m', In (c, m) M -> In (c, m') M -> m = m') ->
    resolves k r1 -> resolves k r2 -> r1 = r2.
  Proof.
    intros HF H1 H2.
    destruct H1 as [c m Hd Hu Hm|m Hno Hm|Hno Hm|[c0 Hc0] Hnu].
    - destruct H2 as [c' m' Hd' _ Hm'|m' Hno' _|Hno' _|_ Hnu'].
      + rewrite (Hu c' Hd') in Hm'. f_equal. eapply HF; eauto.
      + destruct (Hno' c). apply Hd.
      + destruct (Hno' c). apply Hd.
      + destruct Hnu'. eauto.
    - destruct H2 as [c' m' Hd' _ _|m' _ Hm'|_ Hm'|[c0 Hc0] _].
      + destruct (Hno c'). apply Hd'.
      + f_equal. eapply HF; eauto.
      + destruct (Hm' m Hm).
      + destruct (Hno c0 Hc0).
    - destruct H2 as [c' m' Hd' _ _|m' _ Hm'|_ _|[c0 Hc0] _].
      + destruct (Hno c'). apply Hd'.
      + destruct (Hm m' Hm').
      + reflexivity.
      + destruct (Hno c0 Hc0).
    - destruct H2 as [c' m' Hd' Hu' _|m' Hno' _|Hno' _|_ _].
      + destruct Hnu. eauto.
      + destruct (Hno' c0 Hc0).
      + destruct (Hno' c0 Hc0).
      + reflexivity.
  Qed.
End ResolveProofs.

(** the prescription, hence the reference resolution, reads the method table and the
    preferences only as SETS: the order in which methods were added or preferences declared
    is immaterial *)
Section ResolveSets.
  Variable key : Type.
  Variable key_eqb : key -> key -> bool.
  Hypothesis key_eqb_spec : forall a b, key_eqb a b = true <-> a = b.
  Variable isa : key -> key -> bool.
  Variables M1 M2 : list (key * N).
  Variables Pf1 Pf2 : list (key * key).
  Variable d : key.
  Hypothesis HM : forall e, In e M1 <-> In e M2.
  Hypothesis HP : forall e, In e Pf1 <-> In e Pf2.

  Lemma resolves_ext k r : resolves key isa M1 Pf1 d k r -> resolves key isa M2 Pf2 d k r.
  Proof.
    assert (Hm : forall c, matches key isa M1 k c <-> matches key isa M2 k c).
    { intros c. unfold matches, has_method. now setoid_rewrite HM. }
    assert (Hd : forall c, dominant key isa M1 Pf1 k c <-> dominant key isa M2 Pf2 k c).
    { intros c. unfold dominant, dominates. setoid_rewrite Hm. now setoid_rewrite HP. }
    intros H. destruct H as [c m Hc Hu Hin|m Hno Hin|Hno Hin|Hex Hnu].
    - apply res_best with (c := c).
      + now apply Hd.
      + intros c' Hc'. apply Hu. now apply Hd.
      + now apply HM.
    - apply res_default with (m := m).
      + intros c Hc. apply (Hno c). now apply Hm.
      + now apply HM.
    - apply res_nomethod.
      + intros c Hc. apply (Hno c). now apply Hm.
      + intros m Hm'. apply (Hin m). now apply HM.
    - apply res_ambiguous.
      + destruct Hex as [c Hc]. exists c. now apply Hm.
      + intros [c [Hc Hu]]. apply Hnu. exists c. split.
        * now apply Hd.
        * intros c' Hc'. apply Hu. now apply Hd.
  Qed.

  Theorem resolve_ref_sets k :
    NoDup (map fst M1) -> NoDup (map fst M2) ->
    resolve_ref key key_eqb isa M1 Pf1 d k = resolve_ref key key_eqb isa M2 Pf2 d k.
  Proof.
    intros N1 N2.
    apply (resolves_functional key isa M2 Pf2 d k).
    - now apply (NoDup_fst_functional key key_eqb key_eqb_spec).
    - apply resolves_ext. now apply resolve_ref_correct.
    - now apply resolve_ref_correct.
  Qed.
End ResolveSets.

(** the pointwise test of isa? on two vectors, for any test [f] on the elements (it stops at
    the end of the shorter one; the lengths are compared separately) *)
Definition zipall {A} (f : A -> A -> bool) :=
  fix go (xs ys : list A) {struct xs} : bool :=
    match xs, ys with
    | a :: xs', b :: ys' => f a b && go xs' ys'
    | _, _ => true
    end.

Lemma zipall_ext {A} (f g : A -> A -> bool) xs :
  Forall (fun x => forall y, f x y = g x y) xs -> forall ys, zipall f xs ys = zipall g xs ys.
Proof. induction 1 as [|x xs Hx _ IH]; intros [|y ys]; simpl; auto. now rewrite Hx, IH. Qed.

Lemma zipall_Forall2 {A} (f : A -> A -> bool) (Q : A -> A -> Prop) xs :
  Forall (fun x => forall y, f x y = true <-> Q x y) xs ->
  forall ys, (Nat.eqb (length xs) (length ys) && zipall f xs ys = true) <-> Forall2 Q xs ys.
Proof.
  induction 1 as [|x xs Hx _ IH]; intros [|y ys]; simpl.
  - split; auto.
  - split; [discriminate|]. intros H. inversion H.
  - split; [discriminate|]. intros H. inversion H.
  - specialize (IH ys). split.
    + intros H. apply andb_true_iff in H. destruct H as [Hl H].
      apply andb_true_iff in H. destruct H as [Hxy H]. constructor.
      * now apply Hx.
      * apply IH. now rewrite Hl, H.
    + intros H. inversion H; subst. apply IH in H5. apply andb_true_iff in H5. destruct H5 as [Hl Hg].
      rewrite Hl, Hg. simpl. rewrite andb_true_r. now apply Hx.
Qed.

Section IsaProofs.
  Variable supers : N -> list N.
  Hypothesis supers_trans : forall a s s', In s (supers a) -> In s' (supers s) -> In s' (supers a).

  Definition atom (x : tag) : Prop := forall l, x <> V l.

  Lemma atom_K n : atom (K n). Proof. intros l. discriminate. Qed.
  Lemma atom_C n : atom (C n). Proof. intros l. discriminate. Qed.
  Lemma ident_atom x : is_ident x = true -> atom x.
  Proof. destruct x; simpl; try discriminate. Qed.

  Lemma tc_source P x y : wf_pairs P -> clos_trans tag (R P) x y -> (is_ident x || is_class x) = true.
  Proof.
    intros Hwf H. induction H; auto. now apply Hwf in H.
  Qed.

  Lemma tc_edge P x y : clos_trans tag (R P) x y -> clos_refl_trans tag (edge supers P) x y.
  Proof.
    intros H. induction H.
    - apply rt_step. left. exact H.
    - eapply rt_trans; eauto.
  Qed.

  Lemma isa_ref_b_K P n y : isa_ref_b supers P (K n) y = tag_eqb (K n) y || tc_dec P (K n) y.
  Proof. reflexivity. Qed.
  Lemma isa_ref_b_C P a y :
    isa_ref_b supers P (C a) y =
    tag_eqb (C a) y || (tc_dec P (C a) y
                        || existsb (fun s => tag_eqb (C s) y || tc_dec P (C s) y) (supers a)).
  Proof. reflexivity. Qed.

  Lemma isa_ref_b_V P xs y :
    isa_ref_b supers P (V xs) y =
    tag_eqb (V xs) y || match y with
                        | V ys => Nat.eqb (length xs) (length ys) && zipall (isa_ref_b supers P) xs ys
                        | _ => false
                        end.
  Proof. reflexivity. Qed.

  Lemma isa_ref_b_atoms_sound P x y :
    atom x -> isa_ref_b supers P x y = true -> clos_refl_trans tag (edge supers P) x y.
  Proof.
    intros Hx H. destruct x as [n|a|l]; [| |exfalso; now apply (Hx l)].
    - rewrite isa_ref_b_K in H. apply orb_true_iff in H. destruct H as [H|H].
      + apply tag_eqb_eq in H. subst. apply rt_refl.
      + apply tc_dec_spec in H. now apply tc_edge.
    - rewrite isa_ref_b_C in H. apply orb_true_iff in H. destruct H as [H|H].
      { apply tag_eqb_eq in H. subst. apply rt_refl. }
      apply orb_true_iff in H. destruct H as [H|H].
      { apply tc_dec_spec in H. now apply tc_edge. }
      apply existsb_exists in H. destruct H as [s [Hs H]].
      assert (E : edge supers P (C a) (C s)). { right. exists a, s. auto. }
      apply orb_true_iff in H. destruct H as [H|H].
      + apply tag_eqb_eq in H. subst. now apply rt_step.
      + apply tc_dec_spec in H. eapply rt_trans; [apply rt_step; exact E|now apply tc_edge].
  Qed.

  Lemma isa_ref_b_edge P x z y :
    wf_pairs P -> edge supers P x z -> isa_ref_b supers P z y = true -> isa_ref_b supers P x y = true.
  Proof.
    intros Hwf [E|[a [s [-> [-> Hs]]]]] H.
    - destruct (Hwf _ _ E) as [Hz Hx]. destruct z as [n| |]; try discriminate.
      rewrite isa_ref_b_K in H. assert (T : tc_dec P x y = true).
      { apply tc_dec_spec. apply orb_true_iff in H. destruct H as [H|H].
        - apply tag_eqb_eq in H. subst. now apply t_step.
        - apply tc_dec_spec in H. eapply t_trans; [apply t_step; exact E|exact H]. }
      destruct x as [m|a|l]; try discriminate.
      + rewrite isa_ref_b_K, T. apply orb_true_r.
      + rewrite isa_ref_b_C, T. simpl. apply orb_true_r.
    - rewrite isa_ref_b_C in *. apply orb_true_iff. right. apply orb_true_iff. right.
      apply existsb_exists.
      apply orb_true_iff in H. destruct H as [H|H]; [exists s; split; auto; now rewrite H|].
      apply orb_true_iff in H. destruct H as [H|H]; [exists s; split; auto; rewrite H; apply orb_true_r|].
      apply existsb_exists in H. destruct H as [s' [Hs' H]]. exists s'. split; eauto.
  Qed.

  Lemma isa_ref_b_refl P x : isa_ref_b supers P x x = true.
  Proof.
    destruct x.
    - now rewrite isa_ref_b_K, tag_eqb_refl.
    - now rewrite isa_ref_b_C, tag_eqb_refl.
    - now rewrite isa_ref_b_V, tag_eqb_refl.
  Qed.

  Lemma isa_ref_b_atoms_complete P x y :
    wf_pairs P -> clos_refl_trans tag (edge supers P) x y -> isa_ref_b supers P x y = true.
  Proof.
    intros Hwf H. apply clos_rt_rt1n in H. induction H as [x|x z y E _ IH].
    - apply isa_ref_b_refl.
    - eapply isa_ref_b_edge; eauto.
  Qed.

  Lemma edge_rt_atom P x y : wf_pairs P -> atom x -> clos_refl_trans tag (edge supers P) x y -> atom y.
  Proof.
    intros Hwf Hx H. apply clos_rt_rtn1 in H. destruct H as [|y z [E|(a & s & _ & -> & _)] _]; auto.
    - apply Hwf in E. now apply ident_atom.
    - apply atom_C.
  Qed.

  Lemma isa_ref_b_atom P x y : wf_pairs P -> atom x ->
    (isa_ref_b supers P x y = true <-> isa_ref supers P x y).
  Proof.
    intros Hwf Hx. split; intro H.
    - pose proof (isa_ref_b_atoms_sound P x y Hx H) as E.
      apply isa_atom; [exact Hx|exact (edge_rt_atom P x y Hwf Hx E)|exact E].
    - destruct H as [x y _ _ E|xs ys _]; [now apply isa_ref_b_atoms_complete|now destruct (Hx xs)].
  Qed.

  Theorem isa_ref_b_spec P : wf_pairs P ->
    forall x y, isa_ref_b supers P x y = true <-> isa_ref supers P x y.
  Proof.
    intros Hwf. induction x as [n|a|xs IH] using tag_ind'; intros y.
    - apply isa_ref_b_atom; [exact Hwf|apply atom_K].
    - apply isa_ref_b_atom; [exact Hwf|apply atom_C].
    - rewrite isa_ref_b_V. split.
      + intros H. apply orb_true_iff in H. destruct H as [H|H].
        * apply tag_eqb_eq in H. subst y. apply isa_vec.
          assert (G : Nat.eqb (length xs) (length xs) && zipall (isa_ref_b supers P) xs xs = true).
          { rewrite Nat.eqb_refl. simpl. clear IH. induction xs; simpl; auto.
            now rewrite isa_ref_b_refl, IHxs. }
          now apply (zipall_Forall2 _ (isa_ref supers P) xs IH xs).
        * destruct y as [| |ys]; try discriminate. apply isa_vec.
          now apply (zipall_Forall2 _ (isa_ref supers P) xs IH ys).
      + intros H. inversion H as [? ? Hx _ _|? ys HF]; subst.
        * exfalso. now apply (Hx xs).
        * apply orb_true_iff. right. now apply (zipall_Forall2 _ (isa_ref supers P) xs IH ys).
  Qed.
End IsaProofs.
