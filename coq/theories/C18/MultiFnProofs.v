(** C18 proofs about MultiFn.v, generic in the dispatch values and the hierarchy:
    the dispatch cache is transparent ([cache_ok] is established by every mutator, kept by
    every call, and under it a call returns what a from-scratch search returns); the search
    computes the reference resolution of the specification, hence does not depend on the
    order of the method table; a call computes it too whenever the exact dispatch value is
    not dominated by another matching key. *)
From Coq Require Import List Bool NArith Permutation.
Import ListNotations.
From Verif Require Import C18.MultiFn C18.Spec C18.SpecProofs.

Section MultiFnProofs.
  Variables key H : Type.
  Variable key_eqb : key -> key -> bool.
  Variable isa : H -> key -> key -> bool.
  Variable Heqb : H -> H -> bool.
  Hypothesis key_eqb_spec : forall a b, key_eqb a b = true <-> a = b.
  Hypothesis Heqb_isa : forall h1 h2, Heqb h1 h2 = true -> forall x y, isa h1 x y = isa h2 x y.

  Notation lookup := (@lookup key key_eqb N).
  Notation remove_key := (@remove_key key key_eqb N).
  Notation has_pref := (has_pref key key_eqb).
  Notation precedes := (precedes key H key_eqb isa).
  Notation matching := (matching key H isa).
  Notation best := (best key H key_eqb isa).
  Notation find := (find key H key_eqb isa).
  Notation fresh := (fresh key H key_eqb isa).
  Notation call := (call key H key_eqb isa Heqb).
  Notation sync := (sync key H Heqb).
  Notation reset := (reset key H).
  Notation mfn := (mfn key H).
  Notation world := (world key H).

  Lemma keqb_refl a : key_eqb a a = true.
  Proof. exact (key_eqb_refl key key_eqb key_eqb_spec a). Qed.

  Lemma lookup_is_s_lookup k l : lookup k l = s_lookup key key_eqb k l.
  Proof. induction l as [|[k' v] l IH]; simpl; auto. now rewrite IH. Qed.

  Lemma forallb_ext' {A} (f g : A -> bool) l : (forall x, f x = g x) -> forallb f l = forallb g l.
  Proof. intros E. induction l; simpl; auto. now rewrite E, IHl. Qed.

  Lemma find_ext h1 h2 (m : mfn) k :
    (forall x y, isa h1 x y = isa h2 x y) -> find h1 m k = find h2 m k.
  Proof.
    intros E. unfold MultiFn.find, MultiFn.matching, MultiFn.best, MultiFn.precedes.
    rewrite (filter_ext _ (fun e => isa h2 k (fst e))) by (intros; apply E).
    set (c := filter _ (methods m)).
    rewrite (filter_ext _ (fun e => forallb (fun o => has_pref (prefs m) (fst e) (fst o) || isa h2 (fst e) (fst o)) c));
      [reflexivity|].
    intros e. apply forallb_ext'. intros o. now rewrite E.
  Qed.

  Lemma fresh_ext h1 h2 (m : mfn) k :
    (forall x y, isa h1 x y = isa h2 x y) -> fresh h1 m k = fresh h2 m k.
  Proof. intros E. unfold MultiFn.fresh. destruct (lookup k (methods m)); auto. now apply find_ext. Qed.

  Lemma fresh_same h (m m' : mfn) k :
    methods m = methods m' -> prefs m = prefs m' -> dflt m = dflt m' -> fresh h m k = fresh h m' k.
  Proof.
    intros E1 E2 E3. unfold MultiFn.fresh, MultiFn.find. now rewrite E1, E2, E3.
  Qed.

  Definition cache_ok (m : mfn) : Prop :=
    (forall k v, lookup k (cache m) = Some v -> fresh (cached_h m) m k = RMethod v) /\
    (forall k, lookup k (cache m) = None -> lookup k (methods m) = None).

  Lemma reset_ok (w : world) : cache_ok (mf (reset w)).
  Proof.
    split; simpl.
    - intros k v E. unfold MultiFn.fresh. simpl. now rewrite E.
    - auto.
  Qed.

  Lemma new_ok h d : cache_ok (mf_new key H h d).
  Proof. split; simpl; auto. discriminate. Qed.

  (** what does not depend on the cache *)
  Definition core (w : world) : H * list (key * N) * list (key * key) * key :=
    (w_hier w, methods (mf w), prefs (mf w), dflt (mf w)).

  Lemma sync_props (w : world) :
    cache_ok (mf w) ->
    cache_ok (mf (sync w)) /\ core (sync w) = core w /\
    (forall x y, isa (cached_h (mf (sync w))) x y = isa (w_hier w) x y).
  Proof.
    intros Hc. unfold MultiFn.sync. destruct (Heqb (cached_h (mf w)) (w_hier w)) eqn:E.
    - split; [exact Hc|]. split; [reflexivity|]. intros. now apply Heqb_isa.
    - split; [apply reset_ok|]. split; auto.
  Qed.

  Lemma call_hier k (w : world) : w_hier (snd (call k w)) = w_hier w.
  Proof.
    assert (S : w_hier (sync w) = w_hier w) by (unfold MultiFn.sync; now destruct (Heqb _ _)).
    unfold MultiFn.call. fold (sync w). rewrite <- S.
    destruct (lookup k (cache (mf (sync w)))); [reflexivity|]. now destruct (find _ _ k).
  Qed.

  Theorem call_transparent k (w : world) :
    cache_ok (mf w) ->
    fst (call k w) = fresh (w_hier w) (mf w) k /\
    cache_ok (mf (snd (call k w))) /\
    core (snd (call k w)) = core w.
  Proof.
    intros Hc. destruct (sync_props w Hc) as [Hs [Hcore Hisa]].
    unfold MultiFn.call. fold (sync w). set (w1 := sync w) in *.
    pose proof Hcore as Hc4. unfold core in Hc4. injection Hc4 as Eh Em Ep Ed.
    assert (F : forall k', fresh (cached_h (mf w1)) (mf w1) k' = fresh (w_hier w) (mf w) k').
    { intros k'. rewrite (fresh_ext _ (w_hier w)) by exact Hisa. now apply fresh_same. }
    destruct Hs as [Hs1 Hs2].
    destruct (lookup k (cache (mf w1))) as [v|] eqn:El.
    - simpl. split; [|split; auto; now split].
      apply Hs1 in El. rewrite F in El. congruence.
    - assert (Ff : fresh (w_hier w) (mf w) k = find (w_hier w1) (mf w1) k).
      { rewrite <- F. unfold MultiFn.fresh. rewrite (Hs2 k El).
        apply find_ext. intros. rewrite Hisa. now rewrite Eh. }
      destruct (find (w_hier w1) (mf w1) k) as [v| | |] eqn:Ef; simpl;
        try (split; [congruence|split; [now split|exact Hcore]]).
      split; [congruence|]. split; [|unfold core in *; simpl; congruence].
      split; simpl.
      + intros k' v'. destruct (key_eqb k' k) eqn:Ek.
        * apply key_eqb_spec in Ek. subst k'. intros E. inversion E; subst v'.
          rewrite <- (fresh_same (cached_h (mf w1)) (mf w1)) by reflexivity.
          rewrite F. congruence.
        * intros E. apply Hs1 in E.
          now rewrite <- (fresh_same (cached_h (mf w1)) (mf w1)) by reflexivity.
      + intros k'. destruct (key_eqb k' k); [discriminate|]. apply Hs2.
  Qed.

  Hypothesis isa_refl : forall h x, isa h x x = true.

  Lemma filter_map_fst (f : key -> bool) (l : list (key * N)) :
    filter f (map fst l) = map fst (filter (fun e => f (fst e)) l).
  Proof. induction l as [|a l IH]; simpl; auto. destruct (f (fst a)); simpl; now rewrite IH. Qed.

  Lemma forallb_map_fst (f : key -> bool) (l : list (key * N)) :
    forallb f (map fst l) = forallb (fun e => f (fst e)) l.
  Proof. induction l as [|a l IH]; simpl; auto. now rewrite IH. Qed.

  Lemma s_dominant_is_best h pf (cands : list (key * N)) c :
    s_dominant key key_eqb (isa h) pf (map fst cands) c
    = forallb (fun o => precedes h pf c (fst o)) cands.
  Proof.
    unfold s_dominant. rewrite forallb_map_fst. apply forallb_ext'. intros o.
    unfold MultiFn.precedes, s_dominates, s_pref, MultiFn.has_pref.
    destruct (key_eqb (fst o) c) eqn:E; auto. apply key_eqb_spec in E. subst c.
    now rewrite isa_refl, orb_true_r.
  Qed.

  Lemma NoDup_fst_filter (f : key * N -> bool) l : NoDup (map fst l) -> NoDup (map fst (filter f l)).
  Proof.
    induction l as [|a l IH]; simpl; auto. intros Hn. inversion Hn as [|? ? Hni Hn']; subst.
    destruct (f a); simpl; auto. constructor; auto.
    intros Hin. apply Hni. apply in_map_iff in Hin. destruct Hin as [e [E Hin]].
    apply filter_In in Hin. apply in_map_iff. exists e. tauto.
  Qed.

  Theorem find_is_resolve_ref h (m : mfn) k :
    NoDup (map fst (methods m)) ->
    find h m k = resolve_ref key key_eqb (isa h) (methods m) (prefs m) (dflt m) k.
  Proof.
    intros Hn. unfold MultiFn.find, resolve_ref. cbv zeta.
    rewrite filter_map_fst. fold (matching h (methods m) k).
    set (c := matching h (methods m) k).
    assert (Hb : filter (s_dominant key key_eqb (isa h) (prefs m) (map fst c)) (map fst c)
                 = map fst (best h (prefs m) c)).
    { rewrite filter_map_fst. f_equal. unfold MultiFn.best. apply filter_ext.
      intros e. apply s_dominant_is_best. }
    rewrite Hb. rewrite <- !lookup_is_s_lookup.
    assert (Hsub : forall e, In e (best h (prefs m) c) -> In e (methods m)).
    { intros e Hi. unfold MultiFn.best in Hi. apply filter_In in Hi. destruct Hi as [Hi _].
      unfold c, MultiFn.matching in Hi. apply filter_In in Hi. apply Hi. }
    destruct c as [|a c']; [reflexivity|]. simpl map at 1.
    destruct (best h (prefs m) (a :: c')) as [|e [|e' l]] eqn:Eb; simpl; auto.
    destruct e as [ek ev]. simpl.
    rewrite (s_lookup_NoDup key key_eqb key_eqb_spec ek (methods m) ev Hn); auto.
    apply Hsub. left. auto.
  Qed.

  Lemma Permutation_filter' {A} (f : A -> bool) l1 l2 :
    Permutation l1 l2 -> Permutation (filter f l1) (filter f l2).
  Proof.
    induction 1; simpl; auto.
    - destruct (f x); auto.
    - destruct (f x), (f y); auto. apply perm_swap.
    - eapply perm_trans; eauto.
  Qed.

  Lemma perm_NoDup_fst (l1 l2 : list (key * N)) :
    Permutation l1 l2 -> NoDup (map fst l1) -> NoDup (map fst l2).
  Proof. intros Hp. apply Permutation_NoDup. now apply Permutation_map. Qed.

  Lemma lookup_perm k (l1 l2 : list (key * N)) :
    Permutation l1 l2 -> NoDup (map fst l1) -> lookup k l1 = lookup k l2.
  Proof.
    intros Hp Hn. rewrite !lookup_is_s_lookup. pose proof (perm_NoDup_fst _ _ Hp Hn) as Hn2.
    destruct (s_lookup key key_eqb k l1) as [v|] eqn:E1.
    - symmetry. apply (s_lookup_iff key key_eqb key_eqb_spec) in E1; auto.
      apply (s_lookup_iff key key_eqb key_eqb_spec); auto. now apply (Permutation_in _ Hp).
    - destruct (s_lookup key key_eqb k l2) as [v|] eqn:E2; auto.
      apply (s_lookup_iff key key_eqb key_eqb_spec) in E2; auto.
      apply (Permutation_in _ (Permutation_sym Hp)), (s_lookup_iff key key_eqb key_eqb_spec) in E2; auto.
      congruence.
  Qed.

  (** the search is the reference resolution, which reads the table as a set *)
  Theorem fresh_perm h (m1 m2 : mfn) k :
    Permutation (methods m1) (methods m2) -> NoDup (map fst (methods m1)) ->
    prefs m1 = prefs m2 -> dflt m1 = dflt m2 ->
    fresh h m1 k = fresh h m2 k.
  Proof.
    intros Hp Hn Epf Ed. unfold MultiFn.fresh.
    rewrite (lookup_perm k _ _ Hp Hn). destruct (lookup k (methods m2)); [reflexivity|].
    rewrite !find_is_resolve_ref, Epf, Ed by eauto using perm_NoDup_fst.
    apply (resolve_ref_sets key key_eqb key_eqb_spec); eauto using perm_NoDup_fst; try tauto.
    intros e. split; apply Permutation_in; auto using Permutation_sym.
  Qed.

  (** the exact dispatch value has a method and no other matching key dominates it: [Spec.s_guard]
      for any key type ([Proofs.exact_ok_guard] identifies the two) *)
  Definition exact_ok h (m : mfn) (k : key) : bool :=
    match lookup k (methods m) with
    | None => true
    | Some _ =>
        forallb (fun c => key_eqb c k || negb (s_dominates key key_eqb (isa h) (prefs m) c k))
                (filter (fun c => isa h k c) (map fst (methods m)))
    end.

  (** the exact key is then the unique dominant key, so the prescription fixes the answer *)
  Theorem fresh_is_resolve_ref h (m : mfn) k :
    NoDup (map fst (methods m)) -> exact_ok h m k = true ->
    fresh h m k = resolve_ref key key_eqb (isa h) (methods m) (prefs m) (dflt m) k.
  Proof.
    intros Hn Hg. unfold MultiFn.fresh, exact_ok in *.
    destruct (lookup k (methods m)) as [v|] eqn:El; [|now apply find_is_resolve_ref].
    rewrite lookup_is_s_lookup in El. apply (s_lookup_Some key key_eqb key_eqb_spec) in El.
    assert (Mk : matches key (isa h) (methods m) k k) by (split; [now exists v|apply isa_refl]).
    apply (resolves_functional key (isa h) (methods m) (prefs m) (dflt m) k);
      [now apply (NoDup_fst_functional key key_eqb key_eqb_spec)| |now apply resolve_ref_correct].
    apply res_best with (c := k); [| |exact El].
    - split; [exact Mk|]. intros o Ho _. right. apply Ho.
    - intros c [Mc Dc]. destruct (key_eqb c k) eqn:Ec; [now apply key_eqb_spec|]. exfalso.
      rewrite forallb_forall in Hg. apply In_cands, Hg in Mc. rewrite Ec in Mc. apply negb_true_iff in Mc.
      assert (D : dominates key (isa h) (prefs m) c k).
      { apply Dc; [exact Mk|]. intros ->. rewrite keqb_refl in Ec. discriminate. }
      apply (s_dominates_spec key key_eqb key_eqb_spec) in D. congruence.
  Qed.
End MultiFnProofs.
