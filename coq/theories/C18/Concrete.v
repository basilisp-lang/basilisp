(** C18: concrete witnesses (computed by vm_compute) over the class environment of the
    correspondence harness: refutations of the clauses the code violates today (F-18d), the
    historical refutations of the three repaired findings (on the pre-repair functions kept
    in Hierarchy.v / MultiFn.v), and non-vacuity examples for the guarded theorems. *)
From Coq Require Import List Bool NArith Permutation.
Import ListNotations.
From Verif Require Import C18.HierarchyProofs C18.Corr.
Local Open Scope N_scope.

Lemma c_sub_spec : forall a b, c_sub a b = true <-> a = b \/ In b (c_supers a).
Proof.
  intros a b. unfold c_sub. rewrite orb_true_iff, N.eqb_eq, existsb_exists. split.
  - intros [H|[x [H E]]]; auto. apply N.eqb_eq in E. subst. auto.
  - intros [H|H]; auto. right. exists b. split; auto. apply N.eqb_refl.
Qed.

(* only the classes 1, 2, 3 have superclasses: enumerate them (on the binary digits of [a]) *)
Lemma c_supers_trans : forall a s s', In s (c_supers a) -> In s' (c_supers s) -> In s' (c_supers a).
Proof.
  intros a s s' H1 H2.
  destruct a as [|[[q|q|]|[q|q|]|]]; simpl in H1; try contradiction;
    repeat (destruct H1 as [H1|H1]; [subst s; simpl in H2|]); try contradiction;
    simpl; intuition.
Qed.

Definition kx := K 1.
Definition ka := K 2.
Definition kb := K 3.
Definition kc := K 4.
Definition kd := K 5.

Definition mk_hier (l : list hop) : hier := fold_left hstep l make_hierarchy.
Definition mk_mfn (h : hier) ms pf : mfn tag hier :=
  {| methods := ms; prefs := pf; cache := ms; cached_h := h; dflt := K 0 |}.

Notation c_isa := (isa c_supers c_sub).
Notation c_find := (find tag hier tag_eqb c_isa).
Notation c_find_legacy := (find_legacy tag hier tag_eqb c_isa).

(** ** F-18d (open): an exact key wins although a declared preference dominates it *)
Definition ops_f18d : list op :=
  [ODerive kx ka; OAdd ka 1; OAdd kx 2; OPrefer ka kx; OCall kx].

Lemma choice_refuted :
  exists ops d, fst (run c_supers c_sub id_shuffle (init d) ops) <> fst (s_run c_supers (s_init d) ops).
Proof. exists ops_f18d, (K 0). vm_compute. discriminate. Qed.

Lemma choice_refuted_detail :
  fst (run c_supers c_sub id_shuffle (init (K 0)) ops_f18d) = [SOk; SOk; SOk; SOk; SRes (RMethod 2)]
  /\ fst (s_run c_supers (s_init (K 0)) ops_f18d) = [SOk; SOk; SOk; SOk; SRes RAmbiguous]
  /\ s_guard_run c_supers (s_init (K 0)) ops_f18d = false.
Proof. vm_compute. auto. Qed.

(** the guard of [choice_partial] holds on histories with inheritance, preferences, ambiguity
    and classes *)
Definition ops_guarded : list op :=
  [ODerive kx ka; ODerive kx kb; OAdd ka 1; OAdd kb 2; OCall kx; OPrefer ka kb; OCall kx;
   ODerive (C 1) kc; OAdd kc 3; OCall (C 2); OUnderive kx ka; OCall kx; OCall kd].

Lemma choice_guard_nontrivial :
  s_guard_run c_supers (s_init (K 0)) ops_guarded = true
  /\ fst (s_run c_supers (s_init (K 0)) ops_guarded)
     = [SOk; SOk; SOk; SOk; SRes RAmbiguous; SOk; SRes (RMethod 1); SOk; SOk; SRes (RMethod 3);
        SOk; SRes (RMethod 2); SRes RNoMethod].
Proof. vm_compute. auto. Qed.

(** ** F-18b (repaired): the single pass of the pinned tree follows the table's order *)
Definition h_f18b := mk_hier [HDerive kx ka; HDerive kx kb; HDerive kx kc].
Definition pf_f18b := [(ka, kb); (kb, kc)].

Lemma legacy_single_pass_order_dependent :
  Permutation [(kc, 3); (kb, 2); (ka, 1)] [(ka, 1); (kb, 2); (kc, 3)]
  /\ c_find_legacy h_f18b (mk_mfn h_f18b [(kc, 3); (kb, 2); (ka, 1)] pf_f18b) kx = RMethod 1
  /\ c_find_legacy h_f18b (mk_mfn h_f18b [(ka, 1); (kb, 2); (kc, 3)] pf_f18b) kx = RAmbiguous
  /\ c_find h_f18b (mk_mfn h_f18b [(kc, 3); (kb, 2); (ka, 1)] pf_f18b) kx = RAmbiguous
  /\ c_find h_f18b (mk_mfn h_f18b [(ka, 1); (kb, 2); (kc, 3)] pf_f18b) kx = RAmbiguous.
Proof.
  split.
  - apply (Permutation_rev [(kc, 3); (kb, 2); (ka, 1)]).
  - vm_compute. auto.
Qed.

(** a diamond without any preference: x < d < b, c with methods on b, c, d *)
Definition h_diamond := mk_hier [HDerive kx kd; HDerive kd kb; HDerive kd kc].

Lemma legacy_single_pass_diamond :
  c_find_legacy h_diamond (mk_mfn h_diamond [(kd, 3); (kb, 1); (kc, 2)] []) kx = RMethod 3
  /\ c_find_legacy h_diamond (mk_mfn h_diamond [(kb, 1); (kc, 2); (kd, 3)] []) kx = RAmbiguous
  /\ c_find h_diamond (mk_mfn h_diamond [(kb, 1); (kc, 2); (kd, 3)] []) kx = RMethod 3.
Proof. vm_compute. auto. Qed.

(** ** F-18a (repaired): isa? on vectors of different length *)
Lemma legacy_isa_vector_truncates :
  isa_legacy c_supers c_sub make_hierarchy (V [ka]) (V [ka; kb]) = true
  /\ isa_legacy c_supers c_sub make_hierarchy (V []) (V [ka]) = true
  /\ c_isa make_hierarchy (V [ka]) (V [ka; kb]) = false
  /\ c_isa make_hierarchy (V []) (V [ka]) = false.
Proof. vm_compute. auto. Qed.

(** ** F-18c (repaired): B subclasses A, A derives :a, but B was not isa? :a *)
Definition h_f18c := mk_hier [HDerive (C 1) ka].

Lemma legacy_class_isa_not_transitive :
  isa_legacy c_supers c_sub h_f18c (C 2) (C 1) = true
  /\ isa_legacy c_supers c_sub h_f18c (C 1) ka = true
  /\ isa_legacy c_supers c_sub h_f18c (C 2) ka = false
  /\ c_isa h_f18c (C 2) ka = true.
Proof. vm_compute. auto. Qed.
