(** Generator model for the loop extension (generator.py: _loop_to_py_ast,
    __loop_recur_to_py_ast on top of the first-order core of C01/Gen.v). *)
From Coq Require Import List NArith Bool.
Import ListNotations.
From Verif Require Import C01L.LLisp C01L.LPy.
From Verif Require C01.Gen.
Local Open Scope N_scope.

Definition senv := N -> option pname.
Definition atomic := Verif.C01.Gen.atomic.

Definition lquiet_with (q : lstmt -> bool) : list lstmt -> bool :=
  fix go (l : list lstmt) : bool := match l with [] => true | s :: r => q s && go r end.

(** statements whose execution has no effect but assignments of atoms (no call, no jump) *)
Fixpoint lquiet1 (s : lstmt) : bool :=
  match s with
  | LAssign _ e | LExpr e => atomic e
  | LSIf _ fb tb => lquiet_with lquiet1 fb && lquiet_with lquiet1 tb
  | _ => false
  end.
Definition lquiet := lquiet_with lquiet1.

Definition lout := (list lstmt * pexpr * N * bool)%type.

Definition lgen_args (g : N -> lexpr -> lout) : list lexpr -> N -> list lstmt * list pexpr * N * bool :=
  fix go (l : list lexpr) (n : N) :=
    match l with
    | [] => ([], [], n, true)
    | a :: r =>
        let '(d, e, n1, k1) := g n a in
        let '(ds, es, n2, k2) := go r n1 in
        (d ++ ds, e :: es, n2, k1 && k2 && (atomic e || lquiet ds))
    end.

Definition assign_all (names : list pname) (es : list pexpr) : lstmt :=
  match names, es with
  | [x], [e1] => LAssign x e1
  | _, _ => LAssignTuple names es
  end.

(** loop binders pairwise distinct (the guard of the theorem; `(loop* [x 1 x 2] ...)` is legal
    but outside it) *)
Fixpoint nodupb (l : list N) : bool :=
  match l with [] => true | x :: r => negb (existsb (N.eqb x) r) && nodupb r end.

Definition lgen_binds_with (g : senv -> N -> lexpr -> lout)
  : list (N * lexpr) -> senv -> N -> list lstmt * list pname * senv * N * bool :=
  fix go (l : list (N * lexpr)) (sg : senv) (n : N) :=
    match l with
    | [] => ([], [], sg, n, true)
    | (x, i) :: r =>
        let '(di, ei, n1, k1) := g sg n i in
        let p := NLocal x n1 in
        let '(ds, ps, sg2, n2, k2) := go r (upd sg x p) (n1 + 1) in
        (di ++ [LAssign p ei] ++ ds, p :: ps, sg2, n2, k1 && k2)
    end.

(** [lp] = Python names of the locals of the innermost enclosing loop (the recur point) *)
Fixpoint lgen (sg : senv) (lp : list pname) (n : N) (e : lexpr) : lout :=
  match e with
  | LConst v => ([], PConst v, n, true)
  | LLocal x => ([], PName (match sg x with Some p => p | None => NLocal x 0 end), n, true)
  | LIf c t e =>
      let '(dc, ec, n1, k1) := lgen sg lp n c in
      let test := NTemp n1 in
      let res := NTemp (n1 + 1) in
      let '(dt, et, n2, k2) := lgen sg lp (n1 + 2) t in
      let '(de, ee, n3, k3) := lgen sg lp n2 e in
      (dc ++ [LAssign test ec; LSIf test (de ++ [LAssign res ee]) (dt ++ [LAssign res et])],
       PName res, n3, k1 && k2 && k3)
  | LDo s r =>
      let '(ds, es, n1, k1) := lgen sg lp n s in
      let '(dr, er, n2, k2) := lgen sg lp n1 r in
      (ds ++ [LExpr es] ++ dr, er, n2, k1 && k2)
  | LLet x i b =>
      let '(di, ei, n1, k1) := lgen sg lp n i in
      let p := NLocal x n1 in
      let '(db, eb, n2, k2) := lgen (upd sg x p) lp (n1 + 1) b in
      (di ++ [LAssign p ei] ++ db, eb, n2, k1 && k2)
  | LCall f args =>
      let '(ds, es, n', k) := lgen_args (fun n a => lgen sg lp n a) args n in
      (ds, PCall f es, n', k)
  | LLoop binds body =>
      let res := NTemp n in
      let '(dbs, names, sg1, n1, k1) := lgen_binds_with (fun sg n i => lgen sg lp n i) binds sg (n + 1) in
      let '(db, eb, n2, k2) := lgen sg1 names n1 body in
      ([LAssign res (PConst VNil)] ++ dbs ++ [LWhile (db ++ [LAssign res eb; LBreak])], PName res, n2,
       k1 && k2 && nodupb (map fst binds))
  | LRecur args =>
      let '(ds, es, n', k) := lgen_args (fun n a => lgen sg lp n a) args n in
      (ds ++ [assign_all lp es; LContinue], PConst VNil, n', k)
  end.

Definition hazard_free (e : lexpr) : bool :=
  let '(_, _, _, k) := lgen (fun _ => None) [] 0 e in k.

Definition lrun (fuel : nat) (e : lexpr) : option (value * trace) :=
  let '(d, pe, _, _) := lgen (fun _ => None) [] 0 e in
  match lexec fuel (fun _ => None) d with
  | Some (Normal, F, t1) => match peval F pe with Some (v, t2) => Some (v, t1 ++ t2) | None => None end
  | _ => None
  end.
