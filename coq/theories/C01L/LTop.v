(** Whole-program theorem for the first-order core with loop*/recur. *)
From Coq Require Import List ZArith.
Import ListNotations.
From Verif Require C01X.XCore.
From Verif Require Import C01.Sim C01L.LLisp C01L.LGen C01L.LEmb C01L.LSim.
Local Open Scope N_scope.

(** If the evaluation rules give a value and a trace for a closed hazard-free program, then
    for every sufficiently large fuel the compiled code yields exactly them: loop locals are
    rebound simultaneously by recur, each iteration of the source loop is one iteration of
    `while True`, effects happen in source order. *)
Theorem lcompile_correct fuel e v tr :
  leval fuel (fun _ => None) e = Some (OVal v, tr) -> hazard_free e = true ->
  exists m, forall m', (m <= m')%nat -> lrun m' e = Some (v, tr).
Proof.
  intros He Hh. unfold hazard_free, lrun in *.
  destruct (lgen (fun _ => None) [] 0 e) as [[[d pe] n'] k] eqn:G. subst k.
  destruct (lsim_all fuel e _ _ _ _ _ _ _ _ _ _ XCore.inv_empty He G) as (_ & m & F' & t1 & t2 & X & P & T & _).
  exists m. intros m' Hm. rewrite (lexec_mono m m' _ _ _ Hm X), P, T. reflexivity.
Qed.

(** recur rebinds all loop locals simultaneously: (loop* [a 1 b 2 c nil] (if c [a b] (recur b a 7))) = [2 1] *)
Definition swap_loop : lexpr :=
  LLoop [(0, LConst (VInt 1)); (1, LConst (VInt 2)); (2, LConst VNil)]
        (LIf (LLocal 2) (LCall PVec [LLocal 0; LLocal 1]) (LRecur [LLocal 1; LLocal 0; LConst (VInt 7)])).

Example swap_loop_ok :
  hazard_free swap_loop = true /\
  leval 20 (fun _ => None) swap_loop = Some (OVal (VVec [VInt 2; VInt 1]), []) /\
  lrun 20 swap_loop = Some (VVec [VInt 2; VInt 1], []).
Proof. repeat split; vm_compute; reflexivity. Qed.

(** a counting loop with effects in the recur arguments:
    (loop* [i 0 acc []] (if (< i 3) (recur (inc i) (conj acc (t i))) acc)) *)
Definition count_loop : lexpr :=
  LLoop [(0, LConst (VInt 0)); (1, LConst (VVec []))]
        (LIf (LCall PLt [LLocal 0; LConst (VInt 3)])
             (LRecur [LCall PInc [LLocal 0]; LCall PConj [LLocal 1; LCall PTrace [LLocal 0]]])
             (LLocal 1)).

Example count_loop_ok :
  hazard_free count_loop = true /\
  leval 40 (fun _ => None) count_loop = Some (OVal (VVec [VInt 0; VInt 1; VInt 2]), [VInt 0; VInt 1; VInt 2]) /\
  lrun 40 count_loop = Some (VVec [VInt 0; VInt 1; VInt 2], [VInt 0; VInt 1; VInt 2]).
Proof. repeat split; vm_compute; reflexivity. Qed.
