(** Forward simulation for the first-order core extended with loop*/recur.  This file only
    states the results for Properties/C01.v and C02.v: [R2] is the [inv] of C01X/XCore.v and
    [R_rebind] its [R_rebinds]; [lsim_all] and [loop_sim] are the simulation of the exception
    fragment ([xsim_core], [xloop_sim] of C01X/XCore.v) read through the embedding of
    C01L/LEmb.v. *)
From Coq Require Import List NArith Bool.
Import ListNotations.
From Verif Require Import C01.Sim C01L.LLisp C01L.LPy C01L.LGen C01L.LEmb.
From Verif Require C01X.XCore.
Local Open Scope N_scope.

Lemma lquiet_cons s r : lquiet (s :: r) = lquiet1 s && lquiet r.
Proof. reflexivity. Qed.

Lemma lquiet_app a b : lquiet (a ++ b) = lquiet a && lquiet b.
Proof. exact (forallb_app lquiet1 a b). Qed.

Lemma atomic_quiet e : atomic e = true -> forall F v t, peval F e = Some (v, t) -> t = [].
Proof. intros A F v t H. eapply atomic_no_trace; eauto. Qed.

Lemma set_all_length F ns vs F' : set_all F ns vs = Some F' -> length ns = length vs.
Proof.
  revert F vs. induction ns as [|n r IH]; intros F [|v vs] H; simpl in *; try discriminate; auto.
  f_equal. eapply IH; eauto.
Qed.

Lemma R_rebind : forall xs names vs rho sg F n rho2 F2,
  R rho sg F n ->
  Forall2 (fun x p => sg x = Some p /\ idx p < n) xs names ->
  NoDup names ->
  (forall y q, ~ In y xs -> sg y = Some q -> ~ In q names) ->
  rebind xs vs rho = Some rho2 -> set_all F names vs = Some F2 ->
  R rho2 sg F2 n.
Proof. exact XCore.R_rebinds. Qed.

Definition R2 (rho : env) (sg : senv) (F : frame) (n : N) : Prop :=
  R rho sg F n /\ (forall x p, sg x = Some p -> idx p < n).

Definition lsim (fuel : nat) : Prop :=
  forall e sg lp n rho F o tr d pe n',
    R2 rho sg F n -> leval fuel rho e = Some (o, tr) -> lgen sg lp n e = (d, pe, n', true) ->
    n <= n' /\
    match o with
    | OVal v =>
        exists m F' t1 t2,
          lexec m F d = Some (Normal, F', t1) /\ peval F' pe = Some (v, t2) /\ tr = t1 ++ t2 /\
          agree_below n F F' /\ nb n' pe = true /\ (lquiet d = true -> t1 = [])
    | ORec vs =>
        length vs = length lp ->
        exists m F' F'', lexec m F d = Some (Cont, F'', tr) /\ agree_below n F F' /\ set_all F' lp vs = Some F''
    end.

Theorem lsim_all : forall fuel, lsim fuel.
Proof.
  intros fuel e sg lp n rho F o tr d pe n' HR He Hg.
  apply (proj1 (eval_emb fuel)) in He. pose proof (gen_emb e sg lp n) as Hx. rewrite Hg in Hx. cbn [gmap] in Hx.
  pose proof (XCore.xsim_core fuel _ _ _ _ _ _ _ _ _ _ _ HR He Hx) as H. split; [exact (XCore.xgen_mono _ _ _ _ _ _ _ _ Hx)|].
  destruct o as [v|vs]; cbn [Eo XCore.post] in H.
  - destruct H as (m & F' & t1 & t2 & X & P & T & A & Nb). exists m, F', t1, t2.
    repeat split; auto using (lexec_of_x m F d LPy.Normal).
    intro Hq. rewrite <- quiet_emb in Hq. apply (XCore.xquiet_silent _ _ _ _ _ _ Hq X).
  - intro Hl. destruct (H Hl) as (m & F' & F'' & X & A & Sa). exists m, F', F''.
    auto using (lexec_of_x m F d LPy.Cont).
Qed.

Lemma loop_sim fuel0 : (forall k, (k < fuel0)%nat -> lsim k) ->
  forall k, (k <= fuel0)%nat ->
  forall xs rho1 body v t sg1 names n1 F1 db eb n2 res,
    lloop k xs rho1 body = Some (v, t) ->
    R2 rho1 sg1 F1 n1 -> lgen sg1 names n1 body = (db, eb, n2, true) ->
    Forall2 (fun x p => sg1 x = Some p /\ idx p < n1) xs names -> NoDup names ->
    (forall y q, ~ In y xs -> sg1 y = Some q -> ~ In q names) ->
    Forall (fun p => idx res < idx p) names -> idx res < n1 ->
    exists m F2, lwhile m F1 (db ++ [LAssign res eb; LBreak]) = Some (Normal, F2, t) /\
                 F2 res = Some v /\ agree_below (idx res) F1 F2.
Proof.
  intros _ k _ xs rho1 body v t sg1 names n1 F1 db eb n2 res Hl HR Hg HF ND Hout Hres Hres2.
  apply (proj2 (eval_emb k)) in Hl. pose proof (gen_emb body sg1 names n1) as Hx. rewrite Hg in Hx. cbn [gmap] in Hx.
  destruct (XCore.xloop_sim k xs rho1 (E body) (XLisp.OVal v) t sg1 names n1 F1
              (map St db) eb n2 res Hl HR Hx HF ND Hout Hres Hres2) as (m & F2 & W & Fr & A).
  exists m, F2. split; [|split; [exact Fr|exact A]].
  apply (lwhile_of_x m F1 _ LPy.Normal). rewrite map_app. exact W.
Qed.

Lemma lquiet_while a b body : lquiet (a ++ b ++ [LWhile body]) = false.
Proof.
  rewrite !lquiet_app, lquiet_cons. cbn [lquiet1]. rewrite andb_false_r, andb_false_r. reflexivity.
Qed.

Lemma lquiet_recur a x : lquiet (a ++ [x; LContinue]) = false.
Proof.
  rewrite lquiet_app, !lquiet_cons. cbn [lquiet1]. rewrite !andb_false_r. reflexivity.
Qed.
