(** The loop fragment (C01L) embedded in the exception fragment (C01X): source, generated
    code and Python semantics commute with the embedding, at the same fuel. *)
From Coq Require Import List NArith Bool.
Import ListNotations.
From Verif Require Import C01L.LLisp C01L.LPy C01L.LGen.
From Verif Require Import C01X.XLisp C01X.XPy C01X.XGen C01X.XMono C01X.XCore.
Local Open Scope N_scope.

Fixpoint E (e : lexpr) : xexpr :=
  match e with
  | LConst v => XConst v
  | LLocal x => XLocal x
  | LIf c t e => XIf (E c) (E t) (E e)
  | LDo s r => XDo (E s) (E r)
  | LLet x i b => XLet x (E i) (E b)
  | LCall f args => XCall f (map E args)
  | LLoop binds body => XLoop (map (fun xb => (fst xb, E (snd xb))) binds) (E body)
  | LRecur args => XRecur (map E args)
  end.
Fixpoint St (s : lstmt) : xstmt :=
  match s with
  | LAssign n e => XAssign n e
  | LAssignTuple ns es => XAssignTuple ns es
  | LExpr e => XExpr e
  | LSIf t a b => XSIf t (map St a) (map St b)
  | LWhile b => XWhile (map St b)
  | LBreak => XBreak
  | LContinue => XContinue
  end.
Definition So (o : LPy.sout) : sout := match o with LPy.Normal => Normal | LPy.Brk => Brk | LPy.Cont => Cont end.
Definition Eo (o : LLisp.outcome) : outcome := match o with LLisp.OVal v => OVal v | LLisp.ORec vs => ORec vs end.
Definition lift (r : option (LPy.sout * frame * trace)) : option (sout * frame * trace) :=
  match r with Some (o, F, t) => Some (So o, F, t) | None => None end.

Lemma execs_emb fl fx : (forall F s, fx F (St s) = lift (fl F s)) ->
  forall l F, xexecs fx F (map St l) = lift (lexecs fl F l).
Proof.
  intros H. induction l as [|s l IH]; intro F; [reflexivity|]. cbn [map xexecs lexecs]. rewrite H.
  destruct (fl F s) as [[[[| |] F1] t1]|]; try reflexivity. cbn [lift So]. rewrite IH.
  destruct (lexecs fl F1 l) as [[[o2 F2] t2]|]; reflexivity.
Qed.

Lemma exec_emb : forall m,
  (forall F s, xexec1 m F (St s) = lift (lexec1 m F s)) /\
  (forall F b, xwhile m F (map St b) = lift (lwhile m F b)).
Proof.
  induction m as [|m [IH1 IH2]]; [split; reflexivity|].
  pose proof (execs_emb _ _ IH1) as IHs. split.
  - intros F [n e|ns es|e|t a b|b| |]; cbn [St xexec1 lexec1]; try reflexivity.
    + destruct (peval F e) as [[v t]|]; reflexivity.
    + destruct (peval_list F es) as [[vs t]|]; [|reflexivity]. destruct (set_all F ns vs); reflexivity.
    + destruct (peval F e) as [[v t]|]; reflexivity.
    + destruct (F t) as [v|]; [|reflexivity]. destruct (falsey v); apply IHs.
    + apply IH2.
  - intros F b. cbn [xwhile lwhile]. rewrite IHs.
    destruct (lexecs (lexec1 m) F b) as [[[[| |] F1] t1]|]; cbn [lift So]; try reflexivity;
      rewrite IH2; destruct (lwhile m F1 b) as [[[o2 F2] t2]|]; reflexivity.
Qed.

Lemma lexec_emb m F d : xexec m F (map St d) = lift (lexec m F d).
Proof. apply execs_emb, exec_emb. Qed.

Lemma lift_inv r o F' t : lift r = Some (So o, F', t) -> r = Some (o, F', t).
Proof.
  destruct r as [[[o' F1] t1]|]; [|discriminate].
  cbn [lift]. intro H. injection H as Ho -> ->. destruct o, o'; try discriminate; reflexivity.
Qed.

Lemma lexec_of_x m F d o F' t : xexec m F (map St d) = Some (So o, F', t) -> lexec m F d = Some (o, F', t).
Proof. rewrite lexec_emb. apply lift_inv. Qed.

Lemma lwhile_of_x m F b o F' t : xwhile m F (map St b) = Some (So o, F', t) -> lwhile m F b = Some (o, F', t).
Proof. rewrite (proj2 (exec_emb m)). apply lift_inv. Qed.

Section LexprInd.
  Variable P : lexpr -> Prop.
  Hypothesis HConst : forall v, P (LConst v).
  Hypothesis HLocal : forall x, P (LLocal x).
  Hypothesis HIf : forall c t e, P c -> P t -> P e -> P (LIf c t e).
  Hypothesis HDo : forall s r, P s -> P r -> P (LDo s r).
  Hypothesis HLet : forall x i b, P i -> P b -> P (LLet x i b).
  Hypothesis HCall : forall f args, Forall P args -> P (LCall f args).
  Hypothesis HLoop : forall binds body, Forall (fun xb => P (snd xb)) binds -> P body -> P (LLoop binds body).
  Hypothesis HRecur : forall args, Forall P args -> P (LRecur args).
  Fixpoint lexpr_ind' (e : lexpr) : P e :=
    match e with
    | LConst v => HConst v
    | LLocal x => HLocal x
    | LIf c t e => HIf c t e (lexpr_ind' c) (lexpr_ind' t) (lexpr_ind' e)
    | LDo s r => HDo s r (lexpr_ind' s) (lexpr_ind' r)
    | LLet x i b => HLet x i b (lexpr_ind' i) (lexpr_ind' b)
    | LCall f args =>
        HCall f args ((fix go (l : list lexpr) : Forall P l :=
                         match l with [] => Forall_nil P | a :: r => Forall_cons a (lexpr_ind' a) (go r) end) args)
    | LLoop binds body =>
        HLoop binds body
          ((fix go (l : list (N * lexpr)) : Forall (fun xb => P (snd xb)) l :=
              match l with
              | [] => Forall_nil _
              | xb :: r => Forall_cons xb (lexpr_ind' (snd xb)) (go r)
              end) binds)
          (lexpr_ind' body)
    | LRecur args =>
        HRecur args ((fix go (l : list lexpr) : Forall P l :=
                        match l with [] => Forall_nil P | a :: r => Forall_cons a (lexpr_ind' a) (go r) end) args)
    end.
End LexprInd.

Lemma quiet_emb d : xquiet (map St d) = lquiet d.
Proof.
  induction d as [|s d IH]; [reflexivity|]. change (xquiet1 (St s) && xquiet (map St d) = lquiet1 s && lquiet d).
  rewrite IH. f_equal. clear. revert s. fix IHs 1. intros [n e|ns es|e|t a b|b| |]; try reflexivity.
  cbn [St xquiet1 lquiet1]. f_equal; [induction a as [|s a IHa]|induction b as [|s b IHb]]; try reflexivity;
  cbn [map xquiet_with lquiet_with]; rewrite IHs; f_equal; assumption.
Qed.

Definition gmap (r : lout) : xout := let '(d, pe, n', k) := r in (map St d, pe, n', k).

Lemma gen_args_emb g gx : forall l, Forall (fun a => forall n, gx n (E a) = gmap (g n a)) l ->
  forall n, xgen_args gx (map E l) n = (let '(ds, es, n', k) := lgen_args g l n in (map St ds, es, n', k)).
Proof.
  induction 1 as [|a r Ha _ IH]; intro n; [reflexivity|]. cbn [map xgen_args lgen_args]. rewrite Ha.
  destruct (g n a) as [[[d e] n1] k1]. cbn [gmap]. rewrite IH. destruct (lgen_args g r n1) as [[[ds es] n2] k2].
  rewrite map_app, quiet_emb. reflexivity.
Qed.

Lemma gen_emb : forall e sg lp n, xgen sg lp n (E e) = gmap (lgen sg lp n e).
Proof.
  induction e as [c|x|c t e IHc IHt IHe|s r IHs IHr|x i b IHi IHb|f args IHargs|binds body IHbinds IHbody|args IHargs]
    using lexpr_ind'; intros sg lp n; cbn [E xgen lgen]; try reflexivity.
  - rewrite IHc. destruct (lgen sg lp n c) as [[[dc ec] n1] k1]. cbn [gmap]. rewrite IHt.
    destruct (lgen sg lp (n1 + 2) t) as [[[dt et] n2] k2]. cbn [gmap]. rewrite IHe.
    destruct (lgen sg lp n2 e) as [[[de ee] n3] k3]. cbn [gmap]. rewrite ?map_app; cbn [map St]; rewrite ?map_app; reflexivity.
  - rewrite IHs. destruct (lgen sg lp n s) as [[[ds es] n1] k1]. cbn [gmap]. rewrite IHr.
    destruct (lgen sg lp n1 r) as [[[dr er] n2] k2]. cbn [gmap]. rewrite ?map_app; cbn [map St]; rewrite ?map_app; reflexivity.
  - rewrite IHi. destruct (lgen sg lp n i) as [[[di ei] n1] k1]. cbn [gmap]. cbv zeta. rewrite IHb.
    destruct (lgen (upd sg x (NLocal x n1)) lp (n1 + 1) b) as [[[db eb] n2] k2]. cbn [gmap]. rewrite ?map_app; cbn [map St]; rewrite ?map_app; reflexivity.
  - rewrite (gen_args_emb (fun n a => lgen sg lp n a) (fun n a => xgen sg lp n a)).
    + destruct (lgen_args _ args n) as [[[ds es] n1] k1]. reflexivity.
    + eapply Forall_impl; [|exact IHargs]. intros a Ha m. apply Ha.
  - assert (Hb : forall sg n, xgen_binds_with (fun sg n i => xgen sg lp n i) (map (fun xb => (fst xb, E (snd xb))) binds) sg n
             = (let '(ds, ps, sg2, n2, k2) := lgen_binds_with (fun sg n i => lgen sg lp n i) binds sg n in (map St ds, ps, sg2, n2, k2))).
    { clear - IHbinds. induction IHbinds as [|[x i] r Hi _ IHr]; intros sg n; [reflexivity|].
      cbn [map fst snd xgen_binds_with lgen_binds_with]. cbn [snd] in Hi. rewrite Hi.
      destruct (lgen sg lp n i) as [[[di ei] n1] k1]. cbn [gmap]. cbv zeta. rewrite IHr.
      destruct (lgen_binds_with _ r _ _) as [[[[ds ps] sg2] n2] k2]. rewrite !map_app. reflexivity. }
    cbv zeta. rewrite Hb. destruct (lgen_binds_with _ binds sg (n + 1)) as [[[[dbs names] sg1] n1] k1].
    rewrite IHbody. destruct (lgen sg1 names n1 body) as [[[db eb] n2] k2]. cbn [gmap].
    rewrite !map_app, map_map. cbn [map St]. rewrite map_app. reflexivity.
  - rewrite (gen_args_emb (fun n a => lgen sg lp n a) (fun n a => xgen sg lp n a)).
    + destruct (lgen_args _ args n) as [[[ds es] n1] k1]. cbn [gmap]. rewrite map_app. cbn [map].
      repeat f_equal. unfold assign_all, LGen.assign_all. destruct lp as [|? [|? ?]]; try reflexivity. destruct es as [|? [|? ?]]; reflexivity.
    + eapply Forall_impl; [|exact IHargs]. intros a Ha m. apply Ha.
Qed.

Lemma evals_emb fl fx : (forall rho e o t, fl rho e = Some (o, t) -> fx rho (E e) = Some (Eo o, t)) ->
  forall l rho vs t, LLisp.evals fl rho l = Some (vs, t) -> evals fx rho (map E l) = Some (LVals vs, t).
Proof.
  intros H. induction l as [|a r IH]; intros rho vs t He; cbn [map evals LLisp.evals] in *.
  - injection He as <- <-. reflexivity.
  - destruct (fl rho a) as [[[v|?] t1]|] eqn:Ea; try discriminate. rewrite (H _ _ _ _ Ea). cbn [Eo].
    destruct (LLisp.evals fl rho r) as [[vr t2]|] eqn:Er; [|discriminate]. rewrite (IH _ _ _ Er).
    injection He as <- <-. reflexivity.
Qed.

Lemma evbinds_emb fl fx : (forall rho e o t, fl rho e = Some (o, t) -> fx rho (E e) = Some (Eo o, t)) ->
  forall l rho rho1 t, LLisp.evbinds fl rho l = Some (rho1, t) ->
    evbinds fx rho (map (fun xb => (fst xb, E (snd xb))) l) = Some (BEnv rho1, t).
Proof.
  intros H. induction l as [|[x i] r IH]; intros rho rho1 t He; cbn [map fst snd evbinds LLisp.evbinds] in *.
  - injection He as <- <-. reflexivity.
  - destruct (fl rho i) as [[[v|?] t1]|] eqn:Ei; try discriminate. rewrite (H _ _ _ _ Ei). cbn [Eo].
    destruct (LLisp.evbinds fl (upd rho x v) r) as [[rho' t2]|] eqn:Er; [|discriminate]. rewrite (IH _ _ _ Er).
    injection He as <- <-. reflexivity.
Qed.

Lemma fst_emb (l : list (N * lexpr)) : map fst (map (fun xb => (fst xb, E (snd xb))) l) = map fst l.
Proof. rewrite map_map. apply map_ext. reflexivity. Qed.

Lemma eval_emb : forall fuel,
  (forall rho e o t, leval fuel rho e = Some (o, t) -> xeval fuel rho (E e) = Some (Eo o, t)) /\
  (forall xs rho b v t, lloop fuel xs rho b = Some (v, t) -> xloop fuel xs rho (E b) = Some (OVal v, t)).
Proof.
  induction fuel as [|n [IH1 IH2]]; [split; intros; discriminate|].
  pose proof (evals_emb _ _ IH1) as IHl. pose proof (evbinds_emb _ _ IH1) as IHb. split.
  - intros rho [v|x|c t e|s r|x i b|f args|binds body|args] o tr He; cbn [E leval xeval] in *.
    + injection He as <- <-. reflexivity.
    + destruct (rho x); [|discriminate]. injection He as <- <-. reflexivity.
    + destruct (leval n rho c) as [[[vc|?] t1]|] eqn:Ec; try discriminate. rewrite (IH1 _ _ _ _ Ec). cbn [Eo].
      destruct (falsey vc);
        [destruct (leval n rho e) as [[o2 t2]|] eqn:E2|destruct (leval n rho t) as [[o2 t2]|] eqn:E2]; try discriminate;
        rewrite (IH1 _ _ _ _ E2); injection He as <- <-; reflexivity.
    + destruct (leval n rho s) as [[[vc|?] t1]|] eqn:Ec; try discriminate. rewrite (IH1 _ _ _ _ Ec). cbn [Eo].
      destruct (leval n rho r) as [[o2 t2]|] eqn:E2; [|discriminate]. rewrite (IH1 _ _ _ _ E2). injection He as <- <-. reflexivity.
    + destruct (leval n rho i) as [[[vc|?] t1]|] eqn:Ec; try discriminate. rewrite (IH1 _ _ _ _ Ec). cbn [Eo].
      destruct (leval n (upd rho x vc) b) as [[o2 t2]|] eqn:E2; [|discriminate]. rewrite (IH1 _ _ _ _ E2). injection He as <- <-. reflexivity.
    + destruct (LLisp.evals (leval n) rho args) as [[vs t1]|] eqn:Ea; [|discriminate]. rewrite (IHl _ _ _ _ Ea).
      destruct (apply_prim f vs) as [[v t2]|]; [|discriminate]. injection He as <- <-. reflexivity.
    + destruct (LLisp.evbinds (leval n) rho binds) as [[rho1 t1]|] eqn:Eb; [|discriminate]. rewrite (IHb _ _ _ _ Eb).
      rewrite fst_emb.
      destruct (lloop n (map fst binds) rho1 body) as [[v t2]|] eqn:El; [|discriminate]. rewrite (IH2 _ _ _ _ _ El).
      injection He as <- <-. reflexivity.
    + destruct (LLisp.evals (leval n) rho args) as [[vs t1]|] eqn:Ea; [|discriminate]. rewrite (IHl _ _ _ _ Ea).
      injection He as <- <-. reflexivity.
  - intros xs rho b v t Hl. cbn [lloop xloop] in *.
    destruct (leval n rho b) as [[[vb|vs] t1]|] eqn:Eb; try discriminate; rewrite (IH1 _ _ _ _ Eb); cbn [Eo].
    + injection Hl as <- <-. reflexivity.
    + destruct (rebind xs vs rho) as [rho1|]; [|discriminate].
      destruct (lloop n xs rho1 b) as [[v2 t2]|] eqn:El; [|discriminate]. rewrite (IH2 _ _ _ _ _ El). injection Hl as <- <-. reflexivity.
Qed.

(** the exception fragment's fuel monotonicity, read through the embedding *)
Lemma lexec_mono m m' F l r : (m <= m')%nat -> lexec m F l = Some r -> lexec m' F l = Some r.
Proof.
  intros L H. destruct r as [[o F'] t]. apply lexec_of_x. eapply xexec_mono; [exact L|].
  rewrite lexec_emb, H. reflexivity.
Qed.
