(** C08 -- what the regenerated tables must say, and proofs about direct calls, apply and partial. *)
From Coq Require Import List Arith Bool Lia NArith.
Import ListNotations.
From Verif Require Import C08.Arity C08.Spec.
From Verif Require Gen.Tables.

(** Obligations on the definitions regenerated from generator.py / runtime.py / analyzer.py
    (harness/tr/tr_arity.py).  A source edit that changes the extracted value, or makes the
    translator refuse AND the committed fallback differ, breaks these by name. *)

(** the model's [dispatch] uses `max_fixed s <=? nargs`, i.e. `nargs >= max_fixed_arity` *)
Lemma dispatch_cmp_ok : Gen.Tables.arity_dispatch_cmp = 0%N.
Proof. reflexivity. Qed.

Lemma shapes_ok :
  Gen.Tables.arity_apply_to_shape = 1%N /\ Gen.Tables.arity_apply_shape = 1%N /\ Gen.Tables.arity_unwrap_shape = 1%N
  /\ Gen.Tables.arity_partial_shape = 1%N /\ Gen.Tables.arity_trampoline_shape = 1%N /\ Gen.Tables.arity_analyzer_rule = 1%N.
Proof. repeat split; reflexivity. Qed.

(** the repairs F-08a, F-08b are in the working tree: the model ([recur_step]) follows these
    flags, and the theorems of Properties/C08.v about it are stated for the repaired shape --
    reverting a repair flips a flag and breaks them by name *)
Lemma repairs_present : Gen.Tables.arity_tramp_nil = 1%N /\ Gen.Tables.arity_recur_flag = 1%N.
Proof. repeat split; reflexivity. Qed.

(** _update_signature_for_partial still has the shape of the open finding F-08c (the proposed
    repair contradicts an expectation of the repo's own test-suite and is not applied) *)
Lemma partial_cmp_open : Gen.Tables.arity_partial_cmp = 0%N.
Proof. reflexivity. Qed.

(** [lmax] is the standard library's [list_max] *)
Lemma lmax_le l b : (forall a, In a l -> a <= b) -> lmax l <= b.
Proof. intros H. now apply (list_max_le l b), Forall_forall. Qed.

Lemma lmax_ge l a : In a l -> a <= lmax l.
Proof. revert a. apply Forall_forall, (list_max_le l (lmax l)), le_n. Qed.

Lemma lmax_app l1 l2 : lmax (l1 ++ l2) = Nat.max (lmax l1) (lmax l2).
Proof. apply list_max_app. Qed.

Lemma existsb_eqb_In n l : existsb (Nat.eqb n) l = true <-> In n l.
Proof. exact (Verif.Common.ListX.existsb_eqb_In Nat.eqb Nat.eqb_eq n l). Qed.

Lemma existsb_eqb_notIn n l : existsb (Nat.eqb n) l = false <-> ~ In n l.
Proof. rewrite <- existsb_eqb_In. destruct (existsb _ _); intuition congruence. Qed.

Lemma nodupb_NoDup l : nodupb l = true -> NoDup l.
Proof. induction l; simpl; intros H; [constructor|]. apply andb_prop in H as [H1 H2].
  constructor; [|now apply IHl]. apply negb_true_iff in H1. now apply existsb_eqb_notIn in H1. Qed.

Lemma wf_fixed_le s m a : wf_sig s = true -> variadic s = Some m -> In a (fixed s) -> a <= m.
Proof. unfold wf_sig. intros H Hv Ha. rewrite Hv in H.
  apply andb_prop in H as [H _]. apply andb_prop in H as [_ H].
  rewrite forallb_forall in H. apply H in Ha. now apply Nat.leb_le in Ha. Qed.

Lemma wf_not_fixed s m k : wf_sig s = true -> variadic s = Some m -> m < k -> ~ In k (fixed s).
Proof. intros H Hv Hk Hi. apply (wf_fixed_le s m k H Hv) in Hi. lia. Qed.

Lemma variadic_in_counts s m : variadic s = Some m -> In m (all_counts s).
Proof. intros H. unfold all_counts, ovar. rewrite H. apply in_or_app. right. now left. Qed.

Lemma wf_max_fixed s m : wf_sig s = true -> variadic s = Some m -> max_fixed s = m.
Proof. intros H Hv. unfold max_fixed, all_counts, ovar. rewrite Hv, lmax_app. simpl.
  assert (lmax (fixed s) <= m) by (apply lmax_le; intros; eapply wf_fixed_le; eauto). lia. Qed.

Lemma wf_nodup s : wf_sig s = true -> NoDup (fixed s).
Proof. unfold wf_sig. intros H. apply andb_prop in H as [H _]. apply andb_prop in H as [H _].
  now apply nodupb_NoDup. Qed.

Lemma choose_matches s n ar : choose s n = Some ar -> matches s n ar.
Proof. unfold choose, matches. destruct n as [k|].
  - destruct (existsb (Nat.eqb k) (fixed s)) eqn:E.
    + intros [= <-]. apply existsb_eqb_In in E. easy.
    + destruct (variadic s) as [m|]; [|easy]. destruct (m <=? k) eqn:L; [|easy].
      intros [= <-]. apply Nat.leb_le in L. easy.
  - destruct (variadic s) as [m|]; [|easy]. intros [= <-]. easy. Qed.

(** every matching arity is the chosen one, except that at the overlap (a fixed arity with
    as many parameters as the variadic arity has fixed ones, no surplus) the fixed arity wins *)
Lemma matches_choose s n ar : wf_sig s = true -> matches s n ar ->
  exists ar', choose s n = Some ar' /\
    (ar' = ar \/ exists m, ar = ARest m /\ ar' = AFix m /\ n = Some m /\ In m (fixed s)).
Proof. intros Hwf. unfold matches, choose. destruct ar as [a|m].
  - intros [Hi ->]. apply existsb_eqb_In in Hi. rewrite Hi. eauto.
  - intros [Hv Hn]. rewrite Hv. destruct n as [k|]; [|eauto].
    destruct (existsb (Nat.eqb k) (fixed s)) eqn:E.
    + exists (AFix k). split; [easy|]. apply existsb_eqb_In in E.
      assert (k <= m) by (eapply wf_fixed_le; eauto). assert (k = m) by lia. subst. right. eauto.
    + apply Nat.leb_le in Hn. rewrite Hn. eauto. Qed.

Lemma choose_none s n : choose s n = None -> forall ar, ~ matches s n ar.
Proof. unfold choose, matches. intros H ar Hm. destruct ar as [a|m].
  - destruct Hm as [Hi ->]. apply existsb_eqb_In in Hi. now rewrite Hi in H.
  - destruct Hm as [Hv Hn]. rewrite Hv in H. destruct n as [k|]; [|easy].
    destruct (existsb _ _); [easy|]. apply Nat.leb_le in Hn. now rewrite Hn in H. Qed.

Lemma fixed_match_unique s n a b : matches s n (AFix a) -> matches s n (AFix b) -> a = b.
Proof. unfold matches. intros [_ ->] [_ [= ->]]. easy. Qed.

Arguments unwrap {A} r : simpl never.

Section Bind.
  Context {A : Type}.
  Implicit Types (xs : list A) (args : list (parg A)).

  Lemma vals_PV xs : vals (map PV xs) = Some xs.
  Proof. induction xs; simpl; [easy|]. now rewrite IHxs. Qed.

  Lemma unwrap_cons a b (r : list (parg A)) :
    unwrap (PV a :: b :: r) =
      match unwrap (b :: r) with Some (pre, lz) => Some (a :: pre, lz) | None => None end.
  Proof. reflexivity. Qed.

  (** The Python argument tuple of a call: [xs] materialized and, when the call comes from an
      `apply_to`, the tail from position [p] on as one wrapped last argument. *)
  Definition pyargs xs (lz : option nat) : list (parg A) :=
    map PV xs ++ match lz with Some p => [PW p] | None => [] end.

  Lemma pyargs_app ys xs lz : map PV ys ++ pyargs xs lz = pyargs (ys ++ xs) lz.
  Proof. unfold pyargs. now rewrite map_app, app_assoc. Qed.

  Lemma pyargs_None xs : pyargs xs None = map PV xs.
  Proof. apply app_nil_r. Qed.

  Lemma pyargs_length xs lz : length xs <= length (pyargs xs lz).
  Proof. unfold pyargs. rewrite app_length, map_length. lia. Qed.

  Lemma unwrap_pyargs xs lz : pyargs xs lz <> [] -> unwrap (pyargs xs lz) = Some (xs, lz).
  Proof. unfold pyargs. induction xs as [|a r IH]; simpl.
    - destruct lz; [easy|congruence].
    - intros _. destruct r as [|b r']; [now destruct lz|]. simpl in *. now rewrite unwrap_cons, IH. Qed.

  Lemma py_bind_fixed_vals xs : py_bind_fixed (length xs) (map PV xs) = RBound (AFix (length xs)) xs RestNil.
  Proof. unfold py_bind_fixed. rewrite map_length, Nat.eqb_refl, vals_PV. easy. Qed.

  Lemma py_bind_rest_pyargs m xs lz : m <= length xs ->
    py_bind_rest m (pyargs xs lz) =
      RBound (ARest m) (firstn m xs) (match lz, skipn m xs with None, [] => RestNil | _, r => RestSeq r lz end).
  Proof. intros H. unfold py_bind_rest. pose proof (pyargs_length xs lz) as L.
    destruct (length (pyargs xs lz) <? m) eqn:E; [apply Nat.ltb_lt in E; lia|].
    assert (F : firstn m (pyargs xs lz) = map PV (firstn m xs) /\ skipn m (pyargs xs lz) = pyargs (skipn m xs) lz).
    { unfold pyargs. rewrite firstn_app, skipn_app, map_length, firstn_map, skipn_map.
      replace (m - length xs) with 0 by lia. simpl. now rewrite app_nil_r. }
    destruct F as [-> ->]. rewrite vals_PV.
    destruct (pyargs (skipn m xs) lz) eqn:P.
    - unfold pyargs in P. destruct (skipn m xs), lz; easy.
    - rewrite <- P, unwrap_pyargs by (rewrite P; easy). now destruct (skipn m xs), lz. Qed.

  Lemma py_bind_rest_vals m xs : m <= length xs ->
    py_bind_rest m (map PV xs) =
      RBound (ARest m) (firstn m xs) (match skipn m xs with [] => RestNil | r => RestSeq r None end).
  Proof. intros H. rewrite <- pyargs_None. now apply py_bind_rest_pyargs. Qed.

  (** the single-arity shortcut and the dispatcher agree except for the class of the arity error *)
  Lemma call_fn_dispatch s args :
    call_fn s args = dispatch s args \/
    (exists c c', call_fn s args = RArityErr c /\ dispatch s args = RArityErr c').
  Proof. unfold call_fn, dispatch.
    destruct (fixed s) as [|n [|n2 l]] eqn:F; destruct (variadic s) as [m|] eqn:V; try (now left).
    - (* [] , Some m : py_bind_rest *)
      simpl. unfold max_fixed, all_counts, ovar. rewrite F, V. simpl. rewrite Nat.max_0_r.
      destruct (m <=? length args) eqn:E; [now left|]. right.
      unfold py_bind_rest. apply Nat.leb_gt in E. apply Nat.ltb_lt in E. rewrite E. eauto.
    - (* [n], None *)
      simpl. rewrite orb_false_r. destruct (length args =? n) eqn:E.
      + apply Nat.eqb_eq in E. subst. now left.
      + right. unfold py_bind_fixed. rewrite E. eauto. Qed.

  Lemma call_fn_bound s args ar ps rv : dispatch s args = RBound ar ps rv -> call_fn s args = RBound ar ps rv.
  Proof. intros H. destruct (call_fn_dispatch s args) as [->|[c [c' [_ H2]]]]; [easy|congruence]. Qed.

  Lemma call_fn_err s args c : dispatch s args = RArityErr c -> exists c', call_fn s args = RArityErr c'.
  Proof. intros H. destruct (call_fn_dispatch s args) as [->|[c1 [c2 [H1 _]]]]; eauto. Qed.

  (** the three outcomes of a call with fully materialized arguments *)
  Lemma call_fixed s xs : In (length xs) (fixed s) ->
    call_fn s (map PV xs) = RBound (AFix (length xs)) xs RestNil.
  Proof. intros H. apply call_fn_bound. unfold dispatch. rewrite map_length.
    apply existsb_eqb_In in H. rewrite H. apply py_bind_fixed_vals. Qed.

  Lemma call_rest s m xs lz : wf_sig s = true -> variadic s = Some m ->
    ~ In (length (pyargs xs lz)) (fixed s) -> m <= length xs ->
    call_fn s (pyargs xs lz) =
      RBound (ARest m) (firstn m xs) (match lz, skipn m xs with None, [] => RestNil | _, r => RestSeq r lz end).
  Proof. intros Hwf Hv Hn Hm. apply call_fn_bound. unfold dispatch. pose proof (pyargs_length xs lz).
    apply existsb_eqb_notIn in Hn. rewrite Hn, Hv, (wf_max_fixed s m Hwf Hv).
    assert (E : m <=? length (pyargs xs lz) = true) by (apply Nat.leb_le; lia). rewrite E.
    now apply py_bind_rest_pyargs. Qed.

  Lemma call_err s xs : ~ In (length xs) (fixed s) ->
    (variadic s = None \/ exists m, variadic s = Some m /\ wf_sig s = true /\ length xs < m) ->
    exists c, call_fn s (map PV xs) = RArityErr c.
  Proof. intros Hn Hv. apply call_fn_err with (c := RuntimeExc). unfold dispatch. rewrite map_length.
    apply existsb_eqb_notIn in Hn. rewrite Hn.
    destruct Hv as [->|[m [Hv [Hwf Hl]]]]; [easy|]. rewrite Hv, (wf_max_fixed s m Hwf Hv).
    apply Nat.leb_gt in Hl. now rewrite Hl. Qed.

End Bind.

Lemma nth_error_firstn_lt {B} (l : list B) m i : i < m -> nth_error (firstn m l) i = nth_error l i.
Proof. revert m i. induction l; intros m i H; destruct m, i; simpl; try easy; try lia. apply IHl. lia. Qed.

Lemma skipn_nil_iff {B} (l : list B) m : skipn m l = [] <-> length l <= m.
Proof. revert m. induction l; intros m; destruct m; simpl; split; intros; try easy; try lia.
  - apply IHl in H. lia.
  - apply IHl. lia. Qed.

Section BindOk.
  Context {A : Type}.
  Implicit Types (xs lead : list A) (t : tail A).

  Lemma has_elem_spec t p : has_elem t p = true <-> match tlen t with None => True | Some L => p < L end.
  Proof. unfold has_elem. destruct (tlen t); [apply Nat.ltb_lt|easy]. Qed.

  Lemma arg_at_nil t q : arg_at [] t q = if has_elem t q then Some (telt t q) else None.
  Proof. unfold arg_at. simpl. now rewrite Nat.sub_0_r. Qed.

  Lemma arg_at_lead lead t i : i < length lead -> arg_at lead t i = nth_error lead i.
  Proof. intros H. unfold arg_at. apply Nat.ltb_lt in H. now rewrite H. Qed.

  Lemma arg_at_tail lead t j : arg_at lead t (length lead + j) = arg_at [] t j.
  Proof. rewrite arg_at_nil. unfold arg_at.
    destruct (length lead + j <? length lead) eqn:E; [apply Nat.ltb_lt in E; lia|].
    now replace (length lead + j - length lead) with j by lia. Qed.

  Lemma arg_at_some_total lead t i a : arg_at lead t i = Some a ->
    match total lead t with Some k => i < k | None => True end.
  Proof. unfold arg_at, total. destruct (i <? length lead) eqn:E.
    - intros _. apply Nat.ltb_lt in E. destruct (tlen t); [lia|easy].
    - destruct (has_elem t (i - length lead)) eqn:H; [|easy]. intros _.
      apply has_elem_spec in H. apply Nat.ltb_ge in E. destruct (tlen t); [lia|easy]. Qed.

  (** every argument was materialized into the Python argument tuple *)
  Lemma bind_ok_materialized s lead t xs :
    wf_sig s = true -> total lead t = Some (length xs) -> (forall i, arg_at lead t i = nth_error xs i) ->
    bind_ok s lead t (call_fn s (map PV xs)).
  Proof. intros Hwf Htot Harg. unfold bind_ok. rewrite Htot. unfold choose.
    destruct (existsb (Nat.eqb (length xs)) (fixed s)) eqn:E.
    - apply existsb_eqb_In in E. rewrite (call_fixed s xs E). exists xs, RestNil. simpl.
      repeat split; try easy; intros i _; now rewrite Harg.
    - apply existsb_eqb_notIn in E. destruct (variadic s) as [m|] eqn:V.
      + destruct (m <=? length xs) eqn:L.
        * apply Nat.leb_le in L. rewrite <- pyargs_None, (call_rest s m xs None Hwf V) by (rewrite ?pyargs_None, ?map_length; easy).
          eexists _, _. split; [reflexivity|]. simpl. split; [|split; [|split]].
          -- rewrite firstn_length. lia.
          -- intros i Hi. now rewrite nth_error_firstn_lt, Harg.
          -- destruct (skipn m xs) eqn:S.
             ++ apply skipn_nil_iff in S. split; [intros _; f_equal; lia|easy].
             ++ split; [easy|]. intros [= H]. assert (skipn m xs = []) by (apply skipn_nil_iff; lia). congruence.
          -- intros i. rewrite Harg. destruct (skipn m xs) as [|b r] eqn:S.
             ++ apply skipn_nil_iff in S. simpl. symmetry. apply nth_error_None. lia.
             ++ rewrite <- S. unfold rest_nth. rewrite <- Verif.Common.ListX.nth_error_skipn.
                destruct (i <? length (skipn m xs)) eqn:E2; [easy|].
                apply Nat.ltb_ge in E2. symmetry. now apply nth_error_None.
        * apply Nat.leb_gt in L. apply call_err; [easy|]. right. eauto.
      + apply call_err; [easy|]. now left. Qed.

  (** the arguments up to [xs] were materialized, the rest travels as _WrappedRestArgs *)
  Lemma bind_ok_wrapped s m lead t xs p :
    wf_sig s = true -> variadic s = Some m -> m <= length xs -> has_elem t p = true ->
    (forall i, i < length xs -> arg_at lead t i = nth_error xs i) ->
    (forall j, arg_at lead t (length xs + j) = arg_at [] t (p + j)) ->
    bind_ok s lead t (call_fn s (pyargs xs (Some p))).
  Proof. intros Hwf V Hm Hp Hpre Hsuf. unfold bind_ok.
    assert (Hbig : match total lead t with Some k => length xs < k | None => True end).
    { apply arg_at_some_total with (a := telt t p). rewrite <- (Nat.add_0_r (length xs)), Hsuf, arg_at_nil.
      now rewrite Nat.add_0_r, Hp. }
    assert (Hch : choose s (total lead t) = Some (ARest m)).
    { unfold choose. destruct (total lead t) as [k|]; [|now rewrite V].
      pose proof (wf_not_fixed s m k Hwf V ltac:(lia)) as E.
      apply existsb_eqb_notIn in E. rewrite E, V.
      assert (L : m <=? k = true) by (apply Nat.leb_le; lia). now rewrite L. }
    rewrite Hch, (call_rest s m xs (Some p) Hwf V); [| |easy].
    2:{ apply (wf_not_fixed s m _ Hwf V). unfold pyargs. rewrite app_length, map_length. simpl. lia. }
    eexists _, _. split; [reflexivity|]. simpl. split; [|split; [|split]].
    - rewrite firstn_length. lia.
    - intros i Hi. rewrite nth_error_firstn_lt by easy. symmetry. apply Hpre. lia.
    - split; [easy|]. intros H. rewrite H in Hbig. lia.
    - intros i. destruct (i <? length (skipn m xs)) eqn:E.
      + apply Nat.ltb_lt in E. rewrite skipn_length in E. rewrite Verif.Common.ListX.nth_error_skipn. symmetry. apply Hpre. lia.
      + apply Nat.ltb_ge in E. rewrite skipn_length in *.
        replace (m + i) with (length xs + (i - (length xs - m))) by lia. now rewrite Hsuf. Qed.
End BindOk.

Section Partial.
  Context {A : Type}.

  Fixpoint base (c : callee A) : sig := match c with CFn s => s | CPartial c' _ => base c' end.
  (** all partially applied arguments, in the order the function receives them *)
  Fixpoint pargs (c : callee A) : list A := match c with CFn _ => [] | CPartial c' pa => pargs c' ++ pa end.

  Lemma call_base c : forall args, call c args = call_fn (base c) (map PV (pargs c) ++ args).
  Proof. induction c as [s|c' IH pa]; intros args; simpl; [easy|].
    now rewrite IH, map_app, <- app_assoc. Qed.

  Lemma arities_gen_rest ge c : snd (arities_gen ge c) = is_variadic (base c).
  Proof. induction c as [s|c' IH pa]; simpl; [easy|].
    destruct (arities_gen ge c') as [ints r]. simpl in IH. subst r. destruct ge; [easy|].
    destruct (map _ _); destruct (is_variadic (base c')); easy. Qed.

  Lemma arities_rest c : snd (arities c) = is_variadic (base c).
  Proof. apply arities_gen_rest. Qed.

  Lemma lmax_shift (f : nat -> bool) l p : (forall a, f a = false -> a <= p) ->
    lmax (map (fun a => a - p) (filter f l)) = lmax l - p.
  Proof. intros Hf. induction l as [|a l IH]; simpl; [easy|]. destruct (f a) eqn:E; simpl; rewrite IH; [lia|].
    apply Hf in E. lia. Qed.

  (** the max_fixed_arity captured by the apply_to of a (nested) partial: the same for the
      code as it is ([ge = false]) and for the repair proposed for F-08c ([ge = true]) *)
  Lemma apply_M_gen ge c : lmax (fst (arities_gen ge c)) = max_fixed (base c) - length (pargs c).
  Proof. induction c as [s|c' IH pa]; simpl.
    - unfold max_fixed. lia.
    - destruct (arities_gen ge c') as [ints r]. simpl in IH. rewrite app_length. destruct ge.
      + simpl fst. rewrite lmax_shift by (intros a E; apply Nat.leb_gt in E; lia). lia.
      + assert (Hs := lmax_shift (fun a => length pa <? a) ints (length pa) ltac:(intros a E; apply Nat.ltb_ge in E; lia)).
        destruct (map (fun a => a - length pa) (filter (fun a => length pa <? a) ints)) eqn:E.
        * destruct r; simpl in *.
          -- lia.
          -- destruct (existsb _ _); simpl; lia.
        * simpl fst. rewrite Hs. lia. Qed.

  Lemma apply_M_base c : apply_M c = max_fixed (base c) - length (pargs c).
  Proof. apply apply_M_gen. Qed.

  (** the `arities` attribute with the repair proposed for F-08c (not applied), for arbitrarily nested partials *)
  Lemma shift_counts_0 l : shift_counts l 0 = l.
  Proof. induction l as [|a l IH]; [easy|]. unfold shift_counts in *. simpl filter. simpl map.
    f_equal; [lia|exact IH]. Qed.

  Lemma shift_counts_add l p q : shift_counts (shift_counts l p) q = shift_counts l (p + q).
  Proof. unfold shift_counts. induction l as [|a l IH]; simpl; [easy|].
    destruct (p <=? a) eqn:E1; simpl.
    - apply Nat.leb_le in E1. destruct (q <=? a - p) eqn:E2; simpl.
      + apply Nat.leb_le in E2. assert (E3 : p + q <=? a = true) by (apply Nat.leb_le; lia).
        rewrite E3. simpl. rewrite IH. f_equal. lia.
      + apply Nat.leb_gt in E2. assert (E3 : p + q <=? a = false) by (apply Nat.leb_gt; lia).
        now rewrite E3.
    - apply Nat.leb_gt in E1. assert (E3 : p + q <=? a = false) by (apply Nat.leb_gt; lia).
      now rewrite E3. Qed.

  Lemma arities_ge_spec c :
    arities_gen true c = (shift_counts (all_counts (base c)) (length (pargs c)), is_variadic (base c)).
  Proof. induction c as [s|c' IH pa]; simpl.
    - now rewrite shift_counts_0.
    - rewrite IH, app_length. fold (shift_counts (shift_counts (all_counts (base c')) (length (pargs c'))) (length pa)).
      now rewrite shift_counts_add. Qed.
End Partial.

Lemma In_shift_counts l p n : In n (shift_counts l p) <-> In (p + n) l.
Proof. unfold shift_counts. rewrite in_map_iff. split.
  - intros (a & <- & Hf). apply filter_In in Hf as [Hi Hl]. apply Nat.leb_le in Hl. now replace (p + (a - p)) with a by lia.
  - intros H. exists (p + n). split; [lia|]. apply filter_In. split; [easy|]. apply Nat.leb_le. lia. Qed.

(** at the level of the specification: (partial f a1..ap) called with n arguments chooses the
    shifted image of the arity f chooses for p + n arguments *)
Lemma choose_shift s p n :
  choose (shift_sig s p) (Some n) = option_map (shift_arity p) (choose s (Some (p + n))).
Proof. unfold choose, shift_sig. simpl. fold (shift_counts (fixed s) p).
  assert (E : existsb (Nat.eqb n) (shift_counts (fixed s) p) = existsb (Nat.eqb (p + n)) (fixed s)).
  { apply Bool.eq_iff_eq_true. rewrite !existsb_eqb_In. apply In_shift_counts. }
  rewrite E. destruct (existsb (Nat.eqb (p + n)) (fixed s)).
  - simpl. f_equal. f_equal. lia.
  - destruct (variadic s) as [m|]; [|easy].
    destruct (Nat.leb_spec m (p + n)), (Nat.leb_spec (m - p) n); try easy; lia. Qed.

Lemma nth_error_seq' a n i : i < n -> nth_error (seq a n) i = Some (a + i).
Proof. revert a i. induction n; intros a i H; [lia|]. destruct i; simpl; [f_equal; lia|].
  rewrite IHn by lia. f_equal. lia. Qed.

Section ApplyProofs.
  Context {A : Type}.
  Variable t : tail A.

  (** [clamp x] is where a walk of [x] steps from the head of the tail ends: everything before it is
      there; the walk went the whole way iff there is an element at its end *)
  Definition clamp (x : nat) : nat := match tlen t with None => x | Some L => Nat.min x L end.

  Lemma clamp_mono x y : x <= y -> clamp x <= clamp y.
  Proof. unfold clamp. destruct (tlen t); lia. Qed.

  Lemma clamp_le x : clamp x <= x.
  Proof. unfold clamp. destruct (tlen t); lia. Qed.

  Lemma force_upto_clamp forced p : force_upto t forced p = Nat.max forced (clamp (S p)).
  Proof. unfold force_upto, clamp. now destruct (tlen t). Qed.

  Lemma clamp_elems x q : q < clamp x -> has_elem t q = true.
  Proof. intros H. apply has_elem_spec. unfold clamp in H. destruct (tlen t); [lia|easy]. Qed.

  Lemma clamp_full x : has_elem t (clamp x) = true -> clamp x = x.
  Proof. intros H. apply has_elem_spec in H. unfold clamp in *. destruct (tlen t); lia. Qed.

  Lemma clamp_end x : has_elem t (clamp x) = false -> tlen t = Some (clamp x).
  Proof. unfold has_elem, clamp. destruct (tlen t) as [L|]; [|easy]. intros H. apply Nat.ltb_ge in H. f_equal. lia. Qed.

  (** the peeling loop in closed form: from [pos] it walks [missing] steps, or to the end of the tail *)
  Lemma pull_closed : forall missing pos forced acc,
    let pos' := Nat.max pos (clamp (pos + missing)) in
    exists forced', pull t missing pos forced acc = (pos', forced', acc ++ map (telt t) (seq pos (pos' - pos)))
                    /\ forced <= forced' <= Nat.max forced (clamp (S pos')).
  Proof. induction missing as [|mi IH]; intros pos forced acc; simpl.
    - exists forced. rewrite Nat.add_0_r. pose proof (clamp_le pos).
      replace (Nat.max pos (clamp pos)) with pos by lia. rewrite Nat.sub_diag. simpl. rewrite app_nil_r. split; [easy|lia].
    - destruct (has_elem t pos) eqn:E.
      + destruct (IH (S pos) (force_upto t forced pos) (acc ++ [telt t pos])) as (f' & -> & Hf).
        apply has_elem_spec in E.
        assert (P : Nat.max (S pos) (clamp (S pos + mi)) = Nat.max pos (clamp (pos + S mi)) /\
                    pos < Nat.max pos (clamp (pos + S mi))) by (unfold clamp; destruct (tlen t); lia).
        destruct P as [P Hlt]. rewrite P in *. exists f'. split.
        * rewrite <- app_assoc. do 2 f_equal.
          now replace (Nat.max pos (clamp (pos + S mi)) - pos) with (S (Nat.max pos (clamp (pos + S mi)) - S pos)) by lia.
        * rewrite force_upto_clamp in Hf. pose proof (clamp_mono (S pos) (S (Nat.max pos (clamp (pos + S mi)))) ltac:(lia)). lia.
      + exists (force_upto t forced pos).
        assert (Nat.max pos (clamp (pos + S mi)) = pos) as ->.
        { unfold has_elem, clamp in *. destruct (tlen t); [|easy]. apply Nat.ltb_ge in E. lia. }
        rewrite Nat.sub_diag, force_upto_clamp. simpl. rewrite app_nil_r. split; [easy|lia]. Qed.

  Lemma nth_error_tail_list j i : i < j -> nth_error (map (telt t) (seq 0 j)) i = Some (telt t i).
  Proof. intros H. rewrite nth_error_map, nth_error_seq' by easy. easy. Qed.

  (** the argument sequence, when its first [j] tail elements have been pulled into a list *)
  Lemma arg_at_pulled lead j i : (forall q, q < j -> has_elem t q = true) ->
    i < length lead + j -> arg_at lead t i = nth_error (lead ++ map (telt t) (seq 0 j)) i.
  Proof. intros Hj Hi. destruct (Nat.lt_ge_cases i (length lead)) as [L|L].
    - rewrite arg_at_lead, nth_error_app1; easy.
    - rewrite nth_error_app2 by easy. replace i with (length lead + (i - length lead)) at 1 by lia.
      rewrite arg_at_tail, arg_at_nil, Hj by lia. symmetry. apply nth_error_tail_list. lia. Qed.

  Lemma arg_at_after lead j q :
    arg_at lead t (length (lead ++ map (telt t) (seq 0 j)) + q) = arg_at [] t (j + q).
  Proof. rewrite app_length, map_length, seq_length, <- Nat.add_assoc. apply arg_at_tail. Qed.

  Lemma arg_at_beyond lead i L : tlen t = Some L -> length lead + L <= i -> arg_at lead t i = None.
  Proof. intros HL Hi. replace i with (length lead + (i - length lead)) by lia.
    rewrite arg_at_tail, arg_at_nil. unfold has_elem. rewrite HL.
    destruct (i - length lead <? L) eqn:E; [apply Nat.ltb_lt in E; lia|easy]. Qed.

  Variable s : sig.
  Variable c : callee A.
  Hypothesis Hwf : wf_sig s = true.
  Hypothesis Hbase : base c = s.

  (** eager paths: the whole finite tail is appended *)
  Lemma eager_ok lead L : tlen t = Some L ->
    bind_ok s (pargs c ++ lead) t (call c (map PV (lead ++ tail_list t L))).
  Proof. intros HL. rewrite call_base, Hbase, <- map_app, app_assoc. unfold tail_list.
    assert (Hall : forall q, q < L -> has_elem t q = true).
    { intros q Hq. apply has_elem_spec. now rewrite HL. }
    apply bind_ok_materialized; [easy| |].
    - unfold total. rewrite HL. now rewrite !app_length, map_length, seq_length.
    - intros i. destruct (Nat.lt_ge_cases i (length (pargs c ++ lead) + L)) as [Hi|Hi].
      + now apply arg_at_pulled.
      + rewrite (arg_at_beyond _ i L HL) by easy. symmetry. apply nth_error_None.
        rewrite app_length, map_length, seq_length. lia. Qed.

  (** direct call (also: Var.__call__, a call site naming the global): lead is everything *)
  Lemma direct_ok xs : tlen t = Some 0 -> bind_ok s (pargs c ++ xs) t (call c (map PV xs)).
  Proof. intros HL. rewrite <- (app_nil_r xs) at 2. now apply (eager_ok xs 0). Qed.

  (** `apply` on a callable without :rest, or through the Var *)
  Lemma apply_eager_eq vv lead L : negb vv && snd (arities c) = false -> tlen t = Some L ->
    apply t vv c lead = (call c (map PV (lead ++ tail_list t L)), L).
  Proof. intros Hf HL. unfold apply. rewrite Hf, HL. unfold has_elem. rewrite HL.
    destruct L; [now rewrite app_nil_r|easy]. Qed.

  (** `apply` on a callable with :rest: the fixed parameters not covered by [lead] are taken off
      the tail one by one as long as there are any, the remainder travels wrapped *)
  Lemma apply_lazy_eq lead : snd (arities c) = true ->
    let j := clamp (apply_M c - length lead) in
    apply t false c lead =
      (call c (pyargs (lead ++ tail_list t j) (if has_elem t j then Some j else None)), clamp (S j)).
  Proof. intros Hr j. unfold apply. rewrite Hr. simpl negb. simpl andb. destruct (has_elem t 0) eqn:H0.
    - unfold apply_to_lazy. destruct (length lead <? apply_M c) eqn:K.
      + destruct (pull_closed (apply_M c - length lead) 0 (force_upto t 0 0) []) as (f' & PU & Hf).
        simpl in PU, Hf. rewrite Nat.sub_0_r in PU. rewrite PU. fold j in Hf |- *. rewrite force_upto_clamp in *.
        pose proof (clamp_mono 1 (S j) ltac:(lia)).
        replace (Nat.max f' (clamp (S j))) with (clamp (S j)) by lia.
        unfold pyargs. rewrite map_app, <- app_assoc. destruct (has_elem t j); [reflexivity|]. now rewrite app_nil_r.
      + apply Nat.ltb_ge in K. assert (j = 0) as -> by (pose proof (clamp_le (apply_M c - length lead)); lia).
        rewrite H0, force_upto_clamp. unfold pyargs, tail_list. simpl. now rewrite app_nil_r.
    - assert (HL : tlen t = Some 0).
      { unfold has_elem in H0. destruct (tlen t) as [L|]; [|easy]. apply Nat.ltb_ge in H0. f_equal. lia. }
      assert (j = 0) as -> by (unfold j, clamp; rewrite HL; lia).
      rewrite H0, pyargs_None. simpl. rewrite app_nil_r. f_equal. unfold clamp. now rewrite HL. Qed.

  (** binding is right for `apply` on a variadic callable, any tail (also infinite) *)
  Lemma apply_lazy_ok m lead : variadic s = Some m -> bind_ok s (pargs c ++ lead) t (fst (apply t false c lead)).
  Proof. intros Hv.
    assert (Hr : snd (arities c) = true) by (rewrite arities_rest, Hbase; unfold is_variadic; now rewrite Hv).
    rewrite (apply_lazy_eq lead Hr), apply_M_base, Hbase, (wf_max_fixed s m Hwf Hv). simpl fst.
    set (P := pargs c). set (j := clamp (m - length P - length lead)).
    pose proof (clamp_elems (m - length P - length lead)) as Hq. fold j in Hq.
    destruct (has_elem t j) eqn:HP.
    - apply clamp_full in HP as Hj. fold j in Hj.
      rewrite call_base, Hbase, pyargs_app, app_assoc. fold P.
      apply bind_ok_wrapped with (m := m); try easy.
      + unfold tail_list. rewrite !app_length, map_length, seq_length. lia.
      + intros i Hi. apply arg_at_pulled; [easy|].
        unfold tail_list in Hi. now rewrite app_length, map_length, seq_length in Hi.
      + intros q. apply arg_at_after.
    - rewrite pyargs_None. apply eager_ok. now apply clamp_end. Qed.

  (** how much of the tail `apply` has realized when the body starts, for every callable whose
      arities contain :rest (no well-formedness needed) *)
  Lemma apply_forced lead : snd (arities c) = true ->
    snd (apply t false c lead) = clamp ((apply_M c - length lead) + 1).
  Proof. intros Hr. rewrite (apply_lazy_eq lead Hr). simpl snd. unfold clamp. destruct (tlen t); lia. Qed.
End ApplyProofs.

Section Top.
  Context {A : Type}.
  Implicit Types (c : callee A) (t : tail A).

  (** binding is right for every signature the analyzer accepts, every (nested) partial of it,
      every call shape, every argument count, finite or infinite tail *)
  Theorem bind_correct (s : sig) c : wf_sig s = true -> base c = s ->
    (* direct call, Var.__call__, call site naming the global *)
    (forall xs t, tlen t = Some 0 -> bind_ok s (pargs c ++ xs) t (call c (map PV xs)))
    (* (apply f a1..ak tail): a finite tail, or an infinite one when f is variadic *)
    /\ (forall lead t, (tlen t = None -> is_variadic s = true) ->
          bind_ok s (pargs c ++ lead) t (fst (apply t false c lead)))
    (* (apply #'f a1..ak tail): finite tails only (see apply_via_var_refuted) *)
    /\ (forall lead t L, tlen t = Some L -> bind_ok s (pargs c ++ lead) t (fst (apply t true c lead))).
  Proof. intros Hwf Hb. split; [|split].
    - intros xs t HL. now apply direct_ok.
    - intros lead t Hinf. destruct (variadic s) as [m|] eqn:V.
      + now apply apply_lazy_ok with (m := m).
      + unfold is_variadic in Hinf. rewrite V in Hinf. destruct (tlen t) as [L|] eqn:TL; [|now specialize (Hinf eq_refl)].
        rewrite (apply_eager_eq t c false lead L); [now apply eager_ok| |easy].
        rewrite arities_rest, Hb. unfold is_variadic. now rewrite V.
    - intros lead t L HL. rewrite (apply_eager_eq t c true lead L) by easy. now apply eager_ok. Qed.

  (** what bind_ok says about errors, spelled out: an arity error is raised exactly when no
      arity matches, and then the outcome is not the start of any body; when an arity
      matches, the outcome is the start of THAT arity's body *)
  Lemma bind_ok_error_iff s lead t r : bind_ok s lead t r ->
    ((exists e, r = RArityErr e) <-> forall ar, ~ matches s (total lead t) ar)
    /\ (forall ar ps rv, r = RBound ar ps rv -> choose s (total lead t) = Some ar).
  Proof. unfold bind_ok. destruct (choose s (total lead t)) as [ar|] eqn:C.
    - intros (ps & rv & -> & _). split.
      + split; [intros [e [=]]|]. intros H. exfalso. apply (H ar). now apply choose_matches.
      + now intros ar' ps' rv' [= <- _ _].
    - intros [e ->]. split.
      + split; [|eauto]. intros _. now apply choose_none.
      + easy. Qed.

  (** the dispatcher of a multi-arity fn never lets CPython's own TypeError escape from the
      arity function it selected: whatever the arguments, whatever the signature *)
  Lemma dispatch_no_typeerror (s : sig) (args : list (parg A)) : dispatch s args <> RArityErr TypeErr.
  Proof. unfold dispatch. destruct (existsb _ (fixed s)).
    - unfold py_bind_fixed. rewrite Nat.eqb_refl. now destruct (vals args).
    - destruct (variadic s) as [m|] eqn:V; [|easy].
      destruct (max_fixed s <=? length args) eqn:L; [|easy]. apply Nat.leb_le in L.
      assert (m <= max_fixed s).
      { now apply lmax_ge, variadic_in_counts. }
      unfold py_bind_rest. destruct (length args <? m) eqn:E; [apply Nat.ltb_lt in E; lia|].
      destruct (vals (firstn m args)); [|easy]. destruct (skipn m args); [easy|].
      destruct (unwrap _) as [[? ?]|]; easy. Qed.

  Theorem no_arity_error_after_body_starts (s : sig) c : wf_sig s = true -> base c = s ->
    forall lead t via_var, (tlen t = None -> is_variadic s = true /\ via_var = false) ->
      let r := fst (apply t via_var c lead) in
      ((exists e, r = RArityErr e) <-> forall ar, ~ matches s (total (pargs c ++ lead) t) ar)
      /\ (forall ar ps rv, r = RBound ar ps rv -> choose s (total (pargs c ++ lead) t) = Some ar)
      /\ r <> RLeak /\ r <> RDiverge.
  Proof. intros Hwf Hb lead t vv Hinf r.
    assert (Hok : bind_ok s (pargs c ++ lead) t r).
    { destruct (bind_correct s c Hwf Hb) as (_ & H2 & H3). destruct vv.
      - destruct (tlen t) as [L|] eqn:TL; [now apply H3 with (L := L)|]. now destruct (Hinf eq_refl).
      - apply H2. intros Hn. now destruct (Hinf Hn). }
    destruct (bind_ok_error_iff _ _ _ _ Hok) as [H1 H2]. split; [easy|]. split; [easy|].
    unfold bind_ok in Hok. destruct (choose _ _).
    - destruct Hok as (ps & rv & -> & _). easy.
    - destruct Hok as [e ->]. easy. Qed.

  (** what `apply` forces: exact count, the bound of the property, and the true minimum *)
  Theorem apply_forces_exactly (s : sig) c lead t : base c = s -> is_variadic s = true ->
    snd (apply t false c lead) = clamp t ((max_fixed s - length (pargs c ++ lead)) + 1).
  Proof. intros Hb Hv. rewrite apply_forced by (now rewrite arities_rest, Hb).
    rewrite apply_M_base, Hb, app_length. f_equal. lia. Qed.

  Theorem apply_forces_at_most (s : sig) c m lead t : wf_sig s = true -> base c = s -> variadic s = Some m ->
    let k := length (pargs c ++ lead) in
    let forced := snd (apply t false c lead) in
    forced <= force_bound m k
    /\ (forall a, choose s (total (pargs c ++ lead) t) = Some (AFix a) -> forced <= force_bound a k)
    /\ (match tlen t with Some L => forced <= L | None => True end).
  Proof. intros Hwf Hb Hv k forced. unfold forced.
    rewrite (apply_forces_exactly s c lead t Hb) by (unfold is_variadic; now rewrite Hv).
    rewrite (wf_max_fixed s m Hwf Hv). fold k. unfold force_bound. split; [apply clamp_le|]. split.
    - intros a Hc. apply choose_matches in Hc as [_ Hc]. unfold total in Hc. fold k in Hc. unfold clamp.
      destruct (tlen t) as [L|]; [injection Hc as <-; lia|easy].
    - unfold clamp. destruct (tlen t); [lia|easy]. Qed.

  (** with k <= m leading arguments the code realizes exactly what any implementation must;
      with k > m it realizes one element (the emptiness test of `apply`) where none is needed *)
  Theorem apply_forces_vs_needed (s : sig) c m lead t : wf_sig s = true -> base c = s -> variadic s = Some m ->
    let k := length (pargs c ++ lead) in
    let forced := snd (apply t false c lead) in
    (k <= m -> forced = force_needed m k (tlen t))
    /\ (m < k -> force_needed m k (tlen t) = 0 /\ forced = clamp t 1).
  Proof. intros Hwf Hb Hv k forced. unfold forced.
    rewrite (apply_forces_exactly s c lead t Hb) by (unfold is_variadic; now rewrite Hv).
    rewrite (wf_max_fixed s m Hwf Hv). fold k. unfold force_needed, clamp. split.
    - intros H. assert (E : m <? k = false) by (apply Nat.ltb_ge; lia). rewrite E. destruct (tlen t); lia.
    - intros H. assert (E : m <? k = true) by (now apply Nat.ltb_lt). rewrite E. split; [easy|].
      replace (m - k) with 0 by lia. easy. Qed.

  (** what `partial` recomputes, for arbitrarily nested partials *)
  Theorem partial_arities c :
    apply_M c = max_fixed (base c) - length (pargs c)
    /\ snd (arities c) = is_variadic (base c)
    /\ forall args, call c args = call_fn (base c) (map PV (pargs c) ++ args).
  Proof. split; [apply apply_M_base|]. split; [apply arities_rest|]. apply call_base. Qed.

  (** F-08c (open): the code as it is ([arities_gen false], the shape [arity_partial_cmp] = 0 selects):
      the `arities` attribute of a one-level partial is right only under the executable guard
      [partial_report_ok] *)
  Theorem partial_reported_guarded (s : sig) (pa : list A) : partial_report_ok s (length pa) = true ->
    arities_gen false (CPartial (CFn s) pa) = (shift_counts (all_counts s) (length pa), is_variadic s).
  Proof. unfold partial_report_ok. intros H. apply andb_prop in H as [H1 H2]. apply negb_true_iff in H1.
    apply existsb_eqb_notIn in H1. set (p := length pa) in *.
    assert (Hf : filter (fun a => p <? a) (all_counts s) = filter (fun a => p <=? a) (all_counts s)).
    { apply filter_ext_in. intros a Ha. assert (a <> p) by now intros ->.
      unfold Nat.ltb. destruct (Nat.leb_spec (S p) a), (Nat.leb_spec p a); try easy; lia. }
    cbn [arities_gen]. fold p. rewrite Hf. fold (shift_counts (all_counts s) p).
    destruct (shift_counts (all_counts s) p) eqn:X; [|easy].
    destruct (is_variadic s) eqn:V; [|apply existsb_eqb_notIn in H1; now rewrite H1].
    (* variadic with p < m: the shifted list contains m - p, so it is not empty *)
    exfalso. unfold is_variadic in V. destruct (variadic s) as [m|] eqn:Vm; [|easy]. apply Nat.ltb_lt in H2.
    assert (I : In (m - p) (shift_counts (all_counts s) p)).
    { apply In_shift_counts. replace (p + (m - p)) with m by lia. now apply variadic_in_counts. }
    now rewrite X in I. Qed.
End Top.

(** F-08c (open): (partial (fn ([a] ..) ([a b c] ..)) x) accepts a call with no arguments
    (arity [a] runs) but its `arities` attribute is #{2}: 0 is missing *)
Theorem partial_reported_refuted :
  exists (s : sig) (pa : list unit),
    wf_sig s = true
    /\ In 0 (shift_counts (all_counts s) (length pa))
    /\ ~ In 0 (fst (arities_gen false (CPartial (CFn s) pa)))
    /\ call (CPartial (CFn s) pa) [] = RBound (AFix 1) pa RestNil.
Proof. exists (mkSig [1; 3] None), [tt]. vm_compute. repeat split; try tauto. intros [H|H]; [discriminate|easy]. Qed.

(** F-08d: apply through the Var does not use apply_to: an infinite tail is consumed eagerly,
    and a finite one is realized completely although the bound of the property is 1 *)
Theorem apply_via_var_refuted :
  exists (s : sig) (t : tail nat), wf_sig s = true /\ is_variadic s = true /\ tlen t = None
    /\ fst (apply t true (CFn s) []) = RDiverge
    /\ fst (apply t false (CFn s) []) = RBound (ARest 0) [] (RestSeq [] (Some 0))
    /\ exists t6 : tail nat, tlen t6 = Some 6 /\ snd (apply t6 true (CFn s) []) = 6 /\ force_bound 0 0 = 1.
Proof. exists (mkSig [] (Some 0)), (mkTail None (fun i => i)). repeat split.
  exists (mkTail (Some 6) (fun i => i)). now vm_compute. Qed.

(** non-vacuity of bind_correct's premises and of the lazy path: fixed {1}, variadic 3,
    (apply (partial f :p) :x <infinite>) binds [:p :x 0] and the rest from position 1, having
    realized 2 elements *)
Example bind_nonvacuous :
  let s := mkSig [1] (Some 3) in
  let c := CPartial (CFn s) [200] in
  let t := mkTail None (fun i => i) in
  wf_sig s = true /\ apply t false c [100] = (RBound (ARest 3) [200; 100; 0] (RestSeq [] (Some 1)), 2).
Proof. now vm_compute. Qed.
