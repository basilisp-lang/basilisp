(** C08 -- recur: what the trampoline re-binds, and the Python stack depth. *)
From Coq Require Import List Arith Bool Lia NArith.
Import ListNotations.
From Verif Require Import Common.ListX C08.Arity C08.Spec C08.Proofs.

(** What the trampoline hands to the arity function when the recur values end in [v]. *)
Lemma tramp_args_snoc nd pre v : tramp_args_gen nd true (pre ++ [v]) =
  match v with
  | VNil => Some (pre ++ if nd then [] else [v])
  | VSeq l => Some (pre ++ map VAtom l)
  | VInf => None
  | _ => Some (pre ++ [v])
  end.
Proof. unfold tramp_args_gen. simpl negb. cbv iota. rewrite rev_unit.
  destruct v; simpl; rewrite ?rev_involutive; try reflexivity. destruct nd; [now rewrite app_nil_r|reflexivity]. Qed.

Lemma tramp_args_not_iseq vs : is_iseq (last vs VNil) = false -> tramp_args_gen false true vs = Some vs.
Proof. induction vs as [|v pre _] using rev_ind; [reflexivity|]. rewrite last_last, tramp_args_snoc. now destruct v. Qed.

(** a legal recur into the variadic arity: a value for each fixed parameter, then one more *)
Lemma legal_snoc {B} m (vs : list B) : length vs = S m -> exists pre v, vs = pre ++ [v] /\ length pre = m.
Proof. intros H. destruct (@exists_last _ vs) as (pre & v & ->); [now destruct vs|].
  exists pre, v. rewrite app_length in H. simpl in H. split; [easy|lia]. Qed.

Lemma firstn_skipn_exact {B} (pre X : list B) m : length pre = m ->
  firstn m (pre ++ X) = pre /\ skipn m (pre ++ X) = X.
Proof. intros <-. split; [apply firstn_length_app|apply skipn_length_app]. Qed.

Lemma py_bind_rest_snoc {A} m (pre X : list A) : length pre = m ->
  py_bind_rest m (map PV (pre ++ X)) = RBound (ARest m) pre (match X with [] => RestNil | _ => RestSeq X None end).
Proof. intros H. rewrite py_bind_rest_vals by (rewrite app_length; lia).
  destruct (firstn_skipn_exact pre X m H) as [-> ->]. now destruct X. Qed.

Section Rebind.
  Variable s : sig.

  (** a recur in a FIXED arity re-binds its parameters to the values as they are, whatever the
      values (per-arity flag, repair F-08b) *)
  Lemma recur_fixed nd n vs : length vs = n -> recur_step_gen true nd s (AFix n) vs = RBound (AFix n) vs RestNil.
  Proof. intros <-. unfold recur_step_gen, tramp_args_gen. simpl. apply py_bind_fixed_vals. Qed.

  (** the variadic arity, last value a finite ISeq or (repair F-08a) nil *)
  Lemma recur_rest_ok m vs : length vs = S m -> recur_safe (ARest m) vs = true ->
    recur_ok (ARest m) vs (recur_step_gen true true s (ARest m) vs).
  Proof. intros Hlen Hsafe. destruct (legal_snoc m vs Hlen) as (pre & v & -> & Hp).
    unfold recur_step_gen, recur_ok. simpl in Hsafe. rewrite last_last in *. rewrite tramp_args_snoc.
    rewrite (proj1 (firstn_skipn_exact pre [v] m Hp)).
    destruct v; try discriminate; simpl call_arity; rewrite py_bind_rest_snoc by easy; [easy|now destruct l]. Qed.
End Rebind.

(** The working tree's [recur_step] has the repaired shape: the regenerated flags say so
    ([Proofs.repairs_present]) and conversion computes them. *)
Lemma recur_step_repaired : recur_step = recur_step_gen true true.
Proof. reflexivity. Qed.

(** every recur in a fixed arity; a recur in the variadic arity under the executable guard [recur_safe] *)
Theorem recur_rebinds_partial (s : sig) (ar : arity) (vs : list rval) :
  recur_legal ar vs -> recur_safe ar vs = true -> recur_ok ar vs (recur_step s ar vs).
Proof. rewrite recur_step_repaired. intros Hlen Hsafe. destruct ar as [n|m]; simpl in Hlen.
  - simpl. now apply recur_fixed.
  - now apply recur_rest_ok. Qed.

(** and no recur ends in an arity error, guard or not *)
Theorem recur_never_arity_error (s : sig) (ar : arity) (vs : list rval) :
  recur_legal ar vs -> forall e, recur_step s ar vs <> RArityErr e.
Proof. rewrite recur_step_repaired. intros Hlen e. destruct ar as [n|m]; simpl in Hlen.
  - now rewrite recur_fixed.
  - destruct (legal_snoc m vs Hlen) as (pre & v & -> & Hp). unfold recur_step_gen. rewrite tramp_args_snoc.
    destruct v; try easy; simpl call_arity; now rewrite py_bind_rest_snoc. Qed.

Example recur_rebinds_nonvacuous :
  let s := mkSig [0; 1] (Some 1) in
  let vs := [VAtom 5%N; VSeq [7%N; 8%N]] in
  wf_sig s = true /\ recur_legal (ARest 1) vs /\ recur_safe (ARest 1) vs = true
  /\ recur_step_gen true true s (ARest 1) vs = RBound (ARest 1) [VAtom 5%N] (RestSeq [VAtom 7%N; VAtom 8%N] None)
  /\ recur_step_gen true true s (ARest 1) [VAtom 5%N; VNil] = RBound (ARest 1) [VAtom 5%N] RestNil
  /\ recur_step_gen true true s (AFix 1) [VSeq [7%N; 8%N]] = RBound (AFix 1) [VSeq [7%N; 8%N]] RestNil.
Proof. now vm_compute. Qed.

(** F-08e (open): without the guard the clause still fails in the variadic arity.  Witnesses:
    (fn [a & xs] .. (recur a <infinite lazy seq>))   never returns (the seq is realized eagerly)
    (fn [a & xs] .. (recur a [7 8]))                 rest = ([7 8]) instead of (7 8) *)
Theorem recur_rebinds_refuted :
  (exists s ar vs, wf_sig s = true /\ arity_of s ar /\ recur_legal ar vs
      /\ recur_step s ar vs = RDiverge /\ ~ recur_ok ar vs (recur_step s ar vs))
  /\ (exists s ar vs, wf_sig s = true /\ arity_of s ar /\ recur_legal ar vs
      /\ recur_step s ar vs = RBound (ARest 1) [VAtom 1%N] (RestSeq [VVec [7%N; 8%N]] None)
      /\ ~ recur_ok ar vs (recur_step s ar vs)).
Proof. split.
  - exists (mkSig [] (Some 1)), (ARest 1), [VAtom 1%N; VInf]. vm_compute. repeat split; try easy.
    intros (pre & lz & H). discriminate.
  - exists (mkSig [] (Some 1)), (ARest 1), [VAtom 1%N; VVec [7%N; 8%N]]. vm_compute. repeat split; try easy. Qed.

(** The code BEFORE the repairs ([recur_step_gen false false]): F-08a and F-08b.
    1. (fn [& xs] .. (recur nil))                          rest = (nil) instead of nil
    2. (fn ([a b] .. (recur a '(7 8))) ([a b & r] ..))     TypeError, after the body ran
    3. (fn ([a b] .. (recur a '(7))) ([a b & r] ..))       b = 7 instead of (7) *)
Theorem recur_old_shape_refuted :
  (exists s ar vs, wf_sig s = true /\ arity_of s ar /\ recur_legal ar vs
      /\ recur_step_gen false false s ar vs = RBound (ARest 0) [] (RestSeq [VNil] None)
      /\ ~ recur_ok ar vs (recur_step_gen false false s ar vs))
  /\ (exists s ar vs, wf_sig s = true /\ arity_of s ar /\ recur_legal ar vs
      /\ recur_step_gen false false s ar vs = RArityErr TypeErr
      /\ ~ recur_ok ar vs (recur_step_gen false false s ar vs))
  /\ (exists s ar vs, wf_sig s = true /\ arity_of s ar /\ recur_legal ar vs
      /\ recur_step_gen false false s ar vs = RBound (AFix 2) [VAtom 1%N; VAtom 7%N] RestNil
      /\ ~ recur_ok ar vs (recur_step_gen false false s ar vs)).
Proof. repeat split.
  - exists (mkSig [] (Some 0)), (ARest 0), [VNil]. vm_compute. repeat split; try easy.
  - exists (mkSig [2] (Some 2)), (AFix 2), [VAtom 1%N; VSeq [7%N; 8%N]]. vm_compute. repeat split; try easy. now left.
  - exists (mkSig [2] (Some 2)), (AFix 2), [VAtom 1%N; VSeq [7%N]]. vm_compute. repeat split; try easy. now left. Qed.

(** ... and on which sub-domain that code was right *)
Theorem recur_old_shape_partial (s : sig) (ar : arity) (vs : list rval) :
  arity_of s ar -> recur_legal ar vs -> recur_safe_old s ar vs = true ->
  recur_ok ar vs (recur_step_gen false false s ar vs).
Proof. intros Har Hlen Hsafe. unfold recur_step_gen. destruct ar as [n|m]; simpl in *.
  - assert (T : tramp_args_gen false (is_variadic s) vs = Some vs).
    { destruct (is_variadic s); [|easy]. apply tramp_args_not_iseq. now apply negb_true_iff in Hsafe. }
    rewrite T. subst n. apply py_bind_fixed_vals.
  - unfold is_variadic. rewrite Har. destruct (legal_snoc m vs Hlen) as (pre & v & -> & Hp).
    rewrite last_last in *. rewrite tramp_args_snoc. destruct v; try discriminate.
    simpl call_arity. rewrite py_bind_rest_snoc by easy.
    rewrite (proj1 (firstn_skipn_exact pre [VSeq l] m Hp)). now destruct l. Qed.

Section Depth.
  Variable again : nat -> bool.

  (** the trampoline is a loop run one frame up: the called function's frame is pushed and popped at every turn *)
  Lemma tramp_run_loop : forall fuel stack i trace,
    tramp_run again fuel stack i trace = loop_run again fuel (FBody :: stack) i trace.
  Proof. induction fuel as [|f IH]; intros stack i trace; simpl; [reflexivity|]. destruct (again i); [apply IH|reflexivity]. Qed.

  Lemma loop_run_spec : forall n fuel stack i trace,
    (forall j, i <= j < i + n -> again j = true) -> again (i + n) = false -> n < fuel ->
    loop_run again fuel stack i trace = Some (rev trace ++ repeat (length stack) (S n)).
  Proof. induction n as [|n IH]; intros fuel stack i trace Hyes Hno Hf; (destruct fuel as [|f]; [lia|]); simpl loop_run.
    - rewrite Nat.add_0_r in Hno. rewrite Hno. easy.
    - rewrite (Hyes i) by lia. rewrite IH; try lia.
      + simpl rev. now rewrite <- app_assoc.
      + intros j Hj. apply Hyes. lia.
      + now replace (S i + n) with (i + S n) by lia. Qed.

  Lemma selfcall_run_spec : forall n fuel stack i trace,
    (forall j, i <= j < i + n -> again j = true) -> again (i + n) = false -> n < fuel ->
    selfcall_run again fuel stack i trace = Some (rev trace ++ map (fun d => S (length stack) + d) (seq 0 (S n))).
  Proof. induction n as [|n IH]; intros fuel stack i trace Hyes Hno Hf; (destruct fuel as [|f]; [lia|]); simpl selfcall_run.
    - rewrite Nat.add_0_r in Hno. rewrite Hno. simpl. now rewrite Nat.add_0_r.
    - rewrite (Hyes i) by lia. rewrite IH; try lia.
      + simpl rev. rewrite <- app_assoc.
        change (seq 0 (S (S n))) with (0 :: seq 1 (S n)). rewrite <- seq_shift, map_cons, map_map.
        f_equal. f_equal. cbn [app length]. f_equal; [lia|]. apply map_ext. intros a. lia.
      + intros j Hj. apply Hyes. lia.
      + now replace (S i + n) with (i + S n) by lia. Qed.

  (** a body that recurs n times (any n) and then returns observes the
      same Python stack depth at each of its n+1 executions: that of the caller plus 0 (loop),
      2 (single-arity fn: trampoline + fn) or 3 (multi-arity fn: dispatcher + trampoline +
      arity fn) -- independent of n *)
  Theorem recur_constant_stack (k : rkind) (host : list frame) (n fuel : nat) :
    (forall j, j < n -> again j = true) -> again n = false -> n < fuel ->
    run_kind k again fuel host = Some (repeat (length host + rel_depth k) (S n)).
  Proof. intros Hyes Hno Hf. unfold run_kind.
    assert (Hy : forall j, 0 <= j < 0 + n -> again j = true) by (intros; apply Hyes; lia).
    destruct k; simpl rel_depth.
    - rewrite (loop_run_spec n) by easy. simpl. now rewrite Nat.add_0_r.
    - rewrite tramp_run_loop, (loop_run_spec n) by easy. simpl. do 3 f_equal; lia.
    - rewrite tramp_run_loop, (loop_run_spec n) by easy. simpl. do 3 f_equal; lia. Qed.

  (** the contrast that makes the depth counter meaningful: the same iteration written as a
      self-call by name deepens the stack by one frame per iteration *)
  Theorem selfcall_stack_grows (host : list frame) (n fuel : nat) :
    (forall j, j < n -> again j = true) -> again n = false -> n < fuel ->
    selfcall_run again fuel host 0 [] = Some (map (fun d => S (length host) + d) (seq 0 (S n))).
  Proof. intros Hyes Hno Hf. rewrite (selfcall_run_spec n); try easy. intros; apply Hyes; lia. Qed.
End Depth.

Example recur_stack_nonvacuous :
  run_kind KFnMulti (fun i => i <? 5) 100 [FHost; FHost] = Some [5; 5; 5; 5; 5; 5]
  /\ selfcall_run (fun i => i <? 5) 100 [FHost; FHost] 0 [] = Some [3; 4; 5; 6; 7; 8].
Proof. now vm_compute. Qed.
