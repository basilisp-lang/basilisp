(** C08 -- the executable specification used by the correspondence ([spec_binding] of Corr.v)
    is the observation of exactly the outcomes the declarative specification [bind_ok] allows. *)
From Coq Require Import List Arith Lia NArith.
From Verif Require Import C08.Corr C08.Proofs.

Lemma take_args_spec (lead : list N) (t : tail N) : forall cnt i ps,
  length ps = cnt -> (forall j, j < cnt -> nth_error ps j = arg_at lead t (i + j)) ->
  take_args lead t i cnt = ps.
Proof. induction cnt as [|cnt IH]; intros i ps Hl Hn.
  - now destruct ps.
  - destruct ps as [|a ps]; [easy|]. simpl. specialize (Hn 0 ltac:(lia)) as H0. simpl in H0.
    rewrite Nat.add_0_r in H0. rewrite <- H0. f_equal. apply IH; [simpl in Hl; lia|].
    intros j Hj. specialize (Hn (S j) ltac:(lia)). simpl in Hn. now replace (S i + j) with (i + S j) by lia. Qed.

Lemma take_rest_args (lead : list N) (t : tail N) (rv : restv N) : forall n a b,
  (forall i, rest_nth t rv (a + i) = arg_at lead t (b + i)) ->
  take_rest t rv a n = take_args lead t b n.
Proof. induction n as [|n IH]; intros a b H; [easy|]. simpl.
  specialize (H 0) as H0. rewrite !Nat.add_0_r in H0. rewrite H0.
  destruct (arg_at lead t b); [|easy]. f_equal. apply IH. intros i.
  specialize (H (S i)). now replace (S a + i) with (a + S i) by lia; replace (S b + i) with (b + S i) by lia. Qed.

Lemma onat_eqb_eq a b : onat_eqb a b = true <-> a = b.
Proof. apply option_eqb_spec, Nat.eqb_eq. Qed.

Theorem observe_of_bind_ok (s : sig) (lead : list N) (t : tail N) (r : result N) (forced : nat) :
  bind_ok s lead t r ->
  match spec_binding s lead t with
  | Some (ar, ps, rv) => observe t (r, forced) = OBound (arity_code ar) ps rv (N.of_nat forced)
  | None => observe t (r, forced) = OArityErr (N.of_nat forced)
  end.
Proof. unfold bind_ok, spec_binding. destruct (choose s (total lead t)) as [ar|].
  - intros (ps & rv & -> & Hl & Hn & Hr). unfold observe. simpl fst. simpl snd.
    rewrite (take_args_spec lead t (arity_count ar) 0 ps Hl) by (intros j Hj; now apply Hn).
    f_equal. destruct ar as [n|m].
    + now subst rv.
    + destruct Hr as [Hnil Hnth]. destruct (onat_eqb (total lead t) (Some m)) eqn:E.
      * apply onat_eqb_eq in E. apply Hnil in E. now subst rv.
      * destruct rv as [|pre lz].
        -- assert (X : total lead t = Some m) by now apply Hnil. apply onat_eqb_eq in X. congruence.
        -- simpl rest_is_nil. cbv iota. f_equal. apply take_rest_args. intros i. apply Hnth.
  - now intros [e ->]. Qed.

(** the callables the correspondence builds: signature and pre-supplied arguments *)
Lemma part_vals_app from a b : part_vals from a ++ part_vals (from + a) b = part_vals from (a + b).
Proof. unfold part_vals. now rewrite seq_app, map_app. Qed.

Lemma mk_callee_from_spec : forall ps c from,
  base (mk_callee_from c from ps) = base c
  /\ pargs (mk_callee_from c from ps) = pargs c ++ part_vals from (n_partial ps).
Proof. induction ps as [|p ps IH]; intros c from; simpl.
  - unfold part_vals. simpl. now rewrite app_nil_r.
  - destruct (IH (CPartial c (part_vals from (nat_of p))) (from + nat_of p)) as [H1 H2].
    split; [now rewrite H1|]. rewrite H2. simpl. now rewrite <- app_assoc, part_vals_app. Qed.

Lemma mk_callee_spec s ps :
  base (mk_callee s ps) = s /\ pargs (mk_callee s ps) = part_vals 0 (n_partial ps).
Proof. unfold mk_callee. destruct (mk_callee_from_spec ps (CFn s) 0) as [H1 H2]. now rewrite H1, H2. Qed.

(** hence, for every direct-call case of the correspondence in the property's domain, the
    observation of the Coq model's outcome is the binding [spec_ok] demands *)
Corollary direct_meets_spec (s : sig) (ps : list N) (n : nat) :
  wf_sig s = true ->
  let c := mk_callee s ps in
  let t := mk_tail (Some 0%N) in
  match spec_binding s (pargs c ++ lead_vals n) t with
  | Some (ar, p, rv) => observe t (call c (map PV (lead_vals n)), 0) = OBound (arity_code ar) p rv 0
  | None => observe t (call c (map PV (lead_vals n)), 0) = OArityErr 0
  end.
Proof. intros Hwf c t. apply (observe_of_bind_ok s _ t _ 0).
  destruct (bind_correct s c Hwf (proj1 (mk_callee_spec s ps))) as (H1 & _ & _). now apply H1. Qed.

Corollary model_direct_meets_spec (s : sig) (ps : list N) (n : nat) :
  wf_sig s = true ->
  let c := mk_callee s ps in
  let t := mk_tail (Some 0%N) in
  base c = s ->
  match spec_binding s (pargs c ++ lead_vals n) t with
  | Some (ar, p, rv) => observe t (call c (map PV (lead_vals n)), 0) = OBound (arity_code ar) p rv 0
  | None => observe t (call c (map PV (lead_vals n)), 0) = OArityErr 0
  end.
Proof. intros Hwf c t _. now apply direct_meets_spec. Qed.
