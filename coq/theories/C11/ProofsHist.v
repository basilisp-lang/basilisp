(** C11: well-nested histories of any depth restore the entry state; failed
    pushes; set!; threads; conveyance.  All for the repaired shape (1) of
    push_thread_bindings; the old shape (0) is refuted, and the executable model of the
    correspondence check is tied to [gstep], at the end. *)
From Coq Require Import List ZArith Bool Lia Permutation.
Import ListNotations.
From Verif Require Import C11.Proofs C11.Corr.

Section H.
  Variable c : cfg.
  Notation run := (run c 1).
  Notation lstep := (lstep c 1).

  (** Well-nested histories of one thread: every binding form that was entered is left
      (normally or by exception) after a well-nested body; a form whose establishment fails
      opens no level.  Any depth, any number of Vars. *)
  Inductive balanced : list wop -> Prop :=
  | bal_nil : balanced []
  | bal_noop h : balanced h -> balanced (WNoop :: h)
  | bal_set v x h : balanced h -> balanced (WSet v x :: h)
  | bal_fail m h : NoDup (keys m) -> push_okb c m = false -> balanced h ->
                   balanced (WEnter m :: h)
  | bal_form m body b h : NoDup (keys m) -> push_okb c m = true ->
                          balanced body -> balanced h ->
                          balanced (WEnter m :: body ++ WLeave b :: h).

  (** the Vars a history applies set! to *)
  Definition setvars (h : list wop) : list var :=
    flat_map (fun o => match o with WSet v _ => [v] | _ => [] end) h.

  Lemma setvars_app h1 h2 : setvars (h1 ++ h2) = setvars h1 ++ setvars h2.
  Proof. unfold setvars. apply flat_map_app. Qed.

  (** [b] is [a] except that the tops of the stacks of Vars in S may have been replaced *)
  Definition same_shape (S : list var) (a b : tstate) : Prop :=
    frames b = frames a /\
    forall u, length (stk b u) = length (stk a u) /\ tl (stk b u) = tl (stk a u) /\
              (~ In u S -> stk b u = stk a u).

  Lemma same_shape_refl S a : same_shape S a a.
  Proof. split; [reflexivity|]. intros; repeat split; reflexivity. Qed.

  Lemma same_shape_trans S1 S2 S a b d :
    incl S1 S -> incl S2 S -> same_shape S1 a b -> same_shape S2 b d -> same_shape S a d.
  Proof.
    intros I1 I2 [F1 P1] [F2 P2]. split; [congruence|]. intros u.
    destruct (P1 u) as [L1 [T1 E1]]. destruct (P2 u) as [L2 [T2 E2]].
    repeat split; try congruence.
    intros NI. rewrite E2, E1; auto.
  Qed.

  (** what a balanced history does: the invariant is kept, and only the tops of the stacks
      of the Vars it applies set! to may have changed *)
  Definition good (h : list wop) (st : tstate) : Prop :=
    inv c (run h st) /\ same_shape (setvars h) st (run h st).

  (** one binding form around a body that behaves *)
  Lemma form_step m body b st :
    inv c st -> NoDup (keys m) -> push_okb c m = true ->
    (forall st1, inv c st1 -> good body st1) ->
    let st3 := run (WEnter m :: body ++ [WLeave b]) st in
    inv c st3 /\ frames st3 = frames st /\
    forall u, length (stk st3 u) = length (stk st u) /\ tl (stk st3 u) = tl (stk st u) /\
              (memb u (keys m) = true \/ ~ In u (setvars body) -> stk st3 u = stk st u).
  Proof.
    intros I ND OK B. simpl.
    destruct (enter_ok_char c 1 m st ND OK) as [st1 [E1 [F1 S1]]]. rewrite E1. simpl.
    assert (I1 : inv c st1) by (eapply inv_enter; eauto).
    rewrite run_app. destruct (B st1 I1) as [I2 [F2 P2]].
    set (st2 := run body st1) in *. simpl.
    assert (F2' : frames st2 = rev (keys m) :: frames st) by congruence.
    destruct (leave_char c st2 _ _ I2 F2') as [st3 [E3 [F3 S3]]]. rewrite E3. simpl.
    split; [eapply inv_leave; eauto|]. split; [exact F3|].
    intros u. rewrite S3, memb_rev. destruct (P2 u) as [L [T NS]].
    pose proof (assoc_memb u m) as A. rewrite S1 in L, T, NS.
    destruct (assoc u m) as [x|]; rewrite <- A.
    - simpl in T. rewrite T. repeat split; reflexivity.
    - repeat split; try assumption. intros [H|H]; [discriminate | apply NS; exact H].
  Qed.

  Lemma good_app h1 h2 st :
    same_shape (setvars h1) st (run h1 st) -> good h2 (run h1 st) -> good (h1 ++ h2) st.
  Proof.
    intros P1 [I2 P2]. unfold good. rewrite run_app, setvars_app. split; [exact I2|].
    eapply same_shape_trans; [| |exact P1|exact P2]; intros u H; apply in_or_app; auto.
  Qed.

  Lemma good_set v x st : inv c st -> good [WSet v x] st.
  Proof.
    intro I. split; [apply (inv_step c st (WSet v x)); simpl; auto|]. simpl.
    destruct (set_char c v x st) as [[TB [V [st' [E [F [Sv Su]]]]]]|[code [E _]]]; rewrite E; simpl;
      [|apply same_shape_refl].
    split; [exact F|]. intros u. destruct (N.eq_dec u v) as [->|Huv].
    - rewrite Sv. apply thread_bound_true in TB as [_ NE].
      destruct (stk st v); [contradiction NE; reflexivity|]. repeat split; try reflexivity.
      intros NI. exfalso. apply NI. left. reflexivity.
    - rewrite (Su u Huv). repeat split; reflexivity.
  Qed.

  Lemma balanced_good h : balanced h -> forall st, inv c st -> good h st.
  Proof.
    induction 1 as [|h B IH|v x h B IH|m h ND OK B IH|m body b h ND OK Bb IHb Bh IHh]; intros st I.
    - split; [exact I | apply same_shape_refl].
    - exact (IH st I).
    - pose proof (good_set v x st I) as G. apply (good_app [WSet v x] h); [apply G | apply IH, G].
    - assert (G : good [WEnter m] st).
      { unfold good. simpl. destruct (enter_fail_char c m st ND OK) as [st' [code [E [R _]]]]. rewrite E. simpl.
        split; [exact (inv_steq c st st' (steq_sym _ _ R) I)|].
        destruct R as [R1 R2]. split; [exact R1|]. intros u. rewrite R2. repeat split; reflexivity. }
      apply (good_app [WEnter m] h); [apply G | apply IH, G].
    - replace (WEnter m :: body ++ WLeave b :: h) with ((WEnter m :: body ++ [WLeave b]) ++ h)
        by (simpl; rewrite <- app_assoc; reflexivity).
      destruct (form_step m body b st I ND OK IHb) as [I3 [F3 P3]].
      apply good_app; [|apply IHh; exact I3]. split; [exact F3|].
      intros u. destruct (P3 u) as [L [T E]]. repeat split; auto.
      intro NI. apply E. right. intro H. apply NI. simpl. rewrite setvars_app. apply in_or_app. left. exact H.
  Qed.

  Theorem well_nested_restores m body b st :
    inv c st -> NoDup (keys m) -> push_okb c m = true -> balanced body ->
    let st' := run (WEnter m :: body ++ [WLeave b]) st in
    inv c st' /\ frames st' = frames st /\
    (forall u, length (stk st' u) = length (stk st u) /\ tl (stk st' u) = tl (stk st u)) /\
    (forall u, memb u (keys m) = true \/ ~ In u (setvars body) ->
               stk st' u = stk st u /\ value c st' u = value c st u).
  Proof.
    intros I ND OK B st'.
    pose proof (form_step m body b st I ND OK (balanced_good body B)) as X. cbv zeta in X.
    fold st' in X. destruct X as [I3 [F3 P3]].
    split; [exact I3|]. split; [exact F3|]. split.
    - intros u. destruct (P3 u) as [L [T _]]. split; assumption.
    - intros u H. destruct (P3 u) as [_ [_ E]]. specialize (E H). split; [exact E | apply value_stk, E].
  Qed.

  (** a history without set! on outer Vars: the whole thread state is restored *)
  Corollary well_nested_restores_all m body b st :
    inv c st -> NoDup (keys m) -> push_okb c m = true -> balanced body ->
    (forall u, In u (setvars body) -> In u (keys m)) ->
    steq (run (WEnter m :: body ++ [WLeave b]) st) st.
  Proof.
    intros I ND OK B S.
    destruct (well_nested_restores m body b st I ND OK B) as [_ [F [_ P]]].
    split; [exact F|]. intros u. apply P.
    destruct (memb u (keys m)) eqn:M; [left; reflexivity|]. right. intros H.
    apply S in H. apply memb_In in H. congruence.
  Qed.

  (** whatever the iteration order (m IS the order),
      whichever position the offending Var has, and whatever was pushed before it *)
  Theorem failed_push_restores m st :
    NoDup (keys m) -> push_okb c m = false ->
    exists st' code, push_thread_bindings c 1 m st = (st', code) /\ code <> 0%N /\
      frames st' = frames st /\
      forall u, stk st' u = stk st u /\ value c st' u = value c st u.
  Proof.
    intros ND OK. destruct (enter_fail_char c m st ND OK) as [st' [code [E [[F S] K]]]].
    exists st', code. split; [exact E|]. split.
    - destruct K as [[-> _]|[-> _]]; discriminate.
    - split; [exact F|]. intros u. split; [apply S | apply value_stk, S].
  Qed.

  Theorem set_bang_innermost v x st :
    let st' := fst (set_bang c v x st) in
    frames st' = frames st /\
    (forall u, u <> v -> stk st' u = stk st u) /\
    tl (stk st' v) = tl (stk st v) /\
    (snd (set_bang c v x st) = 0%N ->
       thread_bound c st v = true /\ valid c v x = true /\ value c st' v = x) /\
    (snd (set_bang c v x st) <> 0%N -> st' = st).
  Proof.
    destruct (set_char c v x st) as [[TB [V [st' [E [F [Sv Su]]]]]]|[code [E [NZ _]]]]; rewrite E; simpl.
    - split; [exact F|]. split; [exact Su|]. split; [rewrite Sv; reflexivity|].
      split; [|intros HH; exfalso; apply HH; reflexivity].
      intros _. split; [exact TB|]. split; [exact V|].
      unfold value. rewrite Sv. apply thread_bound_true in TB as [D _]. rewrite D. reflexivity.
    - split; [reflexivity|]. split; [reflexivity|]. split; [reflexivity|].
      split; [intros HH; exfalso; apply NZ; exact HH | reflexivity].
  Qed.

  Theorem thread_isolation_step shape g t o u : u <> target t o -> gstep c shape g t o u = g u.
  Proof.
    intros H. destruct o; simpl in *; unfold gupd; apply N.eqb_neq in H; rewrite H; reflexivity.
  Qed.

  Theorem thread_isolation shape sched : forall g u,
    (forall t o, In (t, o) sched -> target t o <> u) -> grun c shape sched g u = g u.
  Proof.
    induction sched as [|[t o] r IH]; intros g u H; simpl; [reflexivity|].
    rewrite IH.
    - apply thread_isolation_step. intros E. apply (H t o); [left; reflexivity | congruence].
    - intros t' o' I. apply (H t' o'). right. exact I.
  Qed.

  Lemma nframes_pos u fs : (0 < nframes u fs)%nat <-> In u (concat fs).
  Proof.
    unfold nframes. induction fs as [|f r IH]; simpl; [split; [lia | tauto]|].
    rewrite in_app_iff. destruct (memb u f) eqn:M; simpl.
    - split; [intros _; left; apply memb_In; exact M | lia].
    - rewrite IH. split; [tauto|]. intros [H|H]; [|exact H].
      apply memb_In in H. congruence.
  Qed.

  Lemma bound_iff_in_frames st u : inv c st -> (stk st u <> [] <-> In u (concat (frames st))).
  Proof.
    intros I. rewrite <- nframes_pos, <- (inv_len c st I).
    destruct (stk st u); simpl; split; intros; try lia; try congruence.
  Qed.

  Lemma snapshot_keys st : keys (snapshot c st) = nodup N.eq_dec (concat (rev (frames st))).
  Proof. unfold keys, snapshot. rewrite map_map. simpl. apply map_id. Qed.

  Lemma in_concat_rev (u : var) fs : In u (concat (rev fs)) <-> In u (concat fs).
  Proof.
    rewrite !in_concat. split; intros [f [H1 H2]]; exists f; (split; [|exact H2]);
      [apply in_rev in H1 | apply in_rev; rewrite rev_involutive]; exact H1.
  Qed.

  Lemma snapshot_keys_bound st u : inv c st -> (In u (keys (snapshot c st)) <-> stk st u <> []).
  Proof.
    intro I. rewrite snapshot_keys, nodup_In, in_concat_rev. symmetry. apply bound_iff_in_frames. exact I.
  Qed.

  Lemma snapshot_assoc st u : inv c st ->
    assoc u (snapshot c st) = if thread_bound c st u then Some (value c st u) else None.
  Proof.
    intros I. unfold snapshot.
    assert (G : forall l, assoc u (map (fun v => (v, value c st v)) l)
                          = if memb u l then Some (value c st u) else None).
    { induction l as [|a l IH]; simpl; [reflexivity|].
      destruct (N.eqb u a) eqn:E; simpl; [apply N.eqb_eq in E; subst; reflexivity | exact IH]. }
    rewrite G, <- snapshot_keys. unfold thread_bound.
    destruct (memb u (keys (snapshot c st))) eqn:M.
    - apply memb_In, (snapshot_keys_bound st u I) in M.
      rewrite (inv_dyn c st I u M). destruct (stk st u); [congruence | reflexivity].
    - apply memb_false in M. rewrite (snapshot_keys_bound st u I) in M.
      destruct (stk st u); [rewrite andb_false_r; reflexivity|]. exfalso. apply M. discriminate.
  Qed.

  Lemma snapshot_ok st : inv c st -> NoDup (keys (snapshot c st)) /\ push_okb c (snapshot c st) = true.
  Proof.
    intros I. split; [rewrite snapshot_keys; apply NoDup_nodup|].
    unfold push_okb. apply forallb_forall. intros [v x] H. simpl.
    pose proof (proj1 (snapshot_keys_bound st v I) (in_map fst _ _ H)) as NE.
    unfold snapshot in H. apply in_map_iff in H. destruct H as [v' [E _]]. inversion E. subst v' x.
    pose proof (inv_dyn c st I v NE) as D. rewrite D. simpl. unfold value. rewrite D.
    destruct (stk st v) as [|y t] eqn:S; [congruence|].
    apply (inv_valid c st I v y). rewrite S. left. reflexivity.
  Qed.

  (** Work created in a thread whose state is [cr] (by bound-fn*, hence by future / pmap) and
      run in a thread whose state is [wk]: establishing the conveyed bindings never fails, and
      the work then sees, for every Var the creator had bound, the creator's value at the
      time of creation; a worker without bindings of its own sees the creator's value of
      EVERY Var. *)
  Theorem conveyance cr wk : inv c cr ->
    exists st1, push_thread_bindings c 1 (snapshot c cr) wk = (st1, 0%N) /\
      (forall v, value c st1 v = if thread_bound c cr v then value c cr v else value c wk v) /\
      ((forall u, stk wk u = []) -> forall v, value c st1 v = value c cr v).
  Proof.
    intros I. destruct (snapshot_ok cr I) as [ND OK].
    destruct (enter_ok_char c 1 _ wk ND OK) as [st1 [E [F S]]].
    exists st1. split; [exact E|].
    assert (V : forall v, value c st1 v = if thread_bound c cr v then value c cr v else value c wk v).
    { intros v. unfold value at 1. rewrite S, (snapshot_assoc cr v I).
      destruct (thread_bound c cr v) eqn:TB; [|reflexivity].
      apply thread_bound_true in TB as [D _]. rewrite D. reflexivity. }
    split; [exact V|]. intros CL v. rewrite V. destruct (thread_bound c cr v) eqn:TB; [reflexivity|].
    unfold value, thread_bound in *. rewrite CL. destruct (dyn c v); [|reflexivity].
    simpl in TB. destruct (stk cr v); [reflexivity | discriminate].
  Qed.

  (** the thread that ran conveyed work is exactly as before, when it is the creator itself
      or a thread without bindings (pool worker, new thread) *)
  Theorem conveyed_work_restores g t w work :
    inv c (g t) -> inv c (g w) -> balanced work ->
    (w = t \/ forall u, stk (g w) u = []) ->
    steq (gstep c 1 g t (GSpawn true w work) w) (g w).
  Proof.
    intros It Iw B H. simpl. unfold gupd. rewrite N.eqb_refl. unfold spawn_hist.
    destruct (snapshot_ok (g t) It) as [ND OK].
    destruct (well_nested_restores _ work false (g w) Iw ND OK B) as [_ [F [LT P]]].
    split; [exact F|]. intros u.
    destruct (memb u (keys (snapshot c (g t)))) eqn:M; [apply (P u (or_introl M))|].
    assert (Z : stk (g w) u = []).
    { destruct H as [->|H]; [|apply H].
      apply memb_false in M. rewrite (snapshot_keys_bound (g t) u It) in M.
      destruct (stk (g t) u); [reflexivity|]. exfalso. apply M. discriminate. }
    destruct (LT u) as [L _]. rewrite Z in *. simpl in L.
    match goal with |- ?l = [] => destruct l; [reflexivity | discriminate] end.
  Qed.

  Lemma assoc_perm u m m' : NoDup (keys m) -> Permutation m m' -> assoc u m = assoc u m'.
  Proof.
    intros ND P.
    pose proof (Permutation_NoDup (Permutation_map fst P) ND) as ND'.
    destruct (assoc u m) as [x|] eqn:A.
    - symmetry. apply in_assoc; [exact ND'|]. apply (Permutation_in _ P). apply assoc_in. exact A.
    - destruct (assoc u m') as [y|] eqn:A'; [|reflexivity].
      apply assoc_in in A'. apply (Permutation_in _ (Permutation_sym P)) in A'.
      apply (in_assoc _ _ _ ND) in A'. congruence.
  Qed.

  Theorem push_order_irrelevant m m' st : NoDup (keys m) -> Permutation m m' ->
    let r := push_thread_bindings c 1 m st in
    let r' := push_thread_bindings c 1 m' st in
    (snd r = 0%N <-> snd r' = 0%N) /\
    (forall u, stk (fst r) u = stk (fst r') u) /\
    (forall u, value c (fst r) u = value c (fst r') u) /\
    Permutation (concat (frames (fst r))) (concat (frames (fst r'))).
  Proof.
    intros ND P.
    pose proof (Permutation_NoDup (Permutation_map fst P) ND) as ND'.
    assert (OKP : push_okb c m = push_okb c m').
    { unfold push_okb. destruct (forallb _ m') eqn:E'.
      - apply forallb_forall. intros q Hq. rewrite forallb_forall in E'. apply E'.
        apply (Permutation_in _ P). exact Hq.
      - destruct (forallb _ m) eqn:E; [|reflexivity]. rewrite <- E'. symmetry.
        apply forallb_forall. intros q Hq. rewrite forallb_forall in E. apply E.
        apply (Permutation_in _ (Permutation_sym P)). exact Hq. }
    destruct (push_okb c m) eqn:OK.
    - destruct (enter_ok_char c 1 m st ND OK) as [s1 [E1 [F1 S1]]].
      destruct (enter_ok_char c 1 m' st ND' (eq_sym OKP)) as [s2 [E2 [F2 S2]]].
      simpl. rewrite E1, E2. simpl. split; [tauto|].
      assert (SS : forall u, stk s1 u = stk s2 u).
      { intros u. rewrite S1, S2, (assoc_perm u m m' ND P). reflexivity. }
      split; [exact SS|]. split; [intros u; apply value_stk, SS|].
      rewrite F1, F2. simpl. apply Permutation_app_tail.
      rewrite <- !Permutation_rev. apply Permutation_map. exact P.
    - destruct (failed_push_restores m st ND OK) as [s1 [c1 [E1 [N1 [F1 S1]]]]].
      destruct (failed_push_restores m' st ND' (eq_sym OKP)) as [s2 [c2 [E2 [N2 [F2 S2]]]]].
      simpl. rewrite E1, E2. simpl. split; [tauto|].
      split; [intros u; destruct (S1 u), (S2 u); congruence|].
      split; [intros u; destruct (S1 u), (S2 u); congruence|].
      rewrite F1, F2. apply Permutation_refl.
  Qed.
End H.

(** the shape before the repair leaks: `(binding [*d* 1 not-dynamic 2] ...)` with the
    dynamic Var first in iteration order *)
Definition cfg_w : cfg :=
  {| dyn := fun v => negb (N.eqb v 3); valid := fun v x => if N.eqb v 4 then (x <? 1000)%Z else true;
     root := fun v => (100 * (Z.of_N v + 1))%Z |}.

Lemma partial_push_leak_refuted :
  exists (m : list (var * val)) (v : var),
    NoDup (keys m) /\ push_okb cfg_w m = false /\
    snd (push_thread_bindings cfg_w 0 m clean) <> 0%N /\
    value cfg_w (fst (push_thread_bindings cfg_w 0 m clean)) v <> value cfg_w clean v.
Proof.
  exists [(0%N, 1%Z); (3%N, 2%Z)], 0%N. split.
  - repeat constructor; simpl; intuition discriminate.
  - vm_compute. repeat split; discriminate.
Qed.

(** non-vacuity: a depth-3 history with a failing form, an escaping set! and an exceptional
    exit is balanced, starts in a state satisfying the invariant, and is restored *)
Definition ex_body : list wop :=
  [WSet 0%N 5%Z; WEnter [(1%N, 7%Z); (4%N, 8%Z)];
     WEnter [(2%N, 1%Z); (3%N, 2%Z)];               (* fails: Var 3 is not dynamic *)
     WEnter [(0%N, 9%Z)]; WSet 1%N 11%Z; WSet 0%N 12%Z; WLeave true;
   WLeave false].

Lemma ex_balanced : balanced cfg_w ex_body.
Proof.
  unfold ex_body. apply bal_set.
  apply (bal_form cfg_w [(1%N, 7%Z); (4%N, 8%Z)]
           [WEnter [(2%N, 1%Z); (3%N, 2%Z)]; WEnter [(0%N, 9%Z)]; WSet 1%N 11%Z; WSet 0%N 12%Z; WLeave true]
           false []).
  - repeat constructor; simpl; intuition discriminate.
  - reflexivity.
  - apply bal_fail; [repeat constructor; simpl; intuition discriminate | reflexivity|].
    apply (bal_form cfg_w [(0%N, 9%Z)] [WSet 1%N 11%Z; WSet 0%N 12%Z] true []).
    + repeat constructor; simpl; intuition discriminate.
    + reflexivity.
    + repeat constructor.
    + constructor.
  - constructor.
Qed.

Lemma nonvacuous :
  inv cfg_w clean /\ balanced cfg_w ex_body /\
  map (value cfg_w (Bindings.run cfg_w 1 (WEnter [(0%N, 1%Z)] :: ex_body ++ [WLeave false]) clean))
      [0%N; 1%N; 2%N; 4%N] = [100%Z; 200%Z; 300%Z; 500%Z].
Proof. split; [apply inv_clean|]. split; [apply ex_balanced|]. vm_compute. reflexivity. Qed.

(** The executable model evaluated by the correspondence check ([Corr.mstep], which also
    collects observations) moves the thread states exactly as the [gstep] the theorems are
    about. *)
Lemma run_obs_fst c s obs h : forall st, fst (run_obs c s obs h st) = Bindings.run c s h st.
Proof.
  induction h as [|o r IH]; intros st; simpl; [reflexivity|].
  destruct (lstep c s st o) as [st1 code] eqn:E. simpl.
  specialize (IH st1). destruct (run_obs c s obs r st1) as [st2 l]. simpl in *. exact IH.
Qed.

Theorem mstep_is_gstep g t o : inv corr_cfg (g t) ->
  forall u, fst (fst (mstep g t o)) u = gstep corr_cfg 1 g t o u.
Proof.
  intros I u. change (gstep corr_cfg 1) with (gstep corr_cfg shape). destruct o as [lo|[|] w work]; simpl.
  - destruct (lstep corr_cfg shape (g t) lo) as [st' code]. reflexivity.
  - destruct (snapshot_ok corr_cfg (g t) I) as [ND OK].
    destruct (enter_ok_char corr_cfg shape _ (g w) ND OK) as [st1 [E _]]. rewrite E.
    pose proof (run_obs_fst corr_cfg shape obs_vars work st1) as RO.
    destruct (run_obs corr_cfg shape obs_vars work st1) as [st2 obs]. simpl in RO. subst st2.
    rewrite (run_app corr_cfg shape work [WLeave false]). simpl.
    destruct (pop_thread_bindings (Bindings.run corr_cfg shape work st1)) as [st3 code]. reflexivity.
  - pose proof (run_obs_fst corr_cfg shape obs_vars work (g w)) as RO.
    destruct (run_obs corr_cfg shape obs_vars work (g w)) as [st2 obs]. simpl in RO. subst st2.
    reflexivity.
Qed.
