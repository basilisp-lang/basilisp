(** C11: the model of runtime.py (per-Var stacks + frame stack, repaired push)
    refines the lexical-discipline reference of Spec.v, for every history. *)
From Coq Require Import List NArith.
Import ListNotations.
From Verif Require Import C11.Bindings C11.Spec C11.Proofs.

Section S.
  Variable c : cfg.
  Notation svalue := (Spec.svalue (dyn c) (root c)).
  Notation sstep := (Spec.sstep (dyn c) (valid c)).
  Notation srun := (Spec.srun (dyn c) (valid c)).

  (** the cells of Var u, innermost first *)
  Fixpoint cells (u : var) (th : sthread) : list val :=
    match th with
    | [] => []
    | f :: r => match assoc u f with Some x => x :: cells u r | None => cells u r end
    end.

  Definition R (st : tstate) (th : sthread) : Prop :=
    frames st = map (fun f => rev (keys f)) th /\ forall u, stk st u = cells u th.

  Definition wfth (th : sthread) : Prop := Forall (fun f => NoDup (keys f)) th.

  Definition erase (o : wop) : sop :=
    match o with
    | WEnter m => SEnter m
    | WLeave _ => SLeave
    | WSet v x => SSet v x
    | WNoop => SNoop
    end.

  Lemma R_clean : R clean [].
  Proof. split; reflexivity. Qed.

  Lemma lookup_cells v th : lookup v th = hd_error (cells v th).
  Proof.
    induction th as [|f r IH]; simpl; [reflexivity|].
    destruct (assoc v f); [reflexivity | exact IH].
  Qed.

  Lemma value_R st th v : R st th -> value c st v = svalue th v.
  Proof.
    intros [_ S]. unfold value, Spec.svalue. rewrite S, lookup_cells.
    destruct (cells v th); reflexivity.
  Qed.

  Lemma enter_ok_eq m : enter_ok (dyn c) (valid c) m = push_okb c m.
  Proof.
    unfold enter_ok, has_nondyn, has_invalid, push_okb.
    induction m as [|[v x] r IH]; simpl; [reflexivity|].
    rewrite <- IH. destruct (dyn c v), (valid c v x); simpl;
      destruct (existsb _ r), (existsb _ r); reflexivity.
  Qed.

  Lemma assoc_set_form u v x f :
    assoc u (set_form v x f) =
      if N.eqb u v then match assoc v f with Some _ => Some x | None => None end else assoc u f.
  Proof.
    induction f as [|[w y] r IH]; simpl.
    - destruct (N.eqb u v); reflexivity.
    - destruct (N.eqb v w) eqn:Evw; simpl.
      + apply N.eqb_eq in Evw. subst w. destruct (N.eqb u v); reflexivity.
      + rewrite IH. destruct (N.eqb u v) eqn:Euv; [|reflexivity].
        apply N.eqb_eq in Euv. subst u. rewrite Evw. reflexivity.
  Qed.

  Lemma keys_set_form v x f : keys (set_form v x f) = keys f.
  Proof.
    induction f as [|[w y] r IH]; simpl; [reflexivity|].
    destruct (N.eqb v w); simpl; [reflexivity | rewrite IH; reflexivity].
  Qed.

  Lemma cells_set u v x th :
    cells u (set_thread v x th) =
      if N.eqb u v then match cells v th with [] => [] | _ :: t => x :: t end else cells u th.
  Proof.
    destruct (N.eqb u v) eqn:E.
    - apply N.eqb_eq in E. subst u. induction th as [|f r IH]; simpl; [reflexivity|].
      destruct (assoc v f) as [y|] eqn:A; simpl.
      + rewrite assoc_set_form, N.eqb_refl, A. reflexivity.
      + rewrite A. exact IH.
    - induction th as [|f r IH]; simpl; [reflexivity|].
      destruct (assoc v f) as [y|] eqn:A; simpl.
      + rewrite assoc_set_form, E. reflexivity.
      + rewrite IH. reflexivity.
  Qed.

  Lemma frames_set v x th :
    map (fun f => rev (keys f)) (set_thread v x th) = map (fun f => rev (keys f)) th.
  Proof.
    induction th as [|f r IH]; simpl; [reflexivity|].
    destruct (assoc v f); simpl; [rewrite keys_set_form; reflexivity | rewrite IH; reflexivity].
  Qed.

  Lemma wfth_set v x th : wfth th -> wfth (set_thread v x th).
  Proof.
    induction 1 as [|f r Hf Hr IH]; simpl; [constructor|].
    destruct (assoc v f); constructor; try assumption. rewrite keys_set_form. exact Hf.
  Qed.

  (** a refused operation: nothing changes, and the code is the failure kind the reference names *)
  Lemma refused st th code : R st th -> wfth th ->
    R st th /\ wfth th /\ ([code] = [] -> code = 0%N) /\ ([code] <> [] -> In code [code]).
  Proof. intros HR W. repeat split; try apply HR; [exact W | discriminate | intros _; left; reflexivity]. Qed.

  (** one step: the states stay related and the result code is one the reference allows *)
  Theorem refines_step st th o : R st th -> wfth th -> wfop o ->
    let r := lstep c 1 st o in
    let s := sstep th (erase o) in
    R (fst r) (fst s) /\ wfth (fst s) /\
    (snd s = [] -> snd r = 0%N) /\ (snd s <> [] -> In (snd r) (snd s)).
  Proof.
    intros [F S] W WO. destruct o as [m|b|v x|]; simpl.
    - simpl in WO. rewrite enter_ok_eq. destruct (push_okb c m) eqn:OK.
      + destruct (enter_ok_char c 1 m st WO OK) as [st' [E [F' S']]]. rewrite E. simpl.
        split; [|split; [constructor; assumption | split; [reflexivity | tauto]]].
        split; [rewrite F', F; reflexivity|]. intros u. rewrite S', S. reflexivity.
      + destruct (enter_fail_char c m st WO OK) as [st' [code [E [[F' S'] K]]]]. rewrite E. simpl.
        split; [split; [congruence | intros u; rewrite S'; apply S]|].
        split; [exact W|].
        destruct K as [[-> HN]|[-> HI]]; [rewrite HN | rewrite HI].
        * split; [discriminate | intros _; left; reflexivity].
        * split; [destruct (has_nondyn (dyn c) m); discriminate | intros _; apply in_or_app; right; left; reflexivity].
    - destruct th as [|f r]; simpl in *.
      + unfold pop_thread_bindings. rewrite F. simpl.
        exact (refused st [] 1%N (conj F S) W).
      + inversion W as [|? ? Wf Wr]. subst.
        unfold pop_thread_bindings. rewrite F.
        destruct (pop_vars_char (rev (keys f)) (stk st)) as [s' [E C]].
        * apply NoDup_rev. exact Wf.
        * intros u Hu. apply in_rev in Hu. rewrite S. simpl.
          destruct (assoc_some u f Hu) as [y Hy]. rewrite Hy. discriminate.
        * rewrite E. simpl. split; [|split; [exact Wr | split; [reflexivity | tauto]]].
          split; [reflexivity|]. intros u. simpl. rewrite C, memb_rev, S. simpl.
          pose proof (assoc_memb u f) as A. destruct (assoc u f); rewrite <- A; reflexivity.
    - unfold set_bang, thread_bound. rewrite S, lookup_cells.
      destruct (dyn c v) eqn:D; simpl.
      + destruct (cells v th) as [|y t] eqn:Cv; simpl.
        * exact (refused st th 1%N (conj F S) W).
        * destruct (valid c v x) eqn:V; simpl.
          -- split; [|split; [apply wfth_set; exact W | split; [reflexivity | tauto]]].
             split; [simpl; rewrite frames_set; exact F|]. intros u. simpl.
             rewrite cells_set, Cv. unfold upd. destruct (N.eqb u v); [reflexivity | apply S].
          -- exact (refused st th 2%N (conj F S) W).
      + exact (refused st th 1%N (conj F S) W).
    - split; [split; assumption|]. split; [exact W|]. split; [reflexivity | tauto].
  Qed.

  (** every history, from related states: related states, hence the same value of every
      Var, after every prefix *)
  Theorem refines_run h : forall st th, R st th -> wfth th -> Forall wfop h ->
    R (run c 1 h st) (srun (map erase h) th) /\
    forall v, value c (run c 1 h st) v = svalue (srun (map erase h) th) v.
  Proof.
    induction h as [|o r IH]; intros st th HR W WO; simpl.
    - split; [exact HR | intros v; apply value_R; exact HR].
    - inversion WO as [|? ? Wo Wr]. subst.
      destruct (refines_step st th o HR W Wo) as [R' [W' _]].
      apply IH; assumption.
  Qed.
End S.
