(** C11: what the push loop, the pop loop and the four operations of C11/Bindings.v do (for the
    repaired shape 1 of push_thread_bindings), and the invariant of reachable thread states. *)
From Coq Require Import List NArith Bool Lia.
Import ListNotations.
From Verif Require Import C11.Bindings C11.Spec.

Definition memb (u : var) (l : list var) : bool := existsb (N.eqb u) l.

Lemma memb_In u l : memb u l = true <-> In u l.
Proof.
  unfold memb. rewrite existsb_exists. split.
  - intros [x [H E]]. apply N.eqb_eq in E. subst. exact H.
  - intros H. exists u. split; [exact H | apply N.eqb_refl].
Qed.

Lemma memb_false u l : memb u l = false <-> ~ In u l.
Proof. rewrite <- memb_In. symmetry. apply not_true_iff_false. Qed.

Lemma memb_rev u l : memb u (rev l) = memb u l.
Proof. apply eq_true_iff_eq. rewrite !memb_In. symmetry. apply in_rev. Qed.

Lemma assoc_memb u m : match assoc u m with Some _ => true | None => false end = memb u (keys m).
Proof.
  induction m as [|[v x] r IH]; simpl; [reflexivity|].
  destruct (N.eqb u v); simpl; [reflexivity | exact IH].
Qed.

Lemma assoc_none u m : ~ In u (keys m) -> assoc u m = None.
Proof.
  intros H. apply memb_false in H. pose proof (assoc_memb u m) as A. rewrite H in A.
  destruct (assoc u m); [discriminate | reflexivity].
Qed.

Lemma assoc_some u m : In u (keys m) -> exists x, assoc u m = Some x.
Proof.
  intros H. apply memb_In in H. pose proof (assoc_memb u m) as A. rewrite H in A.
  destruct (assoc u m) as [x|]; [exists x; reflexivity | discriminate].
Qed.

Lemma assoc_in u m x : assoc u m = Some x -> In (u, x) m.
Proof.
  induction m as [|[v y] r IH]; simpl; [discriminate|].
  destruct (N.eqb u v) eqn:E.
  - intros H. inversion H. apply N.eqb_eq in E. subst. left. reflexivity.
  - intros H. right. apply IH. exact H.
Qed.

Lemma in_assoc u m x : NoDup (keys m) -> In (u, x) m -> assoc u m = Some x.
Proof.
  induction m as [|[v y] r IH]; simpl; [tauto|].
  intros ND [H|H].
  - inversion H. subst. rewrite N.eqb_refl. reflexivity.
  - inversion ND as [|? ? NI ND']. subst.
    destruct (N.eqb u v) eqn:E.
    + apply N.eqb_eq in E. subst. exfalso. apply NI. change v with (fst (v, x)).
      apply in_map. exact H.
    + apply IH; assumption.
Qed.

Section P.
  Variable c : cfg.

  Definition push_okb (m : list (var * val)) : bool :=
    forallb (fun p => dyn c (fst p) && valid c (fst p) (snd p)) m.

  Lemma pop_vars_char : forall l s, NoDup l -> (forall u, In u l -> s u <> []) ->
    exists s', pop_vars l s = (s', 0%N) /\
               forall u, s' u = if memb u l then tl (s u) else s u.
  Proof.
    induction l as [|v r IH]; intros s ND NE; simpl.
    - exists s. split; reflexivity.
    - inversion ND as [|? ? NI ND']. subst.
      destruct (s v) as [|y t] eqn:Sv.
      + exfalso. apply (NE v); [left; reflexivity | exact Sv].
      + destruct (IH (upd s v t) ND') as [s' [E C]].
        * intros u Hu. unfold upd. destruct (N.eqb u v) eqn:Euv.
          -- apply N.eqb_eq in Euv. subst. tauto.
          -- apply NE. right. exact Hu.
        * exists s'. split; [exact E|]. intros u. rewrite C. unfold upd.
          destruct (N.eqb u v) eqn:Euv; simpl.
          -- apply N.eqb_eq in Euv. subst.
             replace (memb v r) with false by (symmetry; apply memb_false; exact NI).
             rewrite Sv. reflexivity.
          -- reflexivity.
  Qed.

  (** The loop pushes a prefix [m1] of the map, in order; it goes through the whole map exactly
      when every pair is acceptable, and otherwise reports why it stopped. *)
  Lemma push_loop_char : forall m s p, NoDup (keys m) ->
    exists m1 m2 s' code, m = m1 ++ m2 /\
      push_loop c m s p = (s', rev (keys m1) ++ p, code) /\
      (forall u, s' u = match assoc u m1 with Some x => x :: s u | None => s u end) /\
      (if push_okb m then m2 = [] /\ code = 0%N
       else (code = 1%N /\ has_nondyn (dyn c) m = true) \/ (code = 2%N /\ has_invalid (valid c) m = true)).
  Proof.
    induction m as [|[v x] r IH]; intros s p ND; simpl.
    - exists [], [], s, 0%N. repeat split.
    - inversion ND as [|? ? NI ND']. subst.
      destruct (dyn c v) eqn:D; simpl; [destruct (valid c v x) eqn:V; simpl|].
      + destruct (IH (upd s v (x :: s v)) (v :: p) ND') as [m1 [m2 [s' [code [E [PL [C K]]]]]]].
        exists ((v, x) :: m1), m2, s', code. split; [simpl; rewrite E; reflexivity|].
        split; [rewrite PL; simpl; rewrite <- app_assoc; reflexivity|].
        split; [|exact K].
        intros u. rewrite C. simpl. unfold upd. destruct (N.eqb u v) eqn:Euv; [|reflexivity].
        apply N.eqb_eq in Euv. subst.
        assert (NI1 : ~ In v (keys m1)).
        { intros H. apply NI. unfold keys. rewrite map_app. apply in_or_app. left. exact H. }
        rewrite (assoc_none v m1 NI1). reflexivity.
      + exists [], ((v, x) :: r), s, 2%N. repeat split. right. split; reflexivity.
      + exists [], ((v, x) :: r), s, 1%N. repeat split. left. split; reflexivity.
  Qed.

  (** thread states up to extensionality *)
  Definition steq (a b : tstate) : Prop := frames a = frames b /\ forall u, stk a u = stk b u.

  Lemma steq_refl a : steq a a.
  Proof. split; reflexivity. Qed.

  Lemma steq_sym a b : steq a b -> steq b a.
  Proof. intros [F S]. split; [symmetry; exact F | intro u; symmetry; apply S]. Qed.

  Lemma value_stk a b v : stk a v = stk b v -> value c a v = value c b v.
  Proof. intro H. unfold value. rewrite H. reflexivity. Qed.

  Lemma steq_value a b v : steq a b -> value c a v = value c b v.
  Proof. intros [_ H]. apply value_stk, H. Qed.

  Lemma thread_bound_true st v : thread_bound c st v = true <-> dyn c v = true /\ stk st v <> [].
  Proof.
    unfold thread_bound. rewrite andb_true_iff. destruct (stk st v); split; intros [D N]; split; congruence.
  Qed.

  Lemma push_okb_assoc m u x : push_okb m = true -> assoc u m = Some x -> dyn c u = true /\ valid c u x = true.
  Proof.
    intros OK A. apply assoc_in in A. unfold push_okb in OK. rewrite forallb_forall in OK.
    apply OK in A. apply andb_true_iff in A. exact A.
  Qed.

  Lemma NoDup_keys_app_l (m1 m2 : list (var * val)) : NoDup (keys (m1 ++ m2)) -> NoDup (keys m1).
  Proof.
    unfold keys. rewrite map_app. induction (map fst m1) as [|a l IH]; simpl; intros H.
    - constructor.
    - inversion H as [|? ? NI ND]. subst. constructor.
      + intros X. apply NI. apply in_or_app. left. exact X.
      + apply IH. exact ND.
  Qed.

  Lemma enter_ok_char shape m st : NoDup (keys m) -> push_okb m = true ->
    exists st', push_thread_bindings c shape m st = (st', 0%N) /\
      frames st' = rev (keys m) :: frames st /\
      forall u, stk st' u = match assoc u m with Some x => x :: stk st u | None => stk st u end.
  Proof.
    intros ND OK. destruct (push_loop_char m (stk st) [] ND) as [m1 [m2 [s' [code [Em [E [C K]]]]]]].
    rewrite OK in K. destruct K as [-> ->]. rewrite app_nil_r in Em. subst m1.
    unfold push_thread_bindings. rewrite E. rewrite app_nil_r.
    eexists. split; [reflexivity|]. simpl. split; [|exact C].
    rewrite nodup_fixed_point; [reflexivity | apply NoDup_rev; exact ND].
  Qed.

  (** the repaired push_thread_bindings leaves nothing behind when it fails *)
  Lemma enter_fail_char m st : NoDup (keys m) -> push_okb m = false ->
    exists st' code, push_thread_bindings c 1 m st = (st', code) /\ steq st' st /\
      ((code = 1%N /\ has_nondyn (dyn c) m = true) \/ (code = 2%N /\ has_invalid (valid c) m = true)).
  Proof.
    intros ND OK.
    destruct (push_loop_char m (stk st) [] ND) as [m1 [m2 [s' [code [E [PL [C K]]]]]]]. rewrite OK in K.
    unfold push_thread_bindings. rewrite PL. rewrite app_nil_r.
    assert (ND1 : NoDup (rev (keys m1))).
    { apply NoDup_rev. apply (NoDup_keys_app_l m1 m2). rewrite <- E. exact ND. }
    rewrite (nodup_fixed_point N.eq_dec ND1).
    destruct (pop_vars_char (rev (keys m1)) s' ND1) as [s'' [PE PC]].
    { intros u Hu. apply in_rev in Hu. rewrite C. destruct (assoc_some u m1 Hu) as [x Hx].
      rewrite Hx. discriminate. }
    assert (R : steq {| stk := fst (pop_vars (rev (keys m1)) s'); frames := frames st |} st).
    { split; [reflexivity|]. intros u. simpl. rewrite PE. simpl. rewrite PC, memb_rev, C.
      pose proof (assoc_memb u m1) as A. destruct (assoc u m1); rewrite <- A; reflexivity. }
    destruct K as [[K1 Q]|[K1 Q]]; subst code; simpl;
      eexists; eexists; (split; [reflexivity|]); (split; [exact R|]); [left|right]; tauto.
  Qed.

  Definition nframes (u : var) (fs : list (list var)) : nat := length (filter (memb u) fs).

  Record inv (st : tstate) : Prop := {
    inv_nodup : forall f, In f (frames st) -> NoDup f;
    inv_len : forall u, length (stk st u) = nframes u (frames st);
    inv_dyn : forall u, stk st u <> [] -> dyn c u = true;
    inv_valid : forall u x, In x (stk st u) -> valid c u x = true }.

  Lemma inv_clean : inv clean.
  Proof. constructor; simpl; intros; try reflexivity; try tauto. Qed.

  Lemma inv_steq a b : steq a b -> inv a -> inv b.
  Proof.
    intros [F S] [I1 I2 I3 I4]. constructor; intros.
    - apply I1. rewrite F. assumption.
    - rewrite <- S, <- F. apply I2.
    - apply I3. rewrite S. assumption.
    - apply I4. rewrite S. assumption.
  Qed.

  Lemma leave_char st f fs : inv st -> frames st = f :: fs ->
    exists st', pop_thread_bindings st = (st', 0%N) /\ frames st' = fs /\
      forall u, stk st' u = if memb u f then tl (stk st u) else stk st u.
  Proof.
    intros I F. unfold pop_thread_bindings. rewrite F.
    destruct (pop_vars_char f (stk st)) as [s' [E C]].
    - apply (inv_nodup _ I). rewrite F. left. reflexivity.
    - intros u Hu Z. pose proof (inv_len _ I u) as L. rewrite Z, F in L. unfold nframes in L.
      simpl in L. apply memb_In in Hu. rewrite Hu in L. simpl in L. discriminate.
    - rewrite E. eexists. split; [reflexivity|]. simpl. split; [reflexivity | exact C].
  Qed.

  Lemma set_char v x st :
    (thread_bound c st v = true /\ valid c v x = true /\
     exists st', set_bang c v x st = (st', 0%N) /\ frames st' = frames st /\
       stk st' v = x :: tl (stk st v) /\ forall u, u <> v -> stk st' u = stk st u)
    \/ (exists code, set_bang c v x st = (st, code) /\ code <> 0%N /\
        (code = 1%N <-> thread_bound c st v = false)).
  Proof.
    unfold set_bang. destruct (thread_bound c st v) eqn:TB; simpl.
    - destruct (valid c v x) eqn:V; simpl.
      + left. repeat split; try reflexivity. eexists. split; [reflexivity|]. simpl.
        split; [reflexivity|]. split.
        * unfold upd. rewrite N.eqb_refl. reflexivity.
        * intros u Hu. unfold upd. apply N.eqb_neq in Hu. rewrite Hu. reflexivity.
      + right. exists 2%N. repeat split; try discriminate.
    - right. exists 1%N. repeat split; try discriminate.
  Qed.

  Definition wfop (o : wop) : Prop := match o with WEnter m => NoDup (keys m) | _ => True end.

  Lemma inv_enter m st st' : inv st -> NoDup (keys m) -> push_okb m = true ->
    frames st' = rev (keys m) :: frames st ->
    (forall u, stk st' u = match assoc u m with Some x => x :: stk st u | None => stk st u end) ->
    inv st'.
  Proof.
    intros [I1 I2 I3 I4] ND OK F S. constructor.
    - intros f. rewrite F. intros [H|H]; [subst; apply NoDup_rev; exact ND | apply I1; exact H].
    - intros u. rewrite S, F. unfold nframes. simpl. rewrite memb_rev.
      pose proof (assoc_memb u m) as A. destruct (assoc u m); rewrite <- A; simpl;
        [f_equal|]; apply I2.
    - intros u. rewrite S. destruct (assoc u m) as [x|] eqn:A; [|apply I3].
      intros _. apply (push_okb_assoc m u x OK A).
    - intros u x. rewrite S. destruct (assoc u m) as [y|] eqn:A; [|apply I4].
      intros [H|H]; [|apply I4; exact H]. subst y. apply (push_okb_assoc m u x OK A).
  Qed.

  Lemma inv_leave st st' f fs : inv st -> frames st = f :: fs -> frames st' = fs ->
    (forall u, stk st' u = if memb u f then tl (stk st u) else stk st u) -> inv st'.
  Proof.
    intros [I1 I2 I3 I4] F F' S. constructor.
    - intros g Hg. apply I1. rewrite F. right. rewrite <- F'. exact Hg.
    - intros u. rewrite S, F'. pose proof (I2 u) as L. rewrite F in L. unfold nframes in *.
      simpl in L. destruct (memb u f); simpl in *.
      + destruct (stk st u); simpl in *; lia.
      + exact L.
    - intros u. rewrite S. intros H. apply I3. destruct (memb u f); [|exact H].
      intros Z. rewrite Z in H. apply H. reflexivity.
    - intros u x. rewrite S. intros H. apply I4. destruct (memb u f); [|exact H].
      destruct (stk st u); [exact H | right; exact H].
  Qed.

  Lemma inv_step st o : inv st -> wfop o -> inv (fst (lstep c 1 st o)).
  Proof.
    intros I W. destruct o as [m|b|v x|]; simpl.
    - simpl in W. destruct (push_okb m) eqn:OK.
      + destruct (enter_ok_char 1 m st W OK) as [st' [E [F S]]]. rewrite E. simpl.
        eapply inv_enter; eauto.
      + destruct (enter_fail_char m st W OK) as [st' [code [E [R _]]]]. rewrite E. simpl.
        exact (inv_steq st st' (steq_sym _ _ R) I).
    - destruct (frames st) as [|f fs] eqn:F.
      + unfold pop_thread_bindings. rewrite F. exact I.
      + destruct (leave_char st f fs I F) as [st' [E [F' S]]]. rewrite E. simpl.
        eapply inv_leave; eauto.
    - destruct (set_char v x st) as [[TB [V [st' [E [F [Sv Su]]]]]]|[code [E _]]];
        rewrite E; simpl; [|exact I].
      destruct I as [I1 I2 I3 I4].
      apply thread_bound_true in TB as [D NE].
      constructor.
      + intros f. rewrite F. apply I1.
      + intros u. rewrite F. destruct (N.eq_dec u v) as [->|Huv].
        * rewrite Sv, <- I2. destruct (stk st v); [contradiction NE; reflexivity | reflexivity].
        * rewrite (Su u Huv). apply I2.
      + intros u. destruct (N.eq_dec u v) as [->|Huv]; [intros _; exact D|].
        rewrite (Su u Huv). apply I3.
      + intros u y. destruct (N.eq_dec u v) as [->|Huv].
        * rewrite Sv. intros [H|H]; [subst; exact V|]. apply I4.
          destruct (stk st v); [exact H | right; exact H].
        * rewrite (Su u Huv). apply I4.
    - exact I.
  Qed.

  Lemma run_app shape h1 h2 st : run c shape (h1 ++ h2) st = run c shape h2 (run c shape h1 st).
  Proof. revert st. induction h1; simpl; intros; [reflexivity | apply IHh1]. Qed.

  Lemma inv_run h st : inv st -> Forall wfop h -> inv (run c 1 h st).
  Proof.
    revert st. induction h as [|o r IH]; simpl; intros st I W; [exact I|].
    inversion W. subst. apply IH; [apply inv_step; assumption | assumption].
  Qed.
End P.
