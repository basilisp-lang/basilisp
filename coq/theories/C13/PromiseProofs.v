(** C13 proofs: Promise.  Under every interleaving (including every placement of
    the timeouts of timed derefs): the history of linearization events is accepted by the
    reference promise (Spec.promise_log_ok: first deliver wins, later delivers are ignored,
    every value read is the delivered one, a timeout happens only while undelivered,
    realized? is monotone), and every value a deref returned is the delivered value or --
    timed derefs only -- its own timeout value.

    The machine refines the reference promise of Spec.v: [abs s] is the reference state
    that state [s] stands for, and every event a step appends to [phist] is accepted by
    [pnext] from [abs s] and leads to [abs s'] ([pi_st]).  Only the thread that holds the
    condition's lock reads or writes flag and value, so what the invariant says of them is
    indexed by that thread's program point ([pi_flag]). *)
From Coq Require Import List Bool Arith Lia.
Import ListNotations.
From Verif Require Import C12.Lock C13.Spec C13.Promise.

Section PromiseProofs.
  Context {V : Type}.
  Variable vnone : V.
  Variable veq : V -> V -> bool.
  Hypothesis veq_refl : forall v, veq v v = true.

  Notation pop := (pop V).
  Notation pres := (pres V).
  Notation pthread := (pthread V).
  Notation pstate := (pstate V).
  Notation pstep := (@pstep V vnone).
  Notation preach := (@preach V vnone).

  Definition in_pcs (p : ppc) : bool :=
    match p with
    | VChk | VFlag | VVal | VNotify | VRel | MPred | MGet | MTmo | MRel | GRead | GRel => true
    | _ => false
    end.

  Definition pst (s : pstate) : option (option V) := plog_run veq (rev (phist s)).

  (** the value the promise holds once the flag is set: between the two stores of deliver
      (flag, then value) it is the value about to be stored *)
  Definition holder_val (s : pstate) : V :=
    match plock s with
    | Some t => match p_pc (pthr s t), p_ops (pthr s t) with
                | VVal, PDeliver v :: _ => v
                | _, _ => pvalue s end
    | None => pvalue s
    end.
  Definition abs (s : pstate) : option V := if delivered s then Some (holder_val s) else None.

  Definition res_ok (s : pstate) (o : pop) (v : V) : Prop :=
    match o with PDeref tm => abs s = Some v \/ tm = Some v | _ => True end.

  Definition op_pc_ok (o : pop) (p : ppc) : Prop :=
    match p with
    | VChk | VFlag | VVal | VNotify | VRel => match o with PDeliver _ => True | _ => False end
    | MPred | MWait | MReacq | MGet | MTmo | MRel => match o with PDeref _ => True | _ => False end
    | GRead | GRel => match o with PReal => True | _ => False end
    | VAcq | MAcq | GAcq => False      (* never stored: only reached through [pentry] *)
    | QIdle => True
    end.

  Definition flag_ok (s : pstate) (p : ppc) : Prop :=
    match p with
    | VFlag => delivered s = false
    | VVal | VNotify | MGet => delivered s = true
    | _ => True
    end.

  Record PIv (s : pstate) : Prop := {
    pi_op : forall t, match p_ops (pthr s t) with o :: _ => op_pc_ok o (p_pc (pthr s t)) | [] => p_pc (pthr s t) = QIdle end;
    pi_lock : forall t, in_pcs (p_pc (pthr s t)) = true <-> plock s = Some t;
    pi_flag : match plock s with Some t => flag_ok s (p_pc (pthr s t)) | None => True end;
    pi_st : pst s = Some (abs s);
    pi_got : forall t o rest, p_pc (pthr s t) = MRel -> p_ops (pthr s t) = o :: rest ->
                              res_ok s o (p_got (pthr s t));
    pi_done : forall t o v, In (o, PRet v) (p_done (pthr s t)) -> res_ok s o v
  }.

  Lemma plog_snoc l e : plog_run veq (l ++ [e]) = pnext veq (plog_run veq l) e.
  Proof. unfold plog_run. rewrite fold_left_app. reflexivity. Qed.

  Lemma pupd_same (f : nat -> pthread) t th : pupd f t th t = th.
  Proof. unfold pupd. rewrite Nat.eqb_refl. reflexivity. Qed.
  Lemma pupd_other (f : nat -> pthread) t th u : u <> t -> pupd f t th u = f u.
  Proof. unfold pupd. intro H. apply Nat.eqb_neq in H. rewrite H. reflexivity. Qed.

  Lemma PIv_init progs : PIv (pinit vnone progs).
  Proof.
    constructor; simpl; intros; try discriminate; try contradiction; auto.
    - destruct (progs t); simpl; auto.
    - split; intro H; discriminate.
  Qed.

  Lemma pcur_pc (th : pthread) o r p : p_ops th = o :: r -> pcur th = p ->
    p_pc th = p \/ (p_pc th = QIdle /\ pentry o = p).
  Proof. unfold pcur. intros E. rewrite E. destruct (p_pc th); intros <-; auto. Qed.

  Lemma pstep_other s t a s' u :
    pstep t a s = Some s' -> u <> t ->
    p_pc (pthr s' u) = p_pc (pthr s u) /\ p_ops (pthr s' u) = p_ops (pthr s u)
    /\ p_done (pthr s' u) = p_done (pthr s u) /\ p_got (pthr s' u) = p_got (pthr s u).
  Proof.
    intros H Hu. unfold Promise.pstep, pset, pset_ev in H.
    repeat match type of H with
           | context [match ?x with _ => _ end] =>
               let E := fresh "E" in destruct x eqn:E; try discriminate
           end;
    inversion H; subst; clear H; simpl; try (rewrite (pupd_other _ _ _ _ Hu); auto).
    apply Nat.eqb_neq in Hu. rewrite Hu. destruct (p_pc (pthr s u)) eqn:Hp; simpl; auto.
  Qed.

  (** the rows of [pstep] over stored program points (an operation enters from [QIdle]) *)
  Definition after_acq (o : pop) : ppc :=
    match o with PDeliver _ => VChk | PDeref _ => MPred | PReal => GRead end.

  Lemma in_pcs_after_acq o : in_pcs (after_acq o) = true.
  Proof. destruct o; reflexivity. Qed.

  Inductive pstepv (t : nat) (s : pstate) (o : pop) (th : pthread) : ppc -> pact -> pstate -> Prop :=
  | pv_acq : plock s = None ->
      pstepv t s o th QIdle ARun (pset s (Some t) t (pwith_pc th (after_acq o)))
  | pv_ignored : delivered s = true ->
      pstepv t s o th VChk ARun (pset_ev s (plock s) EIgnored t (pwith_pc th VRel))
  | pv_chk : delivered s = false ->
      pstepv t s o th VChk ARun (pset s (plock s) t (pwith_pc th VFlag))
  | pv_flag v : o = PDeliver v ->
      pstepv t s o th VFlag ARun (mkPS true (pvalue s) (plock s) (EDeliver v :: phist s)
                              (pupd (pthr s) t (pwith_pc th VVal)))
  | pv_val v : o = PDeliver v ->
      pstepv t s o th VVal ARun (mkPS (delivered s) v (plock s) (phist s)
                              (pupd (pthr s) t (pwith_pc th VNotify)))
  | pv_notify :
      pstepv t s o th VNotify ARun
        (mkPS (delivered s) (pvalue s) (plock s) (phist s)
              (fun i => if Nat.eqb i t then pwith_pc th VRel
                        else match p_pc (pthr s i) with
                             | MWait => mkPT (p_ops (pthr s i)) MWait true (p_expired (pthr s i))
                                             (p_got (pthr s i)) (p_done (pthr s i))
                             | _ => pthr s i
                             end))
  | pv_vrel :
      pstepv t s o th VRel ARun (pset s None t (pfinish th o (PRet vnone)))
  | pv_pred_get : delivered s = true ->
      pstepv t s o th MPred ARun (pset s (plock s) t (pwith_pc th MGet))
  | pv_pred_tmo : delivered s = false -> p_expired th = true ->
      pstepv t s o th MPred ARun (pset_ev s (plock s) ETimeout t (pwith_pc th MTmo))
  | pv_pred_wait : delivered s = false -> p_expired th = false ->
      pstepv t s o th MPred ARun (pset s None t (mkPT (p_ops th) MWait false false
                                             (p_got th) (p_done th)))
  | pv_wake_free : p_notified th = true -> plock s = None ->
      pstepv t s o th MWait ARun (pset s (Some t) t (pwith_pc th MPred))
  | pv_wake_busy u : p_notified th = true -> plock s = Some u -> u <> t ->
      pstepv t s o th MWait ARun (pset s (plock s) t (pwith_pc th MReacq))
  | pv_tmo_free : plock s = None ->
      pstepv t s o th MWait ATimeout
        (pset s (Some t) t (pwith_pc (mkPT (p_ops th) MWait false true
                                           (p_got th) (p_done th)) MPred))
  | pv_tmo_busy u : plock s = Some u -> u <> t ->
      pstepv t s o th MWait ATimeout
        (pset s (plock s) t (pwith_pc (mkPT (p_ops th) MWait false true
                                            (p_got th) (p_done th)) MReacq))
  | pv_reacq : plock s = None ->
      pstepv t s o th MReacq ARun (pset s (Some t) t (pwith_pc th MPred))
  | pv_get :
      pstepv t s o th MGet ARun
        (pset_ev s (plock s) (EValue (pvalue s)) t
                 (mkPT (p_ops th) MRel (p_notified th) (p_expired th)
                       (pvalue s) (p_done th)))
  | pv_tmoval tv : o = PDeref (Some tv) ->
      pstepv t s o th MTmo ARun
        (pset s (plock s) t (mkPT (p_ops th) MRel (p_notified th) (p_expired th)
                                  tv (p_done th)))
  | pv_mrel :
      pstepv t s o th MRel ARun (pset s None t (pfinish th o (PRet (p_got th))))
  | pv_gread :
      pstepv t s o th GRead ARun
        (pset_ev s (plock s) (EReal (delivered s)) t
                 (mkPT (p_ops th) GRel (delivered s) (p_expired th)
                       (p_got th) (p_done th)))
  | pv_grel :
      pstepv t s o th GRel ARun (pset s None t (pfinish th o (PBool (p_notified th)))).

  Definition pstepped (t : nat) (a : pact) (s s' : pstate) : Prop :=
    exists o r p, p_ops (pthr s t) = o :: r /\ p_pc (pthr s t) = p /\ pstepv t s o (pthr s t) p a s'.

  (* the goal stays folded while [pstep] is taken apart: every case analysis there copies it *)
  Lemma pstep_view t a s s' : PIv s -> pstep t a s = Some s' -> pstepped t a s s'.
  Proof.
    intros I H. destruct (p_ops (pthr s t)) as [|o r] eqn:E;
      [unfold Promise.pstep in H; rewrite E in H; discriminate|].
    pose proof (pi_op s I t) as Lo. rewrite E in Lo.
    assert (Lk : in_pcs (p_pc (pthr s t)) = false -> plock s <> Some t)
      by (intros X Y; apply (pi_lock s I t) in Y; congruence). clear I.
    unfold Promise.pstep in H. rewrite E in H.
    destruct (pcur (pthr s t)) eqn:Hc; try discriminate;
      apply (pcur_pc _ _ _ _ E) in Hc; (destruct Hc as [Hc|[Hc Ho]];
        [|destruct o; try discriminate Ho]); rewrite Hc in Lo, Lk; simpl in Lo; try (exfalso; exact Lo).
    all: repeat match type of H with
           | context [match ?x with _ => _ end] =>
               let E := fresh "E" in destruct x eqn:E; try discriminate
           end; inversion H; subst; clear H.
    all: try (exfalso; exact Lo).
    all: unfold pstepped; rewrite <- ?E;
      try match goal with X : plock _ = Some ?n |- context [Some ?n] => rewrite <- X end.
    all: solve [do 3 eexists; split; [exact E|split; [exact Hc|econstructor;
                  first [reflexivity|eassumption|intros ->; exact (Lk eq_refl eq_refl)]]]].
  Qed.


  Lemma res_ok_mono s s' o v :
    (forall w, abs s = Some w -> abs s' = Some w) -> res_ok s o v -> res_ok s' o v.
  Proof. unfold res_ok. destruct o; auto. intros M [H|H]; auto. Qed.

  (* computes [abs] of a state given as a record: the flag, the lock and the stepping
     thread's program point and operation are among the hypotheses *)
  Ltac norm_abs :=
    unfold abs, holder_val; simpl;
    repeat match goal with
           | X : delivered _ = _ |- _ => rewrite X
           | X : plock _ = _ |- _ => rewrite X
           end;
    rewrite ?pupd_same, ?Nat.eqb_refl; simpl;
    repeat match goal with
           | X : p_pc (pthr _ _) = _ |- _ => rewrite X
           | X : p_ops (pthr _ _) = _ |- _ => rewrite X
           end; simpl.

  Lemma PIv_step s t a s' : PIv s -> pstep t a s = Some s' -> PIv s'.
  Proof.
    intros I H.
    pose proof (pstep_other s t a s') as Oth. specialize (fun u => Oth u H).
    destruct (pstep_view t a s s' I H) as (o & r & p & E & Hp & Sv). clear H.
    pose proof (pi_op s I t) as Lo. rewrite E, Hp in Lo. pose proof (pi_st s I) as Lst.
    pose proof (pi_flag s I) as Lf.
    assert (Holder : in_pcs p = true -> plock s = Some t /\ flag_ok s p).
    { intro X. rewrite <- Hp in X. apply (pi_lock s I t) in X. rewrite X, Hp in Lf. auto. }
    assert (Mono : forall w, abs s = Some w -> abs s' = Some w).
    { destruct Sv; try (destruct (Holder eq_refl) as [Hq Lf']; simpl in Lf').
      all: norm_abs; rewrite ?pupd_other by assumption; try subst o; simpl; try (intros w X; exact X).
      - destruct o; exact (fun w X => X).
      - intros w X; discriminate X. }
    constructor.
    - intro u. destruct (Nat.eq_dec u t) as [->|Hu];
        [|destruct (Oth u Hu) as (Op & Oo & _); rewrite Op, Oo; exact (pi_op s I u)].
      destruct Sv; simpl; rewrite ?pupd_same, ?Nat.eqb_refl; simpl; rewrite ?E; simpl; try exact Lo.
      all: try (destruct r; simpl; auto; fail).
      destruct o; exact Logic.I.
    - (* each row keeps out of the lock, takes it free, or gives its own up *)
      apply (lock_step in_pcs (fun u => p_pc (pthr s u)) (fun u => p_pc (pthr s' u)) (plock s) (plock s') t (pi_lock s I)).
      { intros u Hu. exact (proj1 (Oth u Hu)). }
      rewrite Hp. destruct Sv; simpl; rewrite ?pupd_same, ?Nat.eqb_refl; simpl; rewrite ?in_pcs_after_acq.
      all: first [ left; split; reflexivity | right; left; repeat split; (assumption || reflexivity)
                 | right; right; repeat split; reflexivity ].
    - destruct Sv as [Hl| | | | | | | | | |Hn Hl|u Hn Hl Hu|Hl|u Hl Hu|Hl| | | | |];
        try (destruct (Holder eq_refl) as [Hq Lf']; simpl in Lf'; rewrite Hq);
        simpl; rewrite ?Hl, ?pupd_same, ?Nat.eqb_refl; simpl; auto.
      + destruct o; exact Logic.I.
      + rewrite Hl in Lf. rewrite pupd_other by exact Hu. exact Lf.
      + rewrite Hl in Lf. rewrite pupd_other by exact Hu. exact Lf.
    - (* the event appended, if any, is a step of the reference promise from [abs s] *)
      destruct Sv; try (destruct (Holder eq_refl) as [Hq Lf']; simpl in Lf').
      all: unfold pst; simpl; rewrite ?plog_snoc; fold (pst s); rewrite Lst; norm_abs; rewrite ?veq_refl;
        rewrite ?pupd_other by assumption; try subst o; try reflexivity.
      + destruct o; reflexivity.
      + destruct (delivered s); reflexivity.
    - (* only MGet and MTmo reach MRel; results already there stay right as [abs] only gets defined *)
      intros u o1 rest. destruct (Nat.eq_dec u t) as [->|Hu];
        [|destruct (Oth u Hu) as (Op & Oo & _ & Og); rewrite Op, Oo, Og; intros X Y;
          apply (res_ok_mono s); [exact Mono|exact (pi_got s I u _ _ X Y)]].
      destruct Sv; simpl; rewrite ?pupd_same, ?Nat.eqb_refl; simpl; try (intro X; discriminate X).
      + destruct o; intro X; discriminate X.
      + (* MGet: the value read is the one the promise holds *)
        intros _ X. rewrite E in X. inversion X; subst o1 rest.
        destruct o; simpl in Lo; try tauto. left.
        destruct (Holder eq_refl) as [Hq Lf']. simpl in Lf'. norm_abs. reflexivity.
      + intros _ X. rewrite E in X. inversion X; subst. right; reflexivity.
    - intros u o1 v1. destruct (Nat.eq_dec u t) as [->|Hu];
        [|destruct (Oth u Hu) as (_ & _ & Od & _); rewrite Od; intro X;
          apply (res_ok_mono s); [exact Mono|exact (pi_done s I u _ _ X)]].
      assert (Old : In (o1, PRet v1) (p_done (pthr s t)) -> res_ok s' o1 v1)
        by (intro X; apply (res_ok_mono s); [exact Mono|exact (pi_done s I t _ _ X)]).
      destruct Sv; simpl in *; rewrite ?pupd_same, ?Nat.eqb_refl; simpl; try exact Old.
      + intros [X|X]; [|exact (Old X)]. inversion X; subst o1 v1. destruct o; simpl in Lo; tauto.
      + (* deref returns the value it put aside at MGet or MTmo *)
        intros [X|X]; [|exact (Old X)]. inversion X; subst o1 v1.
        apply (res_ok_mono s); [exact Mono|exact (pi_got s I t o r Hp E)].
      + intros [X|X]; [discriminate X|exact (Old X)].
  Qed.


  Theorem preach_PIv progs s : preach (pinit vnone progs) s -> PIv s.
  Proof. intro R. induction R; eauto using PIv_init, PIv_step. Qed.

  Theorem promise_history_ok progs s :
    preach (pinit vnone progs) s -> promise_log_ok veq (rev (phist s)) = true.
  Proof. intro R. unfold promise_log_ok. fold (pst s). rewrite (pi_st s (preach_PIv progs s R)). reflexivity. Qed.

  Theorem promise_deref_result progs s t tm v :
    preach (pinit vnone progs) s -> In (PDeref tm, PRet v) (p_done (pthr s t)) ->
    (exists w, plog_run veq (rev (phist s)) = Some (Some w) /\ v = w) \/ tm = Some v.
  Proof.
    intros R H. pose proof (preach_PIv progs s R) as I.
    destruct (pi_done s I t (PDeref tm) v H) as [A|A]; [left|right; exact A].
    exists v. fold (pst s). rewrite (pi_st s I), A. auto.
  Qed.

  Corollary promise_derefs_agree progs s t1 v1 t2 v2 :
    preach (pinit vnone progs) s ->
    In (PDeref None, PRet v1) (p_done (pthr s t1)) -> In (PDeref None, PRet v2) (p_done (pthr s t2)) ->
    v1 = v2.
  Proof.
    intros R H1 H2.
    destruct (promise_deref_result progs s t1 None v1 R H1) as [(w1 & A1 & B1)|X]; [|discriminate].
    destruct (promise_deref_result progs s t2 None v2 R H2) as [(w2 & A2 & B2)|X]; [|discriminate].
    congruence.
  Qed.

  Theorem promise_deref_after_deliver s t tm rest :
    delivered s = true -> plock s = None ->
    p_ops (pthr s t) = PDeref tm :: rest -> p_pc (pthr s t) = QIdle ->
    exists s1 s2 s3 s4,
      pstep t ARun s = Some s1 /\ pstep t ARun s1 = Some s2 /\ pstep t ARun s2 = Some s3
      /\ pstep t ARun s3 = Some s4
      /\ p_done (pthr s4 t) = (PDeref tm, PRet (pvalue s)) :: p_done (pthr s t)
      /\ p_ops (pthr s4 t) = rest /\ plock s4 = None.
  Proof.
    intros Hd Hl Hops Hpc. do 4 eexists.
    split; [unfold Promise.pstep; rewrite Hops; unfold pcur; rewrite Hpc, Hops; simpl; rewrite Hl; reflexivity|].
    do 3 (split; [unfold Promise.pstep, pset, pset_ev; simpl; rewrite ?pupd_same; simpl; rewrite ?Hops; simpl;
                    rewrite ?Hd; reflexivity|]).
    simpl. rewrite pupd_same. simpl. auto.
  Qed.

End PromiseProofs.

Section LogFacts.
  Context {V : Type}.
  Variable veq : V -> V -> bool.

  Definition reals (l : list (pev V)) : list bool :=
    flat_map (fun e => match e with EReal b => [b] | _ => [] end) l.

  Definition after_ok (w : V) (e : pev V) : bool :=
    match e with EIgnored | EReal true => true | EValue v => veq v w | _ => false end.

  Lemma fold_none l : fold_left (pnext veq) l None = None.
  Proof. induction l; simpl; auto. Qed.

  Lemma delivered_run l w :
    fold_left (pnext veq) l (Some (Some w)) = if forallb (after_ok w) l then Some (Some w) else None.
  Proof.
    induction l as [|e l IH]; [reflexivity|].
    assert (E : pnext veq (Some (Some w)) e = if after_ok w e then Some (Some w) else None)
      by (destruct e as [| | | |[]]; reflexivity).
    cbn [fold_left forallb]. rewrite E. destruct (after_ok w e); simpl; [exact IH|apply fold_none].
  Qed.

  Lemma delivered_stays l w st :
    fold_left (pnext veq) l (Some (Some w)) = Some st -> st = Some w.
  Proof. rewrite delivered_run. destruct (forallb _ l); congruence. Qed.

  (** a log with a deliver that took effect: what follows it is accepted from [Some v] *)
  Lemma log_ok_split l1 v l2 :
    promise_log_ok veq (l1 ++ EDeliver v :: l2) = true -> forallb (after_ok v) l2 = true.
  Proof.
    unfold promise_log_ok, plog_run. rewrite fold_left_app. simpl.
    destruct (fold_left (pnext veq) l1 (Some None)) as [[w|]|]; simpl; rewrite ?fold_none; try discriminate.
    rewrite delivered_run. destruct (forallb _ l2); [reflexivity|discriminate].
  Qed.

  Theorem log_ok_timeout_only_if_undelivered l1 v l2 :
    promise_log_ok veq (l1 ++ EDeliver v :: l2) = true -> ~ In ETimeout l2.
  Proof. intros H Hin. apply log_ok_split in H. rewrite forallb_forall in H. discriminate (H _ Hin). Qed.

  Theorem log_ok_first_wins l1 v l2 :
    promise_log_ok veq (l1 ++ EDeliver v :: l2) = true ->
    (forall u, ~ In (EDeliver u) l2) /\ (forall u, In (EValue u) l2 -> veq u v = true).
  Proof.
    intros H. apply log_ok_split in H. rewrite forallb_forall in H.
    split; intros u Hin; [discriminate (H _ Hin)|exact (H _ Hin)].
  Qed.

  Lemma mono_of_all_true (l : list bool) : forallb (fun b => b) l = true -> mono_bools l = true.
  Proof. induction l as [|[] l IH]; simpl; intro H; auto. discriminate. Qed.

  Lemma after_reals_true w l : forallb (after_ok w) l = true -> forallb (fun b => b) (reals l) = true.
  Proof.
    induction l as [|e l IH]; simpl; [reflexivity|]. intro H. apply andb_true_iff in H as [H1 H2].
    destruct e as [| | | |[]]; simpl; auto; discriminate.
  Qed.

  Theorem log_ok_realized_monotone l :
    promise_log_ok veq l = true -> mono_bools (reals l) = true.
  Proof.
    unfold promise_log_ok, plog_run. generalize (@eq_refl _ (Some (@None V))).
    induction l as [|e l IH]; simpl; [reflexivity|]. intros _.
    destruct e as [v| | | |[]]; simpl; rewrite ?fold_none; try discriminate; try (apply IH; reflexivity).
    rewrite delivered_run. destruct (forallb _ l) eqn:E; [|discriminate].
    intros _. apply mono_of_all_true, (after_reals_true v), E.
  Qed.
End LogFacts.
