(** C13 model, part 2: basilisp.lang.promise.Promise (flag + value under a condition
    variable).  threading.Condition is modelled as a lock with an owner plus a wait set: a
    waiting thread has released the lock; notify_all marks every waiter notified; a waiter
    leaves the wait when it is notified ([AWake]) or -- timed waits only -- when its timeout
    elapses, which is a nondeterministic step of the schedule ([ATimeout]); either way it
    must re-take the lock before it re-evaluates the predicate.

      deliver   VAcq [PL] VChk [PCHK] VFlag [PFLAG] VVal [PVAL] VNotify [PNOTIFY] VRel [PL]
      deref     MAcq [PL] MPred [PRED: lambda: self._is_delivered] (MWait) (MReacq)
                MGet [PGET] | MTmo [PTMO]  MRel [PL]
      realized? GAcq [PL] GRead [PREAL] GRel [PL]

    Ghost: [phist], the linearization events (Spec.pev), newest first. *)
From Coq Require Import List Bool Arith Lia.
Import ListNotations.
From Verif Require Export C13.Spec.

Inductive ppc :=
| QIdle
| VAcq | VChk | VFlag | VVal | VNotify | VRel
| MAcq | MPred | MWait | MReacq | MGet | MTmo | MRel
| GAcq | GRead | GRel.

Inductive plab := LPL | LPChk | LPFlag | LPVal | LPNotify | LPred | LPGet | LPTmo | LPReal.

Definition plab_of (p : ppc) : option plab :=
  match p with
  | QIdle => None
  | VAcq | VRel | MAcq | MRel | GAcq | GRel => Some LPL
  | VChk => Some LPChk
  | VFlag => Some LPFlag
  | VVal => Some LPVal
  | VNotify => Some LPNotify
  | MPred | MWait | MReacq => Some LPred
  | MGet => Some LPGet
  | MTmo => Some LPTmo
  | GRead => Some LPReal
  end.

Definition plab_eqb (a b : plab) : bool :=
  match a, b with
  | LPL, LPL | LPChk, LPChk | LPFlag, LPFlag | LPVal, LPVal | LPNotify, LPNotify
  | LPred, LPred | LPGet, LPGet | LPTmo, LPTmo | LPReal, LPReal => true
  | _, _ => false
  end.

(** what a scheduler step does to the chosen thread *)
Inductive pact := ARun | ATimeout.

Section Promise.
  Context {V : Type}.
  Variable vnone : V.          (* Python None: the initial _value and the result of deliver *)

  Inductive pop :=
  | PDeliver (v : V)
  | PDeref (timed : option V)      (* None: (deref p);  Some tv: (deref p ms tv) *)
  | PReal.

  Inductive pres := PRet (v : V) | PBool (b : bool).

  Record pthread := mkPT {
    p_ops : list pop;
    p_pc : ppc;
    p_notified : bool;
    p_expired : bool;
    p_got : V;
    p_done : list (pop * pres)
  }.

  Record pstate := mkPS {
    delivered : bool;
    pvalue : V;
    plock : option nat;
    phist : list (pev V);
    pthr : nat -> pthread
  }.

  Definition pentry (o : pop) : ppc :=
    match o with PDeliver _ => VAcq | PDeref _ => MAcq | PReal => GAcq end.
  Definition pcur (th : pthread) : ppc :=
    match p_pc th with
    | QIdle => match p_ops th with o :: _ => pentry o | [] => QIdle end
    | p => p
    end.

  Definition pwith_pc (th : pthread) (p : ppc) : pthread :=
    mkPT (p_ops th) p (p_notified th) (p_expired th) (p_got th) (p_done th).
  Definition pfinish (th : pthread) (o : pop) (r : pres) : pthread :=
    mkPT (tl (p_ops th)) QIdle false false (p_got th) ((o, r) :: p_done th).
  Definition pupd (f : nat -> pthread) (t : nat) (th : pthread) : nat -> pthread :=
    fun i => if Nat.eqb i t then th else f i.

  Definition pset (s : pstate) (l : option nat) (t : nat) (th : pthread) : pstate :=
    mkPS (delivered s) (pvalue s) l (phist s) (pupd (pthr s) t th).
  Definition pset_ev (s : pstate) (l : option nat) (e : pev V) (t : nat) (th : pthread) : pstate :=
    mkPS (delivered s) (pvalue s) l (e :: phist s) (pupd (pthr s) t th).

  Definition is_timed (o : pop) : bool := match o with PDeref (Some _) => true | _ => false end.

  Definition pstep (t : nat) (a : pact) (s : pstate) : option pstate :=
    let th := pthr s t in
    match p_ops th with
    | [] => None
    | o :: _ =>
      match pcur th, a with
      | (VAcq | MAcq | GAcq) as p, ARun =>
          match plock s with
          | Some _ => None
          | None => Some (pset s (Some t) t
                            (pwith_pc th (match p with VAcq => VChk | MAcq => MPred | _ => GRead end)))
          end
      | VChk, ARun =>
          if delivered s
          then Some (pset_ev s (plock s) EIgnored t (pwith_pc th VRel))
          else Some (pset s (plock s) t (pwith_pc th VFlag))
      | VFlag, ARun =>
          match o with
          | PDeliver v =>
              Some (mkPS true (pvalue s) (plock s) (EDeliver v :: phist s)
                         (pupd (pthr s) t (pwith_pc th VVal)))
          | _ => None
          end
      | VVal, ARun =>
          match o with
          | PDeliver v =>
              Some (mkPS (delivered s) v (plock s) (phist s) (pupd (pthr s) t (pwith_pc th VNotify)))
          | _ => None
          end
      | VNotify, ARun =>
          (* notify_all: every thread in the wait set becomes notified *)
          Some (mkPS (delivered s) (pvalue s) (plock s) (phist s)
                     (fun i => if Nat.eqb i t then pwith_pc th VRel
                               else match p_pc (pthr s i) with
                                    | MWait => mkPT (p_ops (pthr s i)) MWait true (p_expired (pthr s i))
                                                    (p_got (pthr s i)) (p_done (pthr s i))
                                    | _ => pthr s i
                                    end))
      | VRel, ARun => Some (pset s None t (pfinish th o (PRet vnone)))
      | MPred, ARun =>
          if delivered s then Some (pset s (plock s) t (pwith_pc th MGet))
          else if p_expired th
               then Some (pset_ev s (plock s) ETimeout t (pwith_pc th MTmo))
               else (* Condition.wait: release the lock and join the wait set *)
                 Some (pset s None t (mkPT (p_ops th) MWait false false (p_got th) (p_done th)))
      | MWait, ARun =>
          if p_notified th
          then match plock s with
               | None => Some (pset s (Some t) t (pwith_pc th MPred))
               | Some _ => Some (pset s (plock s) t (pwith_pc th MReacq))
               end
          else None
      | MWait, ATimeout =>
          if negb (p_notified th) && is_timed o
          then let th' := mkPT (p_ops th) MWait false true (p_got th) (p_done th) in
               match plock s with
               | None => Some (pset s (Some t) t (pwith_pc th' MPred))
               | Some _ => Some (pset s (plock s) t (pwith_pc th' MReacq))
               end
          else None
      | MReacq, ARun =>
          match plock s with
          | Some _ => None
          | None => Some (pset s (Some t) t (pwith_pc th MPred))
          end
      | MGet, ARun =>
          Some (pset_ev s (plock s) (EValue (pvalue s)) t
                        (mkPT (p_ops th) MRel (p_notified th) (p_expired th) (pvalue s) (p_done th)))
      | MTmo, ARun =>
          match o with
          | PDeref (Some tv) =>
              Some (pset s (plock s) t (mkPT (p_ops th) MRel (p_notified th) (p_expired th) tv (p_done th)))
          | _ => None
          end
      | MRel, ARun => Some (pset s None t (pfinish th o (PRet (p_got th))))
      | GRead, ARun =>
          Some (pset_ev s (plock s) (EReal (delivered s)) t
                        (mkPT (p_ops th) GRel (delivered s) (p_expired th) (p_got th) (p_done th)))
      | GRel, ARun => Some (pset s None t (pfinish th o (PBool (p_notified th))))
      | _, _ => None
      end
    end.

  Definition pinit_thread (p : list pop) : pthread := mkPT p QIdle false false vnone [].
  Definition pinit (progs : nat -> list pop) : pstate :=
    mkPS false vnone None [] (fun t => pinit_thread (progs t)).

  Inductive preach (s0 : pstate) : pstate -> Prop :=
  | preach_refl : preach s0 s0
  | preach_step : forall s t a s', preach s0 s -> pstep t a s = Some s' -> preach s0 s'.

  (** the observed schedule: (thread, label, kind) with the kinds of harness/vlib/sched.py *)
  Inductive pkind := KRun | KBlock | KWait | KWake | KTimeout | KWakeBlock | KTimeoutBlock.

  Definition p_is_acq (p : ppc) : bool :=
    match p with VAcq | MAcq | GAcq | MReacq => true | _ => false end.
  Definition lock_busy (s : pstate) (t : nat) : bool :=
    match plock s with Some u => negb (Nat.eqb u t) | None => false end.

  Definition goes_to (s' : pstate) (t : nat) (p : ppc) : bool :=
    match p_pc (pthr s' t), p with
    | MWait, MWait | MReacq, MReacq | MPred, MPred => true
    | _, _ => false
    end.

  Fixpoint prun (sch : list (nat * plab * pkind)) (s : pstate) : option pstate :=
    match sch with
    | [] => Some s
    | (t, l, k) :: r =>
        let p := pcur (pthr s t) in
        match plab_of p with
        | None => None
        | Some l' =>
            if negb (plab_eqb l l') then None
            else
              match k with
              | KBlock =>
                  if p_is_acq p && lock_busy s t
                     && match p_ops (pthr s t) with [] => false | _ => true end
                  then prun r s else None
              | KRun =>
                  match p with
                  | MWait => None
                  | _ => match pstep t ARun s with
                         | Some s' => if goes_to s' t MWait then None else prun r s'
                         | None => None end
                  end
              | KWait =>
                  match p with
                  | MPred => match pstep t ARun s with
                             | Some s' => if goes_to s' t MWait then prun r s' else None
                             | None => None end
                  | _ => None
                  end
              | KWake | KWakeBlock | KTimeout | KTimeoutBlock =>
                  match p with
                  | MWait =>
                      match pstep t (match k with KWake | KWakeBlock => ARun | _ => ATimeout end) s with
                      | Some s' =>
                          if goes_to s' t (match k with KWakeBlock | KTimeoutBlock => MReacq | _ => MPred end)
                          then prun r s' else None
                      | None => None
                      end
                  | _ => None
                  end
              end
        end
    end.

  Lemma prun_reach s0 : forall sch s s', preach s0 s -> prun sch s = Some s' -> preach s0 s'.
  Proof.
    induction sch as [|[[t l] k] r IH]; simpl; intros s s' R H.
    - inversion H; subst; exact R.
    - destruct (plab_of (pcur (pthr s t))); [|discriminate].
      destruct (negb (plab_eqb l p)); [discriminate|].
      destruct k; destruct (pcur (pthr s t)); try discriminate;
        try (destruct (_ && _ && _); [eapply IH; eauto|discriminate]);
        match type of H with context [pstep t ?a s] => destruct (pstep t a s) eqn:E; [|discriminate] end;
        destruct (goes_to _ _ _); try discriminate; (eapply IH; [|exact H]); econstructor; eauto.
  Qed.


  (** no thread can take a step: used to recognise a deadlock (an untimed deref of a promise
      nobody delivers) *)
  Definition p_enabled (s : pstate) (t : nat) : bool :=
    match pstep t ARun s, pstep t ATimeout s with
    | None, None => false
    | _, _ => true
    end.
End Promise.

Arguments pop : clear implicits.
Arguments pres : clear implicits.
Arguments pthread : clear implicits.
Arguments pstate : clear implicits.
