(** C13 model, part 3: basilisp.lang.futures.Future, a wrapper over
    concurrent.futures.Future.  The wrapped future is an abstract one-shot cell given by
    Section hypotheses (it lives outside the repository's logic):

      [outcome c]   None while pending, [Some o] once done; done is for ever ([cf_stable])
      result(timeout)  done: returns the value / raises the body's exception;
                       pending and timed: raises TimeoutError when the timeout elapses
                       (pending and untimed blocks: no result)

    The wrapper (futures.py, shape regenerated: Gen.Tables.future_deref_mode):
      mode 0   try: return self._future.result(timeout) except TimeoutError: return timeout_val
      mode 1   ... except TimeoutError:
                       if self._future.done(): return self._future.result()
                       return timeout_val
    Since Python 3.11 concurrent.futures.TimeoutError IS the builtin TimeoutError, so in
    mode 0 a body that itself raises TimeoutError makes deref return the timeout value. *)
From Coq Require Import List Bool Arith NArith.
Import ListNotations.

Inductive exn := ETimeoutError | EOther (k : nat).

Inductive outcome {V : Type} := OVal (v : V) | ORaise (e : exn).
Arguments outcome : clear implicits.

(** what a call yields *)
Inductive yield {V : Type} := YRet (v : V) | YRaise (e : exn).
Arguments yield : clear implicits.

Section Future.
  Context {V Cell : Type}.
  Variable outcome_of : Cell -> option (outcome V).
  (** the cell as seen by successive calls of one deref: it may advance between them *)
  Variable cstep : Cell -> Cell -> Prop.
  Hypothesis cf_stable : forall c c' o, cstep c c' -> outcome_of c = Some o -> outcome_of c' = Some o.
  Hypothesis cstep_refl : forall c, cstep c c.

  (** concurrent.futures.Future.result(timeout) on a cell in state [c], timed *)
  Definition cf_result_timed (c : Cell) : yield V :=
    match outcome_of c with
    | Some (OVal v) => YRet v
    | Some (ORaise e) => YRaise e
    | None => YRaise ETimeoutError
    end.
  (** ... untimed: only defined when done (otherwise it blocks) *)
  Definition cf_result (c : Cell) : option (yield V) :=
    match outcome_of c with
    | Some (OVal v) => Some (YRet v)
    | Some (ORaise e) => Some (YRaise e)
    | None => None
    end.
  Definition cf_done (c : Cell) : bool := match outcome_of c with Some _ => true | None => false end.

  Variable mode : N.

  (** Future.deref(timeout, timeout_val): the three calls see cells c1, c2, c3 *)
  Definition deref_timed (c1 c2 c3 : Cell) (tv : V) : option (yield V) :=
    match cf_result_timed c1 with
    | YRet v => Some (YRet v)
    | YRaise ETimeoutError =>
        if N.eqb mode 0 then Some (YRet tv)
        else if cf_done c2 then cf_result c3 else Some (YRet tv)
    | YRaise e => Some (YRaise e)
    end.

  (** Future.deref() without timeout on a done cell *)
  Definition deref_done (c1 c2 c3 : Cell) (tv : V) : option (yield V) :=
    match cf_result c1 with
    | Some (YRaise ETimeoutError) =>
        if N.eqb mode 0 then Some (YRet tv)
        else if cf_done c2 then cf_result c3 else Some (YRet tv)
    | r => r
    end.

  Definition yield_of (o : outcome V) : yield V :=
    match o with OVal v => YRet v | ORaise e => YRaise e end.

  (** on a done cell the timed call is the untimed one *)
  Lemma deref_timed_done : forall c1 c2 c3 tv o,
    outcome_of c1 = Some o -> deref_timed c1 c2 c3 tv = deref_done c1 c2 c3 tv.
  Proof.
    intros c1 c2 c3 tv o H1. unfold deref_timed, deref_done, cf_result_timed, cf_result. rewrite H1.
    destruct o as [v|[|k]]; reflexivity.
  Qed.

  (** the outcome of the body, whenever the future is done -- repaired code *)
  Theorem future_outcome_untimed : mode <> 0%N -> forall c1 c2 c3 tv o,
    cstep c1 c2 -> cstep c2 c3 -> outcome_of c1 = Some o ->
    deref_done c1 c2 c3 tv = Some (yield_of o).
  Proof.
    intros Hm c1 c2 c3 tv o S12 S23 H1.
    pose proof (cf_stable _ _ _ S12 H1) as H2. pose proof (cf_stable _ _ _ S23 H2) as H3.
    unfold deref_done, cf_done, cf_result. rewrite H1, H2, H3.
    apply N.eqb_neq in Hm. rewrite Hm.
    destruct o as [v|[|k]]; reflexivity.
  Qed.

  Theorem future_outcome_timed : mode <> 0%N -> forall c1 c2 c3 tv o,
    cstep c1 c2 -> cstep c2 c3 -> outcome_of c1 = Some o ->
    deref_timed c1 c2 c3 tv = Some (yield_of o).
  Proof.
    intros Hm c1 c2 c3 tv o S12 S23 H1. rewrite (deref_timed_done _ _ _ _ _ H1).
    now apply future_outcome_untimed.
  Qed.

  (** a timed deref yields the timeout value only if the future was not done when it
      waited, and otherwise it yields the (final) outcome *)
  Theorem future_timeout_only_if_pending : mode <> 0%N -> forall c1 c2 c3 tv r,
    cstep c1 c2 -> cstep c2 c3 -> deref_timed c1 c2 c3 tv = Some r ->
    (outcome_of c1 = None /\ r = YRet tv) \/ (exists o, outcome_of c3 = Some o /\ r = yield_of o).
  Proof.
    intros Hm c1 c2 c3 tv r S12 S23 H.
    apply N.eqb_neq in Hm.
    unfold deref_timed, cf_result_timed in H.
    destruct (outcome_of c1) as [o|] eqn:H1.
    - right. pose proof (cf_stable _ _ _ S12 H1) as H2. pose proof (cf_stable _ _ _ S23 H2) as H3.
      exists o. split; [exact H3|].
      unfold cf_done, cf_result in H. rewrite Hm, H2, H3 in H.
      destruct o as [v|[|k]]; inversion H; reflexivity.
    - rewrite Hm in H. unfold cf_done, cf_result in H.
      destruct (outcome_of c2) as [o2|] eqn:H2.
      + right. pose proof (cf_stable _ _ _ S23 H2) as H3. rewrite H3 in H.
        exists o2. split; [exact H3|]. destruct o2 as [v|e]; inversion H; reflexivity.
      + left. inversion H; auto.
  Qed.

  (** realized? (= done) is monotone along the life of the cell *)
  Theorem future_realized_monotone : forall c c', cstep c c' -> cf_done c = true -> cf_done c' = true.
  Proof.
    intros c c' S H. unfold cf_done in *. destruct (outcome_of c) as [o|] eqn:E; [|discriminate].
    rewrite (cf_stable _ _ _ S E). reflexivity.
  Qed.
End Future.

(** the unrepaired wrapper swallows a TimeoutError raised by the body *)
Lemma future_mode0_swallows : forall (tv : nat),
  @deref_done nat (option (outcome nat)) (fun c => c) 0%N
      (Some (ORaise ETimeoutError)) (Some (ORaise ETimeoutError)) (Some (ORaise ETimeoutError)) tv
  = Some (YRet tv).
Proof. reflexivity. Qed.
