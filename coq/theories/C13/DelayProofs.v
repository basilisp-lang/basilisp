(** C13 proofs: the repaired Delay (double-checked lock).  Under every
    interleaving of any number of threads: a body run begins only when no run is in
    progress and none has ever returned; the body log is accepted by Spec.once_log; all
    derefs that return a value return the value of that unique run; realized? is monotone.

    Only the thread inside `with self._lock` writes the cell, the body counters and the
    log: the invariant is indexed by that thread's program point ([holder_ok], [idle_ok]). *)
From Coq Require Import List Bool Arith NArith Lia.
Import ListNotations.
From Verif Require Import C12.Lock C13.Spec C13.Delay.

Section DelayProofs.
  Context {V : Type}.
  Variable mode : N.
  Variable cas_ok : option V -> option V -> bool.
  Variable body : nat -> option V.
  Hypothesis Hlocked : locked mode = true.
  Hypothesis cas_refl : forall x, cas_ok x x = true.

  Notation dthread := (dthread V).
  Notation dstate := (dstate V).
  Notation dstep := (@dstep V mode cas_ok body).
  Notation dreach := (@dreach V mode cas_ok body).

  Definition in_acs (p : dpc) : bool :=
    match p with DRdRead | DRdRel | DSCmp | DSSet | DSRel _ => true | _ => false end.
  Definition in_q (p : dpc) : bool :=
    match p with
    | DSRead | DSComp | DBodyB | DBodyE | DSVal | DSAcq | DSCmp | DSSet | DSRel _ | DQRel _ => true
    | _ => false
    end.

  Definition bst (s : dstate) : bstate :=
    match rets s, inbody s with
    | [], O => BIdle
    | [], _ => BRunning
    | _ :: _, _ => BDone
    end.

  Definition idle_ok (s : dstate) : Prop := inbody s = 0 /\ (dcell s = None -> rets s = []).

  (** what holds of the shared state while thread [th] is inside `with self._lock` *)
  Definition holder_ok (s : dstate) (th : dthread) : Prop :=
    match d_pc th with
    | DSRead | DQRel true => idle_ok s
    | DSComp => idle_ok s /\ d_old th = dcell s
    | DBodyB => d_old th = None /\ dcell s = None /\ inbody s = 0 /\ rets s = []
    | DBodyE => d_old th = None /\ dcell s = None /\ inbody s = 1 /\ rets s = []
    | DSVal | DSAcq | DSCmp | DSSet =>
        inbody s = 0 /\ d_old th = dcell s /\ exists v, d_new th = Some v /\ rets s = [v]
    | DSRel true | DQRel false => inbody s = 0 /\ d_new th = dcell s /\ exists v, dcell s = Some v
    | DSRel false => False
    | _ => True
    end.

  Record DInv (s : dstate) : Prop := {
    di_a : forall t, in_acs (d_pc (dthr s t)) = true <-> alock s = Some t;
    di_q : forall t, in_q (d_pc (dthr s t)) = true <-> qlock s = Some t;
    di_h : match qlock s with Some t => holder_ok s (dthr s t) | None => idle_ok s end;
    di_cell : forall v, dcell s = Some v -> rets s = [v];
    di_st : forall t v, d_st (dthr s t) = Some v -> rets s = [v];
    di_done : forall t o v, In (o, DVal v) (d_done (dthr s t)) -> rets s = [v];
    di_log : brun (map snd (rev (blog s))) = bst s;
    di_real : (dcell s = None -> forallb negb (rlog s) = true) /\ mono_bools (rev (rlog s)) = true;
    di_bound : inbody s <= 1 /\ length (rets s) <= 1
  }.

  Lemma dupd_same (f : nat -> dthread) t th : dupd f t th t = th.
  Proof. unfold dupd. rewrite Nat.eqb_refl. reflexivity. Qed.
  Lemma dupd_other (f : nat -> dthread) t th u : u <> t -> dupd f t th u = f u.
  Proof. unfold dupd. intro H. apply Nat.eqb_neq in H. rewrite H. reflexivity. Qed.

  Lemma DInv_init progs : DInv (dinit progs).
  Proof.
    constructor; simpl; intros; try discriminate; try contradiction; auto.
    - split; intro H; discriminate.
    - split; intro H; discriminate.
    - split; auto.
  Qed.

  Lemma brun_snoc l e : brun (l ++ [e]) = bnext (brun l) e.
  Proof. unfold brun. rewrite fold_left_app. reflexivity. Qed.
  Lemma mono_snoc_true l : mono_bools l = true -> mono_bools (l ++ [true]) = true.
  Proof. induction l as [|[] l IH]; simpl; intro H; auto. rewrite forallb_app, H. reflexivity. Qed.
  Lemma mono_all_false l : forallb negb l = true -> mono_bools (l ++ [false]) = true.
  Proof. induction l as [|[] l IH]; simpl; intro H; auto; discriminate. Qed.
  Lemma forallb_rev {A} (f : A -> bool) l : forallb f (rev l) = forallb f l.
  Proof.
    induction l as [|x l IH]; simpl; auto. rewrite forallb_app, IH. simpl.
    rewrite andb_true_r. apply andb_comm.
  Qed.

  Lemma real_push s : DInv s ->
    (dcell s = None -> forallb negb (computed (dcell s) :: rlog s) = true)
    /\ mono_bools (rev (computed (dcell s) :: rlog s)) = true.
  Proof.
    intros I. destruct (di_real s I) as [R1 R2]. destruct (dcell s); simpl; split; try discriminate.
    - apply mono_snoc_true, R2.
    - intros _. apply R1. reflexivity.
    - apply mono_all_false. rewrite forallb_rev. apply R1. reflexivity.
  Qed.

  Lemma dcur_pc (th : dthread) o r p : d_ops th = o :: r -> dcur mode th = p -> p <> DRdAcq ->
    d_pc th = p.
  Proof.
    unfold dcur. intros E. rewrite E. destruct (d_pc th); try congruence.
    unfold dentry. rewrite Hlocked. destruct o; congruence.
  Qed.

  Lemma dcur_rdacq (th : dthread) : dcur mode th = DRdAcq ->
    in_acs (d_pc th) = false /\ in_q (d_pc th) = false.
  Proof.
    unfold dcur. destruct (d_pc th); try discriminate; auto.
  Qed.
  (** the rows of [dstep] for [locked mode = true], over stored program points *)
  Inductive dstepv (t : nat) (s : dstate) (o : dop) (th : dthread) : dpc -> dstate -> Prop :=
  | dv_rdacq p : in_acs p = false -> in_q p = false -> alock s = None ->
      dstepv t s o th p (set_thr (set_alock s (Some t)) t (dwith_pc th DRdRead))
  | dv_rdread :
      dstepv t s o th DRdRead
        (mkDS (dcell s) (alock s) (qlock s) (nbeg s) (inbody s) (rets s) (blog s)
              (match o with DReal => computed (dcell s) :: rlog s | DDeref => rlog s end)
              (dupd (dthr s) t (mkDT (d_ops th) DRdRel (dcell s) (d_old th)
                                     (d_new th) (d_idx th) (d_done th))))
  | dv_rdrel_real : o = DReal ->
      dstepv t s o th DRdRel (set_thr (set_alock s None) t
                            (dfinish th o (DBool (computed (d_st th)))))
  | dv_rdrel : o = DDeref ->
      dstepv t s o th DRdRel (set_thr (set_alock s None) t (dwith_pc th DChk))
  | dv_chk_done v : d_st th = Some v ->
      dstepv t s o th DChk (set_thr s t (dfinish th o (DVal v)))
  | dv_chk : d_st th = None ->
      dstepv t s o th DChk (set_thr s t (dwith_pc th DQAcq))
  | dv_qacq : qlock s = None ->
      dstepv t s o th DQAcq (set_thr (set_qlock s (Some t)) t (dwith_pc th DSRead))
  | dv_sread :
      dstepv t s o th DSRead (set_thr s t (mkDT (d_ops th) DSComp (d_st th) (dcell s)
                                      (d_new th) (d_idx th) (d_done th)))
  | dv_scomp_done v : d_old th = Some v ->
      dstepv t s o th DSComp (set_thr s t (mkDT (d_ops th) DSVal (d_st th) (d_old th)
                                      (d_old th) (d_idx th) (d_done th)))
  | dv_scomp : d_old th = None ->
      dstepv t s o th DSComp (set_thr s t (dwith_pc th DBodyB))
  | dv_bodyb :
      dstepv t s o th DBodyB
        (mkDS (dcell s) (alock s) (qlock s) (S (nbeg s)) (S (inbody s)) (rets s)
              ((t, BBegin) :: blog s) (rlog s)
              (dupd (dthr s) t (mkDT (d_ops th) DBodyE (d_st th) (d_old th)
                                     (d_new th) (nbeg s) (d_done th))))
  | dv_bodye v : body (d_idx th) = Some v ->
      dstepv t s o th DBodyE
        (mkDS (dcell s) (alock s) (qlock s) (nbeg s) (pred (inbody s)) (rets s ++ [v])
              ((t, BEnd true) :: blog s) (rlog s)
              (dupd (dthr s) t (mkDT (d_ops th) DSVal (d_st th) (d_old th)
                                     (Some v) (d_idx th) (d_done th))))
  | dv_bodye_exc : body (d_idx th) = None ->
      dstepv t s o th DBodyE
        (mkDS (dcell s) (alock s) (qlock s) (nbeg s) (pred (inbody s)) (rets s)
              ((t, BEnd false) :: blog s) (rlog s)
              (dupd (dthr s) t (dwith_pc th (DQRel true))))
  | dv_sval :
      dstepv t s o th DSVal (set_thr s t (dwith_pc th DSAcq))
  | dv_sacq : alock s = None ->
      dstepv t s o th DSAcq (set_thr (set_alock s (Some t)) t (dwith_pc th DSCmp))
  | dv_scmp : cas_ok (dcell s) (d_old th) = true ->
      dstepv t s o th DSCmp (set_thr s t (dwith_pc th DSSet))
  | dv_scmp_fail : cas_ok (dcell s) (d_old th) = false ->
      dstepv t s o th DSCmp (set_thr s t (dwith_pc th (DSRel false)))
  | dv_sset :
      dstepv t s o th DSSet
        (mkDS (d_new th) (alock s) (qlock s) (nbeg s) (inbody s) (rets s) (blog s) (rlog s)
              (dupd (dthr s) t (dwith_pc th (DSRel true))))
  | dv_srel :
      dstepv t s o th (DSRel true) (set_thr (set_alock s None) t (dwith_pc th (DQRel false)))
  | dv_srel_retry :
      dstepv t s o th (DSRel false) (set_thr (set_alock s None) t (dwith_pc th DSRead))
  | dv_qrel_exc :
      dstepv t s o th (DQRel true) (set_thr (set_qlock s None) t (dfinish th o DExc))
  | dv_qrel :
      dstepv t s o th (DQRel false) (set_thr (set_qlock s None) t (dfinish th o (val_res (d_new th)))).

  Definition dstepped (t : nat) (s s' : dstate) : Prop :=
    exists o r, d_ops (dthr s t) = o :: r /\ dstepv t s o (dthr s t) (d_pc (dthr s t)) s'.

  (* the goal stays folded while [dstep] is taken apart: every case analysis there copies it *)
  Lemma dstep_view t s s' : dstep t s = Some s' -> dstepped t s s'.
  Proof.
    intros H. destruct (d_ops (dthr s t)) as [|o r] eqn:E;
      [unfold Delay.dstep in H; rewrite E in H; discriminate|].
    unfold Delay.dstep in H. rewrite ?Hlocked, E in H.
    destruct (dcur mode (dthr s t)) eqn:Hc; try discriminate.
    all: first [apply (dcur_pc _ _ _ _ E) in Hc; [|discriminate]|destruct (dcur_rdacq _ Hc)].
    all: repeat match type of H with
           | context [match ?x with _ => _ end] =>
               let E := fresh "E" in destruct x eqn:E; try discriminate
           end; inversion H; subst; clear H.
    all: unfold dstepped; do 2 eexists; (split; [exact E|]); rewrite <- ?E, ?Hc;
      try match goal with X : d_old _ = Some _ |- _ => rewrite <- X end.
    all: solve [econstructor; first [reflexivity|eassumption]].
  Qed.


  Lemma holder_at s t : DInv s -> in_q (d_pc (dthr s t)) = true -> holder_ok s (dthr s t).
  Proof.
    intros I Hq. apply (di_q s I t) in Hq. pose proof (di_h s I) as L. rewrite Hq in L. exact L.
  Qed.

  Lemma DInv_step s t s' : DInv s -> dstep t s = Some s' -> DInv s'.
  Proof.
    intros I H. destruct (dstep_view t s s' H) as (o & r & E & Sv). clear H.
    remember (d_pc (dthr s t)) as p eqn:Hp. symmetry in Hp.
    assert (Fr : forall u, u <> t -> dthr s' u = dthr s u)
      by (intros u Hu; destruct Sv; simpl; apply dupd_other; exact Hu).
    pose proof (di_q s I t) as Lq. rewrite Hp in Lq.
    (* inside `with self._lock`: the thread owns it and its program point's assertion holds *)
    assert (Hold : in_q p = true -> qlock s = Some t /\ holder_ok s (dthr s t))
      by (intro X; split; [apply Lq; exact X|apply (holder_at s t I); rewrite Hp; exact X]).
    unfold holder_ok in Hold. rewrite Hp in Hold.
    assert (Keep : forall v0, rets s = [v0] -> rets s' = [v0]).
    { (* a value joins [rets] only when the first run returns *)
      destruct Sv; try exact (fun v0 X => X).
      destruct (Hold eq_refl) as (_ & _ & _ & _ & Hr). simpl. rewrite Hr. intros v0 X. discriminate X. }
    constructor.
    - apply (lock_step in_acs (fun u => d_pc (dthr s u)) (fun u => d_pc (dthr s' u)) (alock s) (alock s') t (di_a s I)).
      { intros u Hu. rewrite (Fr u Hu). reflexivity. }
      rewrite Hp. destruct Sv; simpl; rewrite dupd_same; simpl.
      all: first [ left; split; reflexivity | right; left; repeat split; (assumption || reflexivity)
                 | right; right; repeat split; reflexivity ].
    - apply (lock_step in_q (fun u => d_pc (dthr s u)) (fun u => d_pc (dthr s' u)) (qlock s) (qlock s') t (di_q s I)).
      { intros u Hu. rewrite (Fr u Hu). reflexivity. }
      rewrite Hp. destruct Sv; simpl; rewrite dupd_same; simpl.
      all: first [ left; split; [reflexivity || (symmetry; assumption)|reflexivity]
                 | right; left; repeat split; (assumption || reflexivity)
                 | right; right; repeat split; reflexivity ].
    - pose proof (di_cell s I) as Lc. pose proof (di_h s I) as Lh.
      destruct Sv; simpl.
      (* outside `with self._lock`: nothing the holder's assertion reads has changed *)
      all: try (assert (Hn : qlock s <> Some t) by (intro X; apply Lq in X; simpl in X; congruence);
                destruct (qlock s) as [u|]; [rewrite dupd_other by congruence|]; exact Lh).
      all: try (destruct (Hold eq_refl) as [Hq Lh']; rewrite ?Hq); rewrite ?dupd_same;
        unfold holder_ok, idle_ok in *; simpl in *.
      all: repeat match goal with
           | X : _ /\ _ |- _ => destruct X
           | X : exists _, _ |- _ => destruct X
           end.
      all: try (repeat split; eauto; congruence).
      + (* entering: what held with nobody inside is what DSRead asserts *)
        match goal with X : qlock s = None |- _ => rewrite X in Lh end. exact Lh.
      + assert (rets s = [v]) by (apply Lc; congruence). repeat split; eauto.
      + assert (dcell s = None) by congruence. repeat split; auto.
      + repeat match goal with X : inbody _ = _ |- _ => rewrite X | X : rets _ = _ |- _ => rewrite X end.
        repeat split; eauto; congruence.
      + repeat match goal with X : inbody _ = _ |- _ => rewrite X | X : rets _ = _ |- _ => rewrite X end.
        split; reflexivity.
      + exfalso; assumption.
    - (* the cell changes only at DSSet, to the value of the run that returned *)
      destruct Sv; simpl; try exact (di_cell s I); destruct (Hold eq_refl) as (_ & ? & ? & ?).
      + intros v0 X. congruence.
      + match goal with X : exists _, _ |- _ => destruct X as (v & Hn & Hr) end. intros v0 X. congruence.
    - (* [d_st] is a copy of the cell, of which [di_cell] speaks *)
      intros u v0. destruct (Nat.eq_dec u t) as [->|Hu];
        [|rewrite (Fr u Hu); intro X; exact (Keep _ (di_st s I u v0 X))].
      assert (Ls : d_st (dthr s t) = Some v0 -> rets s' = [v0]) by (intro X; exact (Keep _ (di_st s I t v0 X))).
      assert (Lc : dcell s = Some v0 -> rets s' = [v0]) by (intro X; exact (Keep _ (di_cell s I v0 X))).
      clear Keep. destruct Sv; simpl in *; rewrite dupd_same; simpl; auto.
    - (* a deref returns the state it copied, or the one its own swap installed *)
      intros u o1 v0. destruct (Nat.eq_dec u t) as [->|Hu];
        [|rewrite (Fr u Hu); intro X; exact (Keep _ (di_done s I u o1 v0 X))].
      assert (Ld : In (o1, DVal v0) (d_done (dthr s t)) -> rets s' = [v0])
        by (intro X; exact (Keep _ (di_done s I t o1 v0 X))).
      destruct Sv; simpl in *; rewrite dupd_same; simpl; auto.
      all: intros [X|X]; [inversion X; subst; clear X|exact (Ld X)].
      + apply (di_st s I t v0). assumption.
      + destruct (Hold eq_refl) as (_ & _ & Hn & v & Hv). apply (di_cell s I).
        match goal with X : val_res _ = DVal _ |- _ => rewrite Hn, Hv in X; simpl in X; congruence end.
    - (* each body event is a step of the once-only automaton from [bst s] *)
      pose proof (di_log s I) as Ll.
      destruct Sv; simpl; try exact Ll.
      all: rewrite map_app; simpl; rewrite brun_snoc, Ll; unfold bst; simpl;
        destruct (Hold eq_refl) as (_ & _ & _ & -> & ->); reflexivity.
    - destruct Sv; simpl; try exact (di_real s I).
      + destruct o; [exact (di_real s I)|exact (real_push s I)].
      + split; [|exact (proj2 (di_real s I))].
        destruct (Hold eq_refl) as (_ & _ & _ & v & -> & _). intro X; discriminate X.
    - destruct Sv; simpl; try exact (di_bound s I);
        destruct (Hold eq_refl) as (_ & _ & _ & -> & ->); simpl; lia.
  Qed.


  Theorem dreach_DInv progs s : dreach (dinit progs) s -> DInv s.
  Proof. intro R. induction R; eauto using DInv_init, DInv_step. Qed.

  Theorem delay_once progs s t :
    dreach (dinit progs) s -> dcur mode (dthr s t) = DBodyB -> inbody s = 0 /\ rets s = [].
  Proof.
    intros R Hc. pose proof (dreach_DInv progs s R) as I.
    assert (Hpc : d_pc (dthr s t) = DBodyB).
    { unfold dcur in Hc. destruct (d_pc (dthr s t)) eqn:Hp; try discriminate; auto.
      destruct (d_ops (dthr s t)) as [|[] ?]; try discriminate.
      unfold dentry in Hc. rewrite Hlocked in Hc. discriminate. }
    assert (Hq : qlock s = Some t) by (apply (di_q s I t); rewrite Hpc; reflexivity).
    pose proof (di_h s I) as L. rewrite Hq in L. unfold holder_ok in L. rewrite Hpc in L. tauto.
  Qed.

  Theorem delay_log_once progs s :
    dreach (dinit progs) s ->
    once_log (map snd (rev (blog s))) = true /\ inbody s <= 1 /\ length (rets s) <= 1.
  Proof.
    intro R. pose proof (dreach_DInv progs s R) as I. split; [|exact (di_bound s I)].
    unfold once_log. rewrite (di_log s I). unfold bst. destruct (rets s), (inbody s); reflexivity.
  Qed.


  Theorem delay_value_stable progs s t o v :
    dreach (dinit progs) s -> In (o, DVal v) (d_done (dthr s t)) -> rets s = [v].
  Proof. intros R. apply (di_done s (dreach_DInv progs s R)). Qed.

  Theorem delay_realized_monotone progs s :
    dreach (dinit progs) s -> mono_bools (rev (rlog s)) = true.
  Proof. intro R. apply (di_real s (dreach_DInv progs s R)). Qed.

End DelayProofs.
