(** Semantic preservation of the statement-level rewrites on the Python subset with loops
    (C01L/LPy.v): dropping bare constant/name statements, dropping the statements that follow
    `break` / `continue` in a block, dropping `if`s whose branches are both empty -- the
    optimised code yields the same outcome, frame and trace for the same fuel.  Composed with
    the loop simulation theorem of C01L. *)
From Coq Require Import List NArith.
Import ListNotations.
From Verif Require Import C01L.LLisp C01L.LPy C01L.LGen C01L.LTop C01L.LEmb.
From Verif Require C15.SemX.

Definition ldroppable (e : pexpr) : bool := match e with PConst _ | PName _ => true | PCall _ _ => false end.
Definition is_jump (s : lstmt) : bool := match s with LBreak | LContinue => true | _ => false end.

Definition lopt_with (o1 : lstmt -> list lstmt) : list lstmt -> list lstmt :=
  fix go (l : list lstmt) : list lstmt :=
    match l with
    | [] => []
    | s :: r => if is_jump s then [s] else o1 s ++ go r      (* _filter_dead_code *)
    end.

Fixpoint lopt1 (s : lstmt) : list lstmt :=
  match s with
  | LExpr e => if ldroppable e then [] else [s]
  | LSIf t fb tb =>
      match lopt_with lopt1 fb, lopt_with lopt1 tb with
      | [], [] => []
      | fb', tb' => [LSIf t fb' tb']
      end
  | LWhile body => [LWhile (lopt_with lopt1 body)]
  | _ => [s]
  end.
Definition lopt := lopt_with lopt1.

Lemma xdroppable_ldroppable e : SemX.xdroppable e = ldroppable e.
Proof. destruct e; reflexivity. Qed.

Lemma lopt_cons s r : lopt (s :: r) = if is_jump s then [s] else lopt1 s ++ lopt r.
Proof. reflexivity. Qed.

Section LstmtInd.
  Variable P : lstmt -> Prop.
  Hypothesis HAssign : forall n e, P (LAssign n e).
  Hypothesis HTuple : forall ns es, P (LAssignTuple ns es).
  Hypothesis HExpr : forall e, P (LExpr e).
  Hypothesis HIf : forall t fb tb, Forall P fb -> Forall P tb -> P (LSIf t fb tb).
  Hypothesis HWhile : forall b, Forall P b -> P (LWhile b).
  Hypothesis HBreak : P LBreak.
  Hypothesis HContinue : P LContinue.
  Fixpoint lstmt_ind' (s : lstmt) : P s :=
    let go := fix go (l : list lstmt) : Forall P l :=
      match l with [] => Forall_nil P | a :: r => Forall_cons a (lstmt_ind' a) (go r) end in
    match s with
    | LAssign n e => HAssign n e
    | LAssignTuple ns es => HTuple ns es
    | LExpr e => HExpr e
    | LSIf t fb tb => HIf t fb tb (go fb) (go tb)
    | LWhile b => HWhile b (go b)
    | LBreak => HBreak
    | LContinue => HContinue
    end.
End LstmtInd.

(** the pass commutes with the embedding [St] (C01L/LEmb.v): preservation comes from SemX *)
Lemma lopt_emb_of l : Forall (fun s => map St (lopt1 s) = SemX.xopt1 (St s)) l -> map St (lopt l) = SemX.xopt (map St l).
Proof.
  induction 1 as [|s r Hs _ IH]; [reflexivity|]. rewrite lopt_cons. cbn [map]. rewrite SemX.xopt_cons.
  replace (SemX.x_is_jump (St s)) with (is_jump s) by (destruct s; reflexivity).
  destruct (is_jump s); [reflexivity|]. rewrite map_app, Hs, IH. reflexivity.
Qed.

Lemma lopt1_emb s : map St (lopt1 s) = SemX.xopt1 (St s).
Proof.
  induction s as [n e|ns es|e|t fb tb IHf IHt|b IHb| |] using lstmt_ind'; cbn [lopt1 St SemX.xopt1]; try reflexivity.
  - rewrite (xdroppable_ldroppable e). destruct (ldroppable e); reflexivity.
  - fold (lopt fb) (lopt tb) (SemX.xopt (map St fb)) (SemX.xopt (map St tb)).
    rewrite <- (lopt_emb_of fb IHf), <- (lopt_emb_of tb IHt). destruct (lopt fb), (lopt tb); reflexivity.
  - fold (lopt b) (SemX.xopt (map St b)). rewrite <- (lopt_emb_of b IHb). reflexivity.
Qed.

Theorem lopt_stmts_preserves m F l r : lexec m F l = Some r -> lexec m F (lopt l) = Some r.
Proof.
  destruct r as [[o F'] t]. intro H. apply lexec_of_x.
  rewrite (lopt_emb_of l) by (apply Forall_forall; intros s _; apply lopt1_emb).
  apply SemX.xopt_stmts_preserves. rewrite lexec_emb, H. reflexivity.
Qed.

Definition lrun_opt (fuel : nat) (e : lexpr) : option (value * trace) :=
  let '(d, pe, _, _) := lgen (fun _ => None) [] 0 e in
  match lexec fuel (fun _ => None) (lopt d) with
  | Some (Normal, F, t1) => match peval F pe with Some (v, t2) => Some (v, t1 ++ t2) | None => None end
  | _ => None
  end.

Lemma lrun_opt_of fuel e r : lrun fuel e = Some r -> lrun_opt fuel e = Some r.
Proof.
  unfold lrun, lrun_opt. destruct (lgen (fun _ => None) [] 0 e) as [[[d pe] n'] k].
  destruct (lexec fuel (fun _ => None) d) as [[[o F] t1]|] eqn:E; [|discriminate].
  rewrite (lopt_stmts_preserves _ _ _ _ E). auto.
Qed.

Theorem optimized_loops_compile_correct fuel e v tr :
  leval fuel (fun _ => None) e = Some (OVal v, tr) -> hazard_free e = true ->
  exists m, forall m', (m <= m')%nat -> lrun_opt m' e = Some (v, tr).
Proof.
  intros He Hh. destruct (lcompile_correct fuel e v tr He Hh) as [m Hm].
  exists m. intros m' L. apply lrun_opt_of, Hm, L.
Qed.

(** the dead-code rule really fires on generated loops: the statement after `continue` *)
Example lopt_nonvacuous :
  let '(d, _, _, _) := lgen (fun _ => None) [] 0 count_loop in
  lopt d <> d.
Proof. vm_compute. discriminate. Qed.
