(** Semantic preservation of the statement-level rewrites on the Python subset with function
    definitions and calls (C01C/CPy.v): dropping bare constant/name statements and empty `if`s,
    also inside function bodies (visit_FunctionDef).  Optimised and unoptimised runs build
    different function values (their bodies differ), so the statement is a simulation between
    two heaps related frame by frame; observable values and traces are equal.  Composed with the
    simulation theorem of C01C. *)
From Coq Require Import List ZArith.
Import ListNotations.
From Verif Require Import C01C.CLisp C01C.CPy C01C.CGen C01C.CMono C01C.CSim C01C.CTop.

Definition copt_with (o1 : cstmt -> list cstmt) : list cstmt -> list cstmt :=
  fix go (l : list cstmt) : list cstmt := match l with [] => [] | s :: r => o1 s ++ go r end.

Fixpoint copt1 (s : cstmt) : list cstmt :=
  match s with
  | SExpr e => if atomic e then [] else [s]
  | SIf t fb tb =>
      match copt_with copt1 fb, copt_with copt1 tb with
      | [], [] => []
      | fb', tb' => [SIf t fb' tb']
      end
  | SDef name lo ps body ret => [SDef name lo ps (copt_with copt1 body) ret]
  | _ => [s]
  end.
Definition copt := copt_with copt1.

Lemma copt_cons s r : copt (s :: r) = copt1 s ++ copt r.
Proof. reflexivity. Qed.

(** values up to optimisation of function bodies *)
Inductive OV : pval -> pval -> Prop :=
| OV_nil : OV PVNil PVNil
| OV_bool b : OV (PVBool b) (PVBool b)
| OV_int z : OV (PVInt z) (PVInt z)
| OV_vec l l' : Forall2 OV l l' -> OV (PVVec l) (PVVec l')
| OV_clo lo ps body ret dfid : OV (PVClo lo ps body ret dfid) (PVClo lo ps (copt body) ret dfid).

Definition OO (a b : option pval) : Prop :=
  match a, b with Some v, Some v' => OV v v' | None, None => True | _, _ => False end.
Definition OF (F F' : frame) : Prop := forall p, OO (F p) (F' p).
Definition OH (H H' : heap) : Prop := Forall2 OF H H'.

Section PvalInd.
  Variable P : pval -> Prop.
  Hypothesis HNil : P PVNil.
  Hypothesis HBool : forall b, P (PVBool b).
  Hypothesis HInt : forall z, P (PVInt z).
  Hypothesis HVec : forall l, Forall P l -> P (PVVec l).
  Hypothesis HClo : forall lo ps body ret dfid, P (PVClo lo ps body ret dfid).
  Fixpoint pval_ind' (v : pval) : P v :=
    match v with
    | PVNil => HNil | PVBool b => HBool b | PVInt z => HInt z
    | PVVec l => HVec l ((fix go (l : list pval) : Forall P l :=
                            match l with [] => Forall_nil P | a :: r => Forall_cons a (pval_ind' a) (go r) end) l)
    | PVClo lo ps body ret dfid => HClo lo ps body ret dfid
    end.
End PvalInd.

Lemma OV_obs : forall v v', OV v v' -> pobs_of v' = pobs_of v.
Proof.
  induction v as [| b | z | l IHl | lo ps body ret dfid] using pval_ind'; intros v' X; inversion X; subst; try reflexivity.
  simpl. f_equal. eapply Forall2_Forall_map; eassumption.
Qed.

Lemma OV_falsey v v' : OV v v' -> pfalsey v' = pfalsey v.
Proof. intro X. inversion X; reflexivity. Qed.

Fixpoint OV_const (k : const) : OV (pv_of_const k) (pv_of_const k) :=
  match k with
  | Verif.C01.FLisp.KNil => OV_nil
  | Verif.C01.FLisp.KBool b => OV_bool b
  | Verif.C01.FLisp.KInt z => OV_int z
  | Verif.C01.FLisp.KVec l =>
      OV_vec _ _ ((fix go (l : list const) : Forall2 OV (map pv_of_const l) (map pv_of_const l) :=
                     match l with [] => Forall2_nil _ | x :: r => Forall2_cons _ _ (OV_const x) (go r) end) l)
  end.

Lemma papply_ov f vs vs' v t :
  Forall2 OV vs vs' -> papply f vs = Some (v, t) -> exists v', papply f vs' = Some (v', t) /\ OV v v'.
Proof.
  intros F2 A. destruct f; simpl in A.
  - destruct F2 as [|? v1' ? ? V1 [|]]; try discriminate. inversion A; subst.
    exists v1'. simpl. rewrite (OV_obs _ _ V1). auto.
  - inversion A; subst. exists (PVVec vs'). split; [reflexivity|constructor; exact F2].
  - destruct F2 as [|? ? ? ? [| | |l l' Fl|] [|? v2' ? ? V2 [|]]]; try discriminate. inversion A; subst.
    exists (PVVec (l' ++ [v2'])). split; [reflexivity|constructor; apply Forall2_app; auto].
  - destruct F2 as [|? ? ? ? [| |z| |] [|]]; try discriminate. inversion A; subst.
    eexists. split; [reflexivity|constructor].
  - destruct F2 as [|? ? ? ? [| |a| |] [|? ? ? ? [| |b| |] [|]]]; try discriminate. inversion A; subst.
    eexists. split; [reflexivity|constructor].
  - discriminate.
Qed.

Lemma OF_set F F' p v v' : OF F F' -> OV v v' -> OF (set F p v) (set F' p v').
Proof. intros A V q. unfold set. destruct (pname_eqb q p); [exact V|apply A]. Qed.

Lemma OF_restrict lo F F' : OF F F' -> OF (restrict lo F) (restrict lo F').
Proof. intros A q. unfold restrict. destruct (N.ltb (idx q) lo); [apply A|exact I]. Qed.

Lemma OH_nth H H' g F : OH H H' -> nth_error H g = Some F -> exists F', nth_error H' g = Some F' /\ OF F F'.
Proof.
  intros X. revert g. induction X as [|F0 F0' r r' A X IH]; intros [|g] E; simpl in *; try discriminate.
  - inversion E; subst. eauto.
  - apply IH. exact E.
Qed.

Lemma OH_get H H' fid p v : OH H H' -> frame_get H fid p = Some v -> exists v', frame_get H' fid p = Some v' /\ OV v v'.
Proof.
  unfold frame_get. intros X E. destruct (nth_error H fid) as [F|] eqn:EF; [|discriminate].
  destruct (OH_nth _ _ _ _ X EF) as (F' & EF' & A). rewrite EF'.
  specialize (A p). rewrite E in A. destruct (F' p) as [v'|]; [|destruct A]. eauto.
Qed.

Lemma OH_set H H' fid p v v' : OH H H' -> OV v v' -> OH (set_frame H fid p v) (set_frame H' fid p v').
Proof.
  intros X V. revert fid. induction X as [|F F' r r' A X IH]; intros [|k]; simpl.
  - constructor.
  - constructor.
  - constructor; [apply OF_set; assumption|exact X].
  - constructor; [exact A|apply IH].
Qed.

Lemma OH_length H H' : OH H H' -> length H' = length H.
Proof. intro X. induction X; simpl; congruence. Qed.

Lemma OH_snoc H H' F F' : OH H H' -> OF F F' -> OH (H ++ [F]) (H' ++ [F']).
Proof. intros X A. apply Forall2_app; [exact X|constructor; [exact A|constructor]]. Qed.

Lemma bind_ov : forall ps vs vs' F F' Fc,
  Forall2 OV vs vs' -> OF F F' -> bind_pparams ps vs F = Some Fc ->
  exists Fc', bind_pparams ps vs' F' = Some Fc' /\ OF Fc Fc'.
Proof.
  induction ps as [|p ps IH]; intros vs vs' F F' Fc F2 A B.
  - destruct vs; [|discriminate]. inversion F2; subst. simpl in *. inversion B; subst. eauto.
  - destruct vs as [|v vs]; [discriminate|]. inversion F2 as [|? v' ? vs'' V F2']; subst. simpl in *.
    eapply IH; [exact F2'|apply OF_set; eauto|exact B].
Qed.

Lemma cexec_copt1_if m fid H t fb tb v H1 tr : frame_get H fid t = Some v ->
  cexec m fid H (if pfalsey v then copt fb else copt tb) = Some (H1, tr) ->
  cexec (S m) fid H (copt1 (SIf t fb tb)) = Some (H1, tr).
Proof.
  intros E X. cbn [copt1]. fold (copt fb) (copt tb).
  destruct (copt fb), (copt tb); try (apply cexec_single; rewrite cexec1_S_if, E; exact X).
  destruct (pfalsey v); exact X.
Qed.

Definition sim_e (m : nat) : Prop :=
  forall fid H e v H1 t H', peval m fid H e = Some (v, H1, t) -> OH H H' ->
    exists v' H1', peval m fid H' e = Some (v', H1', t) /\ OV v v' /\ OH H1 H1'.
Definition sim_s (m : nat) : Prop :=
  forall fid H s H1 t H', cexec1 m fid H s = Some (H1, t) -> OH H H' ->
    exists H1', cexec m fid H' (copt1 s) = Some (H1', t) /\ OH H1 H1'.
Definition sim_l (m : nat) : Prop :=
  forall fid l H H1 t H', cexec m fid H l = Some (H1, t) -> OH H H' ->
    exists H1', cexec m fid H' (copt l) = Some (H1', t) /\ OH H1 H1'.
Definition sim_es (m : nat) : Prop :=
  forall fid l H vs H1 t H', pevall m fid H l = Some (vs, H1, t) -> OH H H' ->
    exists vs' H1', pevall m fid H' l = Some (vs', H1', t) /\ Forall2 OV vs vs' /\ OH H1 H1'.

Lemma sim_l_of m : sim_s m -> sim_l m.
Proof.
  intros SS fid l. induction l as [|s l IHl]; intros H H1 t H' X O.
  - rewrite cexec_nil in X. inversion X; subst. exists H'. split; [reflexivity|exact O].
  - rewrite cexec_cons in X.
    destruct (cexec1 m fid H s) as [[Ha ta]|] eqn:E1; [|discriminate].
    destruct (cexec m fid Ha l) as [[Hb tb]|] eqn:E2; [|discriminate]. inversion X; subst.
    destruct (SS _ _ _ _ _ _ E1 O) as (Ha' & Xa & Oa).
    destruct (IHl _ _ _ _ E2 Oa) as (Hb' & Xb & Ob).
    exists Hb'. split; [|exact Ob]. rewrite copt_cons, cexec_app, Xa, Xb. reflexivity.
Qed.

Lemma sim_es_of m : sim_e m -> sim_es m.
Proof.
  intros SE fid l. induction l as [|a l IHl]; intros H vs H1 t H' X O.
  - rewrite pevall_nil in X. inversion X; subst. exists [], H'. split; [reflexivity|]. split; [constructor|exact O].
  - rewrite pevall_cons in X.
    destruct (peval m fid H a) as [[[va Ha] ta]|] eqn:E1; [|discriminate].
    destruct (pevall m fid Ha l) as [[[vr Hb] tb]|] eqn:E2; [|discriminate]. inversion X; subst.
    destruct (SE _ _ _ _ _ _ _ E1 O) as (va' & Ha' & Xa & Va & Oa).
    destruct (IHl _ _ _ _ _ E2 Oa) as (vr' & Hb' & Xb & Vr & Ob).
    exists (va' :: vr'), Hb'. split; [rewrite pevall_cons, Xa, Xb; reflexivity|]. split; [constructor; assumption|exact Ob].
Qed.

Theorem copt_sim : forall m, sim_e m /\ sim_s m.
Proof.
  induction m as [|m [IHe IHs]]; [split; intros ? ? ? ? ? ? ? X; discriminate|].
  pose proof (sim_l_of m IHs) as IHl. pose proof (sim_es_of m IHe) as IHes.
  split.
  - intros fid H e v H1 t H' X O. destruct e as [k|p|f args|ef eargs].
    + rewrite peval_S_const in X |- *. inversion X; subst. exists (pv_of_const k), H'. auto using OV_const.
    + rewrite peval_S_name in X |- *. destruct (frame_get H fid p) as [v0|] eqn:E; [|discriminate]. inversion X; subst.
      destruct (OH_get _ _ _ _ _ O E) as (v' & E' & V). rewrite E'. eauto.
    + rewrite peval_S_call in X |- *.
      destruct (pevall m fid H args) as [[[vs Ha] ta]|] eqn:E1; [|discriminate].
      destruct (papply f vs) as [[v0 tp]|] eqn:Ep; [|discriminate]. inversion X; subst.
      destruct (IHes _ _ _ _ _ _ _ E1 O) as (vs' & Ha' & Xa & Vs & Oa).
      destruct (papply_ov _ _ _ _ _ Vs Ep) as (v' & Ep' & V).
      rewrite Xa, Ep'. eauto.
    + destruct (peval_invoke_inv _ _ _ _ _ _ _ _ X) as (lo & ps & body & ret & dfid & vs & Ha & ta & Fd & Fc & Hb & tb & tc & E1 & Ed & Eb & E2 & E3 & ->).
      rewrite peval_S_invoke.
      destruct (IHes _ _ _ _ _ _ _ E1 O) as (vs' & Ha' & Xa & Vs & Oa).
      inversion Vs as [|? vf' ? vs'' Vf Vs']; subst. inversion Vf; subst.
      destruct (OH_nth _ _ _ _ Oa Ed) as (Fd' & Ed' & Ad).
      destruct (bind_ov _ _ _ _ _ _ Vs' (OF_restrict lo _ _ Ad) Eb) as (Fc' & Eb' & Ac).
      destruct (IHl _ _ _ _ _ _ E2 (OH_snoc _ _ _ _ Oa Ac)) as (Hb' & Xb & Ob).
      destruct (IHe _ _ _ _ _ _ _ E3 Ob) as (v' & Hc' & Xc & V & Oc).
      rewrite Xa, Ed', Eb', (OH_length _ _ Oa), Xb, Xc. eauto.
  - intros fid H s H1 t H' X O. destruct s as [p e|e|tst fb tb|name lo ps body ret]; cbn [copt1].
    + rewrite cexec1_S_assign in X.
      destruct (peval m fid H e) as [[[v Ha] ta]|] eqn:E1; [|discriminate]. inversion X; subst.
      destruct (IHe _ _ _ _ _ _ _ E1 O) as (v' & Ha' & Xa & V & Oa).
      exists (set_frame Ha' fid p v'). split; [apply cexec_single; rewrite cexec1_S_assign, Xa; reflexivity|].
      apply OH_set; assumption.
    + rewrite cexec1_S_expr in X.
      destruct (peval m fid H e) as [[[v Ha] ta]|] eqn:E1; [|discriminate]. inversion X; subst.
      destruct (atomic e) eqn:At.
      * destruct (atomic_eval _ _ _ _ _ _ _ At E1) as [-> ->]. exists H'. split; [reflexivity|exact O].
      * destruct (IHe _ _ _ _ _ _ _ E1 O) as (v' & Ha' & Xa & V & Oa).
        exists Ha'. split; [apply cexec_single; rewrite cexec1_S_expr, Xa; reflexivity|exact Oa].
    + rewrite cexec1_S_if in X. destruct (frame_get H fid tst) as [v|] eqn:Et; [|discriminate].
      destruct (OH_get _ _ _ _ _ O Et) as (v' & Et' & V).
      destruct (IHl _ _ _ _ _ _ X O) as (H1' & Xb & Ob).
      exists H1'. split; [|exact Ob]. apply (cexec_copt1_if _ _ _ _ _ _ _ _ _ Et').
      rewrite (OV_falsey _ _ V). destruct (pfalsey v); exact Xb.
    + rewrite cexec1_S_def in X. inversion X; subst. fold (copt body).
      exists (set_frame H' fid name (PVClo lo ps (copt body) ret fid)).
      split; [apply cexec_single; rewrite cexec1_S_def; reflexivity|].
      apply OH_set; [exact O|constructor].
Qed.

Theorem copt_stmts_preserve m fid l H H1 t H' :
  cexec m fid H l = Some (H1, t) -> OH H H' -> exists H1', cexec m fid H' (copt l) = Some (H1', t) /\ OH H1 H1'.
Proof. apply (sim_l_of m (proj2 (copt_sim m))). Qed.

Definition crun_opt (fuel : nat) (e : cexpr) : option (obs * trace) :=
  let '(d, pe, _, _) := cgen (fun _ => None) 0 e in
  match cexec fuel 0%nat [fun _ => None] (copt d) with
  | Some (H1, t1) =>
      match peval fuel 0%nat H1 pe with Some (v, _, t2) => Some (pobs_of v, t1 ++ t2) | None => None end
  | None => None
  end.

Lemma crun_opt_of fuel e r : crun fuel e = Some r -> crun_opt fuel e = Some r.
Proof.
  unfold crun, crun_opt. destruct (cgen (fun _ => None) 0 e) as [[[d pe] n'] k].
  destruct (cexec fuel 0%nat [fun _ => None] d) as [[H1 t1]|] eqn:E; [|discriminate].
  assert (O0 : OH [fun _ => None] [fun _ => None]) by (constructor; [intro p; exact I|constructor]).
  destruct (copt_stmts_preserve _ _ _ _ _ _ _ E O0) as (H1' & X & O1). rewrite X.
  destruct (peval fuel 0%nat H1 pe) as [[[v H2] t2]|] eqn:P; [|discriminate].
  destruct (proj1 (copt_sim fuel) _ _ _ _ _ _ _ P O1) as (v' & H2' & P' & V & _). rewrite P', (OV_obs _ _ V). auto.
Qed.

Theorem optimized_closures_compile_correct fuel e v tr :
  ceval fuel [] e = Some (v, tr) -> hazard_free e = true ->
  exists m, forall m', (m <= m')%nat -> crun_opt m' e = Some (obs_of v, tr).
Proof.
  intros He Hh. destruct (ccompile_correct fuel e v tr He Hh) as [m Hm].
  exists m. intros m' L. apply crun_opt_of. apply Hm. exact L.
Qed.

(** the rule fires inside a function body: (fn* [x] (do 1 x)) *)
Example copt_nonvacuous :
  let '(d, _, _, _) := cgen (fun _ => None) 0%N (CFn None [0%N] (CDo (CConst (KInt 1)) (CLocal 0%N))) in copt d <> d.
Proof. vm_compute. discriminate. Qed.
