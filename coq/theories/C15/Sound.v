(** Soundness of the C15 checker: every pair it accepts is related by [allowed]. *)
From Coq Require Import List NArith Bool Lia.
Import ListNotations.
From Verif Require Import C15.Tree C15.Allowed.
Local Open Scope N_scope.

(** [chk] and [drop1] recurse into grandchildren (an `if`'s branch statements, a call's
    arguments), out of reach of [tree_ind']: the proofs go by induction on size. *)
Fixpoint size (t : tree) : nat :=
  match t with
  | At _ => 1%nat
  | Nd _ ks => S ((fix go (l : list tree) : nat := match l with [] => 0%nat | x :: r => (size x + go r)%nat end) ks)
  end.

Fixpoint sizes (l : list tree) : nat :=
  match l with [] => 0%nat | x :: r => (size x + sizes r)%nat end.

Lemma size_nd tg ks : size (Nd tg ks) = S (sizes ks).
Proof. reflexivity. Qed.

Lemma size_in x l : In x l -> (size x <= sizes l)%nat.
Proof.
  induction l as [|y r IH]; simpl; [tauto|]. intros [->|H]; [lia|]. specialize (IH H). lia.
Qed.

Lemma size_pos t : (1 <= size t)%nat.
Proof. destruct t; simpl; lia. Qed.

(** splits boolean conjunctions in the context and turns [N.eqb] tests into equations *)
Ltac beq :=
  repeat match goal with
         | H : (_ && _) = true |- _ => apply andb_true_iff in H as [? ?]
         | H : N.eqb _ _ = true |- _ => apply N.eqb_eq in H; subst
         end.

Lemma list_eq_eq a : forall b, list_eq a b = true -> a = b.
Proof.
  induction a as [|x r IH]; intros [|y r']; simpl; try discriminate; auto.
  intro H. apply andb_true_iff in H as [H1 H2]. apply N.eqb_eq in H1. f_equal; auto.
Qed.

Lemma atoms_map names : forallb is_at names = true -> names = map At (atoms_of names).
Proof.
  induction names as [|x r IH]; simpl; auto.
  intro H. apply andb_true_iff in H as [H1 H2]. destruct x as [tg ks|h]; [discriminate|].
  simpl. f_equal. apply IH; auto.
Qed.

Lemma is_global_list_spec ks names :
  is_global_list ks = Some names -> ks = [Nd T_LIST (map At names)].
Proof.
  unfold is_global_list. destruct ks as [|[tl nm|h] [|? ?]]; try discriminate.
  destruct (N.eqb tl T_LIST && forallb is_at nm) eqn:E; [|discriminate].
  apply andb_true_iff in E as [E1 E2]. apply N.eqb_eq in E1. subst.
  intro H. inversion H; subst. rewrite <- (atoms_map nm E2). reflexivity.
Qed.

Lemma drop_sound : forall n,
  (forall x, (size x <= n)%nat -> forall d d', drop1 x d = Some d' ->
     d' = d /\ forall r r' d2, alsl d r r' d2 -> alsl d (x :: r) r' d2) /\
  (forall l, (sizes l <= n)%nat -> forall d d', drop_list l d = Some d' -> d' = d /\ alsl d l [] d).
Proof.
  induction n as [|n [IH1 IH2]].
  - split.
    + intros x Hx. pose proof (size_pos x). lia.
    + intros [|x r] Hl d d' H; simpl in *.
      * inversion H; subst. split; [reflexivity|constructor].
      * pose proof (size_pos x). lia.
  - assert (D1 : forall x, (size x <= S n)%nat -> forall d d', drop1 x d = Some d' ->
             d' = d /\ forall r r' d2, alsl d r r' d2 -> alsl d (x :: r) r' d2).
    { intros x Hx d d' H. destruct x as [tg ks|h]; [|discriminate].
      rewrite size_nd in Hx.
      cbn [drop1] in H.
      destruct (is_bare (Nd tg ks)) eqn:B.
      { inversion H; subst. split; [reflexivity|]. intros. apply sl_drop_bare; auto. }
      destruct (N.eqb tg T_Global) eqn:G.
      { apply N.eqb_eq in G. subst tg.
        destruct ks as [|[tl names|?] [|? ?]]; try discriminate.
        destruct (N.eqb tl T_LIST && forallb is_at names && all_in (atoms_of names) d) eqn:E; [|discriminate].
        beq. inversion H; subst. split; [reflexivity|].
        intros r r' d2 A. rewrite (atoms_map names) by assumption. apply sl_drop_global; auto. }
      destruct (N.eqb tg T_If) eqn:I; [|discriminate].
      apply N.eqb_eq in I. subst tg.
      destruct ks as [|test [|[t1 body|?] [|[t2 orelse|?] [|? ?]]]]; try discriminate.
      destruct (N.eqb t1 T_LIST && N.eqb t2 T_LIST && pure test) eqn:E; [|discriminate].
      beq.
      cbn [sizes] in Hx. rewrite !size_nd in Hx.
      destruct (drop_list_with drop1 body d) as [d1|] eqn:Db; [|discriminate]. simpl in H.
      destruct (IH2 body ltac:(lia) d d1 Db) as [-> Ab].
      destruct (IH2 orelse ltac:(lia) d d' H) as [-> Ao].
      split; [reflexivity|]. intros r r' d2 A. eapply sl_drop_if; eauto. }
    split; [exact D1|].
    intros l. induction l as [|x r IHl]; intros Hl d d' H.
    + inversion H; subst. split; [reflexivity|constructor].
    + simpl in Hl. unfold drop_list in H. cbn [drop_list_with] in H.
      destruct (drop1 x d) as [d1|] eqn:Dx; [|discriminate]. simpl in H.
      destruct (D1 x ltac:(lia) d d1 Dx) as [-> Ax].
      destruct (IHl ltac:(lia) d d' H) as [-> Ar].
      split; [reflexivity|]. apply Ax. exact Ar.
Qed.

Lemma drop1_sound x d d' : drop1 x d = Some d' ->
  d' = d /\ forall r r' d2, alsl d r r' d2 -> alsl d (x :: r) r' d2.
Proof. apply (proj1 (drop_sound (size x)) x (le_n _)). Qed.

Lemma drop_list_sound l d d' : drop_list l d = Some d' -> d' = d /\ alsl d l [] d.
Proof. apply (proj2 (drop_sound (sizes l)) l (le_n _)). Qed.

Definition chk_sound_at (b : tree) : Prop := forall a d d', chk b a d = Some d' -> al d b a d'.

Lemma chks_sound l : (forall x, In x l -> chk_sound_at x) ->
  forall l' d d', chks_with chk l l' d = Some d' -> als d l l' d'.
Proof.
  induction l as [|x r IH]; intros HP [|x' r'] d d' H; simpl in H; try discriminate.
  - inversion H; subst. constructor.
  - destruct (chk x x' d) as [d1|] eqn:E; [|discriminate]. simpl in H.
    econstructor; [apply HP; [left; reflexivity|exact E]|].
    apply IH; auto. intros y Hy. apply HP. right; auto.
Qed.

Lemma chksl_sound l : (forall x, In x l -> chk_sound_at x) ->
  forall l' d d', chksl_with chk l l' d = Some d' -> alsl d l l' d'.
Proof.
  induction l as [|x r IH]; intros HP l' d d' H.
  - simpl in H. destruct l'; [|discriminate]. inversion H; subst. constructor.
  - assert (HPr : forall y, In y r -> chk_sound_at y) by (intros y Hy; apply HP; right; auto).
    assert (Dropped : forall l2, obind (drop1 x d) (chksl_with chk r l2) = Some d' -> alsl d (x :: r) l2 d').
    { intros l2 Hd. destruct (drop1 x d) as [d1|] eqn:Dx; [|discriminate]. simpl in Hd.
      destruct (drop1_sound x d d1 Dx) as [-> Ax]. apply Ax. apply IH; auto. }
    cbn [chksl_with] in H. fold (chksl_with chk) in H.
    destruct l' as [|x' r'].
    + apply Dropped. exact H.
    + destruct (chk x x' d) as [d1|] eqn:E.
      * destruct (chksl_with chk r r' d1) as [d2|] eqn:E2.
        -- inversion H; subst. econstructor; [apply HP; [left; reflexivity|exact E]|]. apply IH; auto.
        -- destruct (is_term_ref x) eqn:T.
           ++ destruct r' as [|? ?].
              ** inversion H; subst. apply sl_dead; auto. apply HP; [left; reflexivity|exact E].
              ** apply Dropped. exact H.
           ++ apply Dropped. exact H.
      * apply Dropped. exact H.
Qed.

Lemma chk1_sound x x' d d' : chk_sound_at x -> chk1 chk x x' d = Some d' -> d' = d /\ al d x x' d.
Proof.
  intros HP H. unfold chk1 in H. destruct (chk x x' d) as [d1|] eqn:E; [|discriminate]. simpl in H.
  destruct (list_eq d1 d) eqn:L; [|discriminate]. apply list_eq_eq in L. subst.
  inversion H; subst. split; [reflexivity|]. apply HP. exact E.
Qed.

Lemma chk2_sound x x' y y' d d' : chk_sound_at x -> chk_sound_at y -> chk2 chk x x' y y' d = Some d' ->
  d' = d /\ al d x x' d /\ al d y y' d.
Proof.
  intros Hx Hy H. unfold chk2 in H. destruct (chk1 chk x x' d) as [d1|] eqn:E; [|discriminate]. simpl in H.
  destruct (chk1_sound x x' d d1 Hx E) as [-> Ax].
  destruct (chk1_sound y y' d d' Hy H) as [-> Ay]. auto.
Qed.

Lemma nonempty_ne {A} (l : list A) : nonempty l = true -> l <> [].
Proof. destruct l; [discriminate|]. intros _ E; discriminate. Qed.

Lemma ref_is_spec tbl f op : ref_is tbl f op = true -> assoc tbl f = Some op.
Proof. unfold ref_is. destruct (assoc tbl f) as [op0|]; [|discriminate]. intro E. apply N.eqb_eq in E. congruence. Qed.

Section Tries.
  Variables (d : list N) (func : tree) (f : N) (args ks' : list tree) (tg' : N) (d' : list N).
  Hypothesis OA : operator_attr func = Some f.
  Hypothesis HA : forall x, In x args -> chk_sound_at x.
  Let goal := al d (Nd T_Call [func; Nd T_LIST args; no_kw]) (Nd tg' ks') d'.

  Lemma try_binop_sound : try_binop chk f args ks' tg' d = Some d' -> goal.
  Proof.
    unfold try_binop, goal.
    destruct args as [|x [|y [|? ?]]]; try discriminate.
    destruct ks' as [|x' [|[op [|? ?]|?] [|y' [|? ?]]]]; try discriminate.
    destruct (N.eqb tg' T_BinOp && ref_is ref_binops f op) eqn:E; [|discriminate].
    apply andb_true_iff in E as [E1 E2]. apply N.eqb_eq in E1. subst. apply ref_is_spec in E2.
    intro H. destruct (chk2_sound x x' y y' d d' (HA x (or_introl eq_refl)) (HA y (or_intror (or_introl eq_refl))) H)
      as (-> & Ax & Ay).
    eapply al_binop; eauto.
  Qed.

  Lemma try_unary_sound : try_unary chk f args ks' tg' d = Some d' -> goal.
  Proof.
    unfold try_unary, goal.
    destruct args as [|x [|? ?]]; try discriminate.
    destruct ks' as [|[op [|? ?]|?] [|x' [|? ?]]]; try discriminate.
    destruct (N.eqb tg' T_UnaryOp && ref_is ref_unaryops f op) eqn:E; [|discriminate].
    apply andb_true_iff in E as [E1 E2]. apply N.eqb_eq in E1. subst. apply ref_is_spec in E2.
    intro H. destruct (chk1_sound x x' d d' (HA x (or_introl eq_refl)) H) as [-> Ax].
    eapply al_unary; eauto.
  Qed.

  Lemma try_compare_sound : try_compare chk f args ks' tg' d = Some d' -> goal.
  Proof.
    unfold try_compare, goal.
    destruct args as [|x [|y [|? ?]]]; try discriminate.
    destruct ks' as [|l' [|[tl1 [|[op [|? ?]|?] [|? ?]]|?] [|[tl2 [|r' [|? ?]]|?] [|? ?]]]]; try discriminate.
    destruct (N.eqb tg' T_Compare && N.eqb tl1 T_LIST && N.eqb tl2 T_LIST) eqn:E; [|discriminate].
    beq.
    assert (Px : chk_sound_at x) by (apply HA; left; reflexivity).
    assert (Py : chk_sound_at y) by (apply HA; right; left; reflexivity).
    destruct (ref_is ref_compareops f op || ref_is ref_isops f op) eqn:EO.
    - intro H. destruct (chk2_sound x l' y r' d d' Px Py H) as (-> & Ax & Ay).
      eapply al_compare; eauto.
      apply orb_true_iff in EO as [EO|EO]; apply ref_is_spec in EO; auto.
    - destruct (N.eqb f H_contains && N.eqb op T_In && pure x && pure y) eqn:EC; [|discriminate].
      beq.
      intro H. destruct (chk2_sound x r' y l' d d' Px Py H) as (-> & Ax & Ay).
      eapply al_contains; eauto.
  Qed.

  Lemma try_getitem_sound : try_getitem chk f args ks' tg' d = Some d' -> goal.
  Proof.
    unfold try_getitem, goal.
    destruct args as [|x [|y [|? ?]]]; try discriminate.
    destruct ks' as [|x' [|y' [|[tld [|? ?]|?] [|? ?]]]]; try discriminate.
    destruct (N.eqb tg' T_Subscript && N.eqb f H_getitem && N.eqb tld T_Load) eqn:E; [|discriminate].
    beq.
    intro H. destruct (chk2_sound x x' y y' d d' (HA x (or_introl eq_refl)) (HA y (or_intror (or_introl eq_refl))) H)
      as (-> & Ax & Ay).
    eapply al_getitem; eauto.
  Qed.

  Lemma try_delitem_sound : try_delitem chk f args ks' tg' d = Some d' -> goal.
  Proof.
    unfold try_delitem, goal.
    destruct args as [|x [|y [|? ?]]]; try discriminate.
    destruct ks' as [|[tl1 [|[ts [|x' [|y' [|[tdel [|? ?]|?] [|? ?]]]]|?] [|? ?]]|?] [|? ?]]; try discriminate.
    destruct (N.eqb tg' T_Delete && N.eqb tl1 T_LIST && N.eqb ts T_Subscript && N.eqb f H_delitem && N.eqb tdel T_Del) eqn:E;
      [|discriminate].
    beq.
    intro H. destruct (chk2_sound x x' y y' d d' (HA x (or_introl eq_refl)) (HA y (or_intror (or_introl eq_refl))) H)
      as (-> & Ax & Ay).
    eapply al_delitem; eauto.
  Qed.
End Tries.

Theorem chk_sound_n : forall n b, (size b <= n)%nat -> chk_sound_at b.
Proof.
  induction n as [|n IH]; intros b Hb; [pose proof (size_pos b); lia|].
  intros a d d' H.
  destruct b as [tg ks|h].
  2:{ destruct a as [?|h']; [discriminate|]. simpl in H.
      destruct (N.eqb h h') eqn:E; [|discriminate]. apply N.eqb_eq in E. inversion H; subst. constructor. }
  rewrite size_nd in Hb.
  assert (HK : forall x, In x ks -> chk_sound_at x).
  { intros x Hx. apply IH. pose proof (size_in x ks Hx). lia. }
  destruct a as [tg' ks'|?]; [|discriminate].
  cbn [chk] in H.
  destruct (N.eqb tg T_LIST) eqn:EL.
  { apply N.eqb_eq in EL. subst. destruct (N.eqb tg' T_LIST) eqn:EL'; [|discriminate].
    apply N.eqb_eq in EL'. subst. apply al_list. apply chksl_sound; auto. }
  destruct (N.eqb tg T_Global) eqn:EG.
  { apply N.eqb_eq in EG. subst. destruct (N.eqb tg' T_Global) eqn:EG'; [|discriminate].
    apply N.eqb_eq in EG'. subst.
    destruct (is_global_list ks) as [names|] eqn:G1; [|discriminate].
    destruct (is_global_list ks') as [names'|] eqn:G2; [|discriminate].
    destruct (nonempty names' && all_in names' names && forallb (fun n0 => mem n0 names' || mem n0 d) names) eqn:C;
      [|discriminate].
    apply andb_true_iff in C as [C C3]. apply andb_true_iff in C as [C1 C2].
    inversion H; subst.
    rewrite (is_global_list_spec _ _ G1), (is_global_list_spec _ _ G2).
    apply al_global; auto using nonempty_ne. }
  destruct (N.eqb tg T_Call && negb (N.eqb tg' T_Call)) eqn:EC.
  { apply andb_true_iff in EC as [EC _]. apply N.eqb_eq in EC. subst tg.
    destruct ks as [|func [|[tl args|?] [|kw [|? ?]]]]; try discriminate.
    destruct (negb (N.eqb tl T_LIST && tree_eqb kw no_kw)) eqn:EK; [discriminate|].
    apply negb_false_iff in EK. apply andb_true_iff in EK as [EK1 EK2].
    apply N.eqb_eq in EK1. apply tree_eqb_eq in EK2. subst tl kw.
    destruct (operator_attr func) as [f|] eqn:OA; [|discriminate].
    cbn [sizes] in Hb. rewrite !size_nd in Hb.
    assert (HA : forall x, In x args -> chk_sound_at x).
    { intros x Hx. apply IH. pose proof (size_in x args Hx). lia. }
    unfold orelse in H.
    destruct (try_binop chk f args ks' tg' d) eqn:T1.
    { inversion H; subst. eapply try_binop_sound; eauto. }
    destruct (try_unary chk f args ks' tg' d) eqn:T2.
    { inversion H; subst. eapply try_unary_sound; eauto. }
    destruct (try_compare chk f args ks' tg' d) eqn:T3.
    { inversion H; subst. eapply try_compare_sound; eauto. }
    destruct (try_getitem chk f args ks' tg' d) eqn:T4.
    { inversion H; subst. eapply try_getitem_sound; eauto. }
    eapply try_delitem_sound; eauto.
  }
  destruct (negb (N.eqb tg tg')) eqn:ET; [discriminate|].
  apply negb_false_iff in ET. apply N.eqb_eq in ET. subst tg'.
  destruct (N.eqb tg T_FunctionDef) eqn:EF.
  { apply N.eqb_eq in EF. subst.
    assert (Generic : obind (chks_with chk ks ks' []) (fun _ => Some d) = Some d' -> al d (Nd T_FunctionDef ks) (Nd T_FunctionDef ks') d').
    { intro Hg. destruct (chks_with chk ks ks' []) as [d1|] eqn:E; [|discriminate]. inversion Hg; subst.
      eapply al_scope; [reflexivity|]. apply chks_sound; eauto. }
    destruct ks as [|nm [|args [|body [|decos [|rets [|tc [|tp [|? ?]]]]]]]]; try (apply Generic; exact H).
    destruct ks' as [|nm' [|args' [|body' [|decos' [|rets' [|tc' [|tp' [|? ?]]]]]]]]; try (apply Generic; exact H).
    destruct (tree_eqb tc' (Nd T_NONE []) && tree_eqb tp' (Nd T_LIST [])) eqn:E; [|apply Generic; exact H].
    apply andb_true_iff in E as [E1 E2]. apply tree_eqb_eq in E1, E2. subst.
    destruct (chks_with chk [nm; args; body; decos; rets] [nm'; args'; body'; decos'; rets'] []) as [d1|] eqn:E;
      [|discriminate].
    inversion H; subst. eapply al_fundef. apply chks_sound; [|exact E].
    intros x Hx. apply HK. destruct Hx as [<-|[<-|[<-|[<-|[<-|[]]]]]]; simpl; auto 6. }
  destruct (scope_tag tg) eqn:ES.
  { destruct (chks_with chk ks ks' []) as [d1|] eqn:E; [|discriminate]. inversion H; subst.
    eapply al_scope; [exact ES|]. apply chks_sound; eauto. }
  destruct (chks_with chk ks ks' d) as [d1|] eqn:E.
  { inversion H; subst. apply al_node; [|apply chks_sound; auto].
    unfold plain_tag. rewrite ES, EL, EG. reflexivity. }
  (* not needed below; they would be carried through every case split *)
  clear E ES EL EG.
  destruct (N.eqb tg T_If) eqn:EI.
  { apply N.eqb_eq in EI. subst.
    destruct ks as [|test [|[t1 body|?] [|[t2 orelse|?] [|? ?]]]]; try discriminate.
    destruct ks' as [|[tu [|[tn [|? ?]|?] [|test' [|? ?]]]|?] [|[t3 orelse'|?] [|[t4 [|? ?]|?] [|? ?]]]]; try discriminate.
    destruct (N.eqb t1 T_LIST && N.eqb t2 T_LIST && N.eqb t3 T_LIST && N.eqb t4 T_LIST && N.eqb tu T_UnaryOp
              && N.eqb tn T_Not && nonempty orelse') eqn:C; [|discriminate].
    apply andb_true_iff in C as [C C7]. beq.
    destruct (chk test test' d) as [d0|] eqn:Et; [|discriminate]. simpl in H.
    destruct (drop_list body d0) as [d1'|] eqn:Db; [|discriminate]. simpl in H.
    destruct (drop_list_sound body d0 d1' Db) as [-> Ab].
    cbn [sizes] in Hb. rewrite !size_nd in Hb.
    eapply al_if_neg.
    - apply HK; [left; reflexivity|exact Et].
    - exact Ab.
    - apply chksl_sound; [|exact H]. intros x Hx. apply IH. pose proof (size_in x orelse Hx). lia.
    - apply nonempty_ne; auto. }
  destruct (N.eqb tg T_Try) eqn:ETr; [|discriminate].
  apply N.eqb_eq in ETr. subst.
  destruct ks as [|body [|[th [|? ?]|?] [|orelse [|[tf fin|?] [|? ?]]]]]; try discriminate.
  destruct ks' as [|body' [|[th' [|? ?]|?] [|orelse' [|[tf' [|[tp [|? ?]|?] [|? ?]]|?] [|? ?]]]]]; try discriminate.
  destruct (N.eqb th T_LIST && N.eqb th' T_LIST && N.eqb tf T_LIST && N.eqb tf' T_LIST && N.eqb tp T_Pass) eqn:C;
    [|discriminate].
  beq.
  destruct (chk body body' d) as [d1|] eqn:E1; [|discriminate]. simpl in H.
  destruct (chk orelse orelse' d1) as [d2|] eqn:E2; [|discriminate]. simpl in H.
  destruct (drop_list_sound fin d2 d' H) as [-> Af].
  eapply al_try_pass.
  - apply HK; [left; reflexivity|exact E1].
  - apply HK; [right; right; left; reflexivity|exact E2].
  - exact Af.
Qed.

Theorem chk_sound b a d d' : chk b a d = Some d' -> al d b a d'.
Proof. apply (chk_sound_n (size b) b (le_n _)). Qed.

Theorem check_sound b a : check b a = true -> allowed b a.
Proof.
  unfold check, allowed. destruct (chk b a []) as [d'|] eqn:E; [|discriminate].
  intros _. exists d'. apply chk_sound. exact E.
Qed.

Theorem accept_sound b a : accept b a = true -> acceptable b a.
Proof.
  unfold accept, acceptable. intro H. apply andb_true_iff in H as [H1 H2].
  split; [apply check_sound; exact H1|].
  intro Wb. rewrite Wb in H2. simpl in H2. rewrite orb_false_r in H2. exact H2.
Qed.
