(** Witnesses that the (model of the) pass performs rewrites outside the allowed set. *)
From Coq Require Import List NArith Bool.
Import ListNotations.
From Verif Require Import C15.Corr.
Local Open Scope N_scope.

Definition op_attr (f : N) : tree := Nd T_Attribute [Nd T_Name [At H_OPERATOR; Nd T_Load []]; At f; Nd T_Load []].
Definition name (h : N) : tree := Nd T_Name [At h; Nd T_Load []].
Definition lit (h : N) : tree := Nd T_Constant [At h; At 0].          (* a non-singleton literal *)
Definition call2 (f : N) (a b : tree) : tree := Nd T_Call [op_attr f; Nd T_LIST [a; b]; Nd T_LIST []].
Definition call1f (g : N) (a : tree) : tree := Nd T_Call [name g; Nd T_LIST [a]; Nd T_LIST []].

(** refutes, by evaluation, the side conditions that inversion on [al] leaves *)
Ltac refute_side_conditions :=
  repeat match goal with
         | X : operator_attr _ = Some _ |- _ => vm_compute in X; inversion X; subst; clear X
         end;
  try match goal with X : _ \/ _ |- _ => destruct X as [X|X]; vm_compute in X; discriminate end;
  try match goal with X : pure _ = true |- _ => vm_compute in X; discriminate end;
  try discriminate.

(** operator.is_(1.0, a)  ~>  1.0 == a *)
Definition w_is := call2 H_is_ (lit 77) (name 5).
Lemma is_to_eq_rewritten : Opt.opt w_is = Nd T_Compare [lit 77; Nd T_LIST [Nd T_Eq []]; Nd T_LIST [name 5]].
Proof. vm_compute. reflexivity. Qed.

Lemma is_to_eq_never_allowed a b a' b' :
  ~ allowed (call2 H_is_ a b) (Nd T_Compare [a'; Nd T_LIST [Nd T_Eq []]; Nd T_LIST [b']]).
Proof. intros [d' H]. unfold call2 in H. inversion H; subst; try discriminate; refute_side_conditions. Qed.

Theorem is_to_eq_not_allowed : ~ allowed w_is (Opt.opt w_is).
Proof. rewrite is_to_eq_rewritten. apply is_to_eq_never_allowed. Qed.

(** operator.contains(f(a), g(b))  ~>  g(b) in f(a) : operands swapped *)
Definition w_contains := call2 H_contains (call1f 8 (name 1)) (call1f 9 (name 2)).
Lemma contains_rewritten :
  Opt.opt w_contains = Nd T_Compare [call1f 9 (name 2); Nd T_LIST [Nd T_In []]; Nd T_LIST [call1f 8 (name 1)]].
Proof. vm_compute. reflexivity. Qed.

Lemma contains_swap_never_allowed a b a' b' : pure a && pure b = false ->
  ~ allowed (call2 H_contains a b) (Nd T_Compare [b'; Nd T_LIST [Nd T_In []]; Nd T_LIST [a']]).
Proof.
  intros Hp [d' H]. unfold call2 in H. inversion H; subst; try discriminate; refute_side_conditions.
  match goal with Xa : pure a = true, Xb : pure b = true |- _ => rewrite Xa, Xb in Hp end. discriminate.
Qed.

Theorem contains_swap_not_allowed : ~ allowed w_contains (Opt.opt w_contains).
Proof. rewrite contains_rewritten. apply contains_swap_never_allowed. reflexivity. Qed.

(** def outer(): global x; ...; async def inner(): global x; ...   -- the inner `global` is dropped *)
Definition glob (h : N) : tree := Nd T_Global [Nd T_LIST [At h]].
Definition fundef (tag : N) (body : list tree) : tree :=
  Nd tag [At 1; At 2; Nd T_LIST body; Nd T_LIST []; Nd T_NONE []; Nd T_NONE []; Nd T_LIST []].
Definition w_async := Nd T_Module [Nd T_LIST [fundef T_FunctionDef [glob 7; fundef T_AsyncFunctionDef [glob 7; At 3]]]; Nd T_LIST []].
Theorem async_global_rejected : check w_async (Opt.opt w_async) = false /\ tag1 w_async = 4.
Proof. split; vm_compute; reflexivity. Qed.

(** if t: [raise; global x; ...] else: [global x; x = ...]  -- the live `global` is dropped *)
Definition w_dead := Nd T_Module [Nd T_LIST [fundef T_FunctionDef
   [Nd T_If [name 4; Nd T_LIST [Nd T_Raise [name 6; Nd T_NONE []]; glob 7; At 11]; Nd T_LIST [glob 7; At 12]]]]; Nd T_LIST []].
Theorem dead_global_rejected : check w_dead (Opt.opt w_dead) = false /\ tag1 w_dead = 8.
Proof. split; vm_compute; reflexivity. Qed.

(** what IS accepted: add(a, b) ~> a + b; dead code; bare constants; an empty if *)
Definition w_ok := Nd T_Module [Nd T_LIST [fundef T_FunctionDef
   [Nd T_Expr [lit 1];
    Nd T_If [name 4; Nd T_LIST [Nd T_Expr [name 5]]; Nd T_LIST [Nd T_Expr [lit 2]]];
    Nd T_Return [call2 36703235253973704 (name 1) (name 2)];
    Nd T_Expr [call1f 9 (name 2)]]]; Nd T_LIST []].
Example accepted_sample : check w_ok (Opt.opt w_ok) = true /\ tree_eqb w_ok (Opt.opt w_ok) = false.
Proof. split; vm_compute; reflexivity. Qed.

(** try: g(x)  finally: <constant>     (no handlers): every statement of the finally clause is
    eliminated.  A result with an empty clause is not a statement Python accepts ([wf]); the pass
    (since the repair of F-15e) leaves `finally: pass`, which is. *)
Definition w_try_with (fin : list tree) : tree :=
  Nd T_Module [Nd T_LIST [Nd T_Try [Nd T_LIST [Nd T_Expr [call1f 9 (name 2)]]; Nd T_LIST []; Nd T_LIST []; Nd T_LIST fin]];
               Nd T_LIST []].
Definition w_try := w_try_with [Nd T_Expr [lit 3]].
Theorem try_without_finally_rejected :
  accept w_try (w_try_with []) = false /\ accept w_try (w_try_with [Nd T_Pass []]) = true /\
  Opt.opt w_try = w_try_with [Nd T_Pass []].
Proof. repeat split; vm_compute; reflexivity. Qed.
