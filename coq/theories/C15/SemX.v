(** Semantic preservation of the statement-level rewrites on the Python subset with loops and
    exceptions (C01X/XPy.v): dropping bare constant/name statements, dropping the statements
    that follow `break` / `continue` / `raise` in a block (in `if` branches, loop bodies, `try`
    bodies, handlers and `finally` clauses), dropping `if`s whose branches are both empty -- the
    optimised code yields the same outcome (normal, break, continue or exception), frame and
    trace for the same fuel.  Composed with the simulation theorem of C01X. *)
From Coq Require Import List ZArith.
Import ListNotations.
From Verif Require Import C01X.XLisp C01X.XPy C01X.XGen C01X.XMono C01X.XSim C01X.XTop.

Definition xdroppable (e : pexpr) : bool := match e with PConst _ | PName _ => true | PCall _ _ => false end.
Definition x_is_jump (s : xstmt) : bool := match s with XBreak | XContinue | XRaise _ => true | _ => false end.

Definition xopt_with (o1 : xstmt -> list xstmt) : list xstmt -> list xstmt :=
  fix go (l : list xstmt) : list xstmt :=
    match l with
    | [] => []
    | s :: r => if x_is_jump s then [s] else o1 s ++ go r      (* _filter_dead_code *)
    end.

Fixpoint xopt1 (s : xstmt) : list xstmt :=
  match s with
  | XExpr e => if xdroppable e then [] else [s]
  | XSIf t fb tb =>
      match xopt_with xopt1 fb, xopt_with xopt1 tb with
      | [], [] => []
      | fb', tb' => [XSIf t fb' tb']
      end
  | XWhile body => [XWhile (xopt_with xopt1 body)]
  | XSTry body h fin =>
      (* an emptied `finally` clause stands for `finally: pass` *)
      [XSTry (xopt_with xopt1 body)
             (match h with Some (c, x, hb) => Some (c, x, xopt_with xopt1 hb) | None => None end)
             (xopt_with xopt1 fin)]
  | _ => [s]
  end.
Definition xopt := xopt_with xopt1.
Definition xopt_handler (h : option (N * pname * list xstmt)) :=
  match h with Some (c, x, hb) => Some (c, x, xopt hb) | None => None end.

Lemma xdroppable_atomic e : xdroppable e = Verif.C01.Gen.atomic e.
Proof. reflexivity. Qed.

Lemma xopt_cons s r : xopt (s :: r) = if x_is_jump s then [s] else xopt1 s ++ xopt r.
Proof. reflexivity. Qed.

Lemma xexec_one m F s r : xexec1 m F s = Some r -> xexec m F [s] = Some r.
Proof. destruct r as [[o F'] t]. apply xexec_single. Qed.

Lemma xexec_xopt1_if m F t fb tb v r : F t = Some v ->
  xexec m F (if falsey v then xopt fb else xopt tb) = Some r -> xexec (S m) F (xopt1 (XSIf t fb tb)) = Some r.
Proof.
  intros E H. cbn [xopt1]. fold (xopt fb) (xopt tb).
  destruct (xopt fb), (xopt tb); try (apply xexec_one; cbn [xexec1]; rewrite E; exact H).
  destruct (falsey v); exact H.
Qed.

Section Step.
  Variable m : nat.
  Hypothesis IH2 : forall F l r, xexec m F l = Some r -> xexec m F (xopt l) = Some r.

  Lemma py_r1_opt F b h r : py_r1 m F b h = Some r -> py_r1 m F (xopt b) (xopt_handler h) = Some r.
  Proof.
    unfold py_r1. intro H.
    destruct (xexec m F b) as [[[o F1] t1]|] eqn:E; [|discriminate].
    rewrite (IH2 _ _ _ E).
    destruct o; try exact H.
    destruct h as [[[hc x] hb]|]; [|exact H]. cbn [xopt_handler].
    destruct (catches hc cls); [|exact H].
    destruct (xexec m (set F1 x (VExc cls payload)) hb) as [[[o2 F2] t2]|] eqn:E2; [|discriminate].
    rewrite (IH2 _ _ _ E2). exact H.
  Qed.

  Lemma py_fin_opt r1 f r : py_fin m r1 f = Some r -> py_fin m r1 (xopt f) = Some r.
  Proof.
    unfold py_fin. intro H. destruct r1 as [[[o F1] t1]|]; [|discriminate].
    destruct (xexec m F1 f) as [[[o2 F2] t2]|] eqn:E; [|discriminate].
    rewrite (IH2 _ _ _ E). exact H.
  Qed.
End Step.

Theorem xopt_preserves : forall m,
  (forall F s r, xexec1 m F s = Some r -> xexec m F (xopt1 s) = Some r) /\
  (forall F l r, xexec m F l = Some r -> xexec m F (xopt l) = Some r) /\
  (forall F b r, xwhile m F b = Some r -> xwhile m F (xopt b) = Some r).
Proof.
  induction m as [|m [IH1 [IH2 IH3]]].
  - split; [intros; discriminate|]. split; [|intros; discriminate].
    intros F l r H. destruct l as [|s l]; [exact H|]. rewrite xexec_cons in H. discriminate.
  - assert (S1 : forall F s r, xexec1 (S m) F s = Some r -> xexec (S m) F (xopt1 s) = Some r).
    { intros F s r H. destruct s as [x e|xs es|e|t fb tb|body| | |e|body h fin]; cbn [xopt1];
        try (apply xexec_one; exact H).
      - destruct (xdroppable e) eqn:D; [|apply xexec_one; exact H].
        cbn [xexec1] in H. destruct (peval F e) as [[v t']|] eqn:E; [|discriminate].
        inversion H; subst. rewrite xdroppable_atomic in D. rewrite (Verif.C01.Sim.atomic_no_trace _ _ _ _ D E). reflexivity.
      - cbn [xexec1] in H. destruct (F t) as [v|] eqn:Ft; [|discriminate]. fold (xexec m) in H.
        apply (xexec_xopt1_if _ _ _ _ _ _ _ Ft). destruct (falsey v); apply IH2, H.
      - cbn [xexec1] in H. apply IH3 in H. fold (xopt body). apply xexec_one. cbn [xexec1]. exact H.
      - rewrite xexec1_S_try in H. fold (xopt body). fold (xopt fin).
        change (match h with Some (c, x, hb) => Some (c, x, xopt_with xopt1 hb) | None => None end) with (xopt_handler h).
        apply xexec_one. rewrite xexec1_S_try.
        destruct (py_r1 m F body h) as [r1|] eqn:E1; [|discriminate].
        rewrite (py_r1_opt m IH2 _ _ _ _ E1). apply (py_fin_opt m IH2). exact H. }
    assert (S2 : forall F l r, xexec (S m) F l = Some r -> xexec (S m) F (xopt l) = Some r).
    { intros F l. revert F. induction l as [|s l IHl]; intros F r H; [exact H|].
      rewrite xopt_cons. rewrite xexec_cons in H.
      destruct (x_is_jump s) eqn:J.
      - (* a jump never yields Normal, so the rest of the block is not run *)
        destruct s; try discriminate; rewrite xexec_cons; cbn [xexec1] in H |- *; try exact H.
        destruct (peval F e) as [[[| | | |c p] t]|]; try discriminate. exact H.
      - destruct (xexec1 (S m) F s) as [[[o F1] t1]|] eqn:E1; [|discriminate].
        pose proof (S1 F s _ E1) as X1.
        destruct o; [|inversion H; subst; apply xexec_stop; [discriminate|exact X1]..].
        destruct (xexec (S m) F1 l) as [[[o2 F2] t2]|] eqn:E2; [|discriminate]. inversion H; subst.
        rewrite xexec_app, X1, (IHl F1 _ E2). reflexivity. }
    split; [exact S1|]. split; [exact S2|].
    intros F b r H. cbn [xwhile] in H |- *. fold (xexec m) in H |- *.
    destruct (xexec m F b) as [[[o F1] t1]|] eqn:Eb; [|discriminate].
    rewrite (IH2 F b _ Eb).
    destruct o; try exact H;
      (destruct (xwhile m F1 b) as [[[o2 F2] t2]|] eqn:Ew; [|discriminate]; rewrite (IH3 _ _ _ Ew); exact H).
Qed.

Theorem xopt_stmts_preserves m F l r : xexec m F l = Some r -> xexec m F (xopt l) = Some r.
Proof. apply (proj1 (proj2 (xopt_preserves m))). Qed.

Definition xrun_opt (fuel : nat) (e : xexpr) : option xresult :=
  let '(d, pe, _, _) := xgen (fun _ => None) [] 0 e in
  match xexec fuel (fun _ => None) (xopt d) with
  | Some (Normal, F, t1) => match peval F pe with Some (v, t2) => Some (XRVal v (t1 ++ t2)) | None => None end
  | Some (Exc c _, _, t1) => Some (XRExc c t1)
  | _ => None
  end.

Lemma xrun_opt_of fuel e r : xrun fuel e = Some r -> xrun_opt fuel e = Some r.
Proof.
  unfold xrun, xrun_opt. destruct (xgen (fun _ => None) [] 0 e) as [[[d pe] n'] k].
  destruct (xexec fuel (fun _ => None) d) as [[[o F] t1]|] eqn:E; [|discriminate].
  rewrite (xopt_stmts_preserves _ _ _ _ E). auto.
Qed.

Theorem optimized_exceptions_compile_correct fuel e o tr :
  xeval fuel (fun _ => None) e = Some (o, tr) -> hazard_free e = true ->
  match o with
  | OVal v => exists m, forall m', (m <= m')%nat -> xrun_opt m' e = Some (XRVal v tr)
  | OExc c _ => exists m, forall m', (m <= m')%nat -> xrun_opt m' e = Some (XRExc c tr)
  | ORec _ => True
  end.
Proof.
  intros He Hh. pose proof (xcompile_correct fuel e o tr He Hh) as H.
  destruct o as [v|?|c p]; [|exact I|]; destruct H as [m Hm]; exists m; intros m' L;
    apply xrun_opt_of; apply Hm; exact L.
Qed.

(** the rules really fire on generated code: the statement after `raise`, the constant `finally` *)
Example xopt_nonvacuous :
  (let '(d, _, _, _) := xgen (fun _ => None) [] 0 caught in xopt d <> d) /\
  (let '(d, _, _, _) := xgen (fun _ => None) [] 0 (XTry (tr1 1) None (XConst VNil) true (XConst (VInt 5))) in xopt d <> d).
Proof. split; vm_compute; discriminate. Qed.
