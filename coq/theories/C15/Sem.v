(** Semantic preservation of the statement-level rewrites on the first-order Python subset
    of C01/Py.v (assignments, expression statements, the nil/false `if`): dropping bare
    constant/name statements and `if`s whose branches are both empty yields the same frame
    and the same effect trace whenever the unoptimised code runs (i.e. raises no NameError),
    and therefore the compile-correctness theorem of C01 carries over to optimised code. *)
From Coq Require Import List ZArith Lia.
Import ListNotations.
From Verif Require Import C01.Lisp C01.Py C01.Gen C01.Sim C01.Top.

Definition droppable (e : pexpr) : bool := match e with PConst _ | PName _ => true | PCall _ _ => false end.

Lemma droppable_atomic e : droppable e = atomic e.
Proof. reflexivity. Qed.

Definition opt_with (o1 : stmt -> list stmt) : list stmt -> list stmt :=
  fix go (l : list stmt) : list stmt := match l with [] => [] | s :: r => o1 s ++ go r end.

Fixpoint opt1 (s : stmt) : list stmt :=
  match s with
  | SAssign _ _ => [s]
  | SExpr e => if droppable e then [] else [s]
  | SIf t fb tb =>
      match opt_with opt1 fb, opt_with opt1 tb with
      | [], [] => []
      | fb', tb' => [SIf t fb' tb']
      end
  end.
Definition opt_stmts := opt_with opt1.

Lemma exec_opt1_if F t fb tb v : F t = Some v ->
  exec F (opt1 (SIf t fb tb)) = exec F (if falsey v then opt_stmts fb else opt_stmts tb).
Proof.
  intro E. cbn [opt1]. fold (opt_stmts fb) (opt_stmts tb).
  destruct (opt_stmts fb), (opt_stmts tb); try (rewrite exec_single, exec1_if, E; reflexivity).
  destruct (falsey v); reflexivity.
Qed.

Definition preserved (s : stmt) : Prop :=
  forall F F' t, exec1 F s = Some (F', t) -> exec F (opt1 s) = Some (F', t).

Lemma opt_list_preserves l : Forall preserved l ->
  forall F F' t, exec F l = Some (F', t) -> exec F (opt_stmts l) = Some (F', t).
Proof.
  induction 1 as [|s r Hs _ IH]; intros F F' t H; [exact H|].
  rewrite exec_cons in H. destruct (exec1 F s) as [[F1 t1]|] eqn:E1; [|discriminate].
  destruct (exec F1 r) as [[F2 t2]|] eqn:E2; [|discriminate]. inversion H; subst.
  change (opt_stmts (s :: r)) with (opt1 s ++ opt_stmts r).
  rewrite exec_app, (Hs _ _ _ E1), (IH _ _ _ E2). reflexivity.
Qed.

Lemma opt1_preserves s : preserved s.
Proof.
  induction s as [x e|e|tst fb tb IHf IHt] using stmt_ind'; intros F F' t H.
  - cbn [opt1]. rewrite exec_single. exact H.
  - cbn [opt1]. destruct (droppable e) eqn:D; [|rewrite exec_single; exact H].
    rewrite exec1_expr in H. destruct (peval F e) as [[v t']|] eqn:E; [|discriminate].
    inversion H; subst. rewrite droppable_atomic in D. rewrite (atomic_no_trace _ _ _ _ D E). reflexivity.
  - rewrite exec1_if in H. destruct (F tst) as [v|] eqn:Ft; [|discriminate].
    rewrite (exec_opt1_if _ _ _ _ _ Ft). destruct (falsey v); apply opt_list_preserves; assumption.
Qed.

Theorem opt_stmts_preserves l F F' t : exec F l = Some (F', t) -> exec F (opt_stmts l) = Some (F', t).
Proof. apply opt_list_preserves, Forall_forall. intros s _. apply opt1_preserves. Qed.

Definition run_opt (e : expr) : option (value * trace) :=
  let '(d, pe, _, _) := gen (fun _ => None) 0 e in
  match exec (fun _ => None) (opt_stmts d) with
  | Some (F, t1) => match peval F pe with Some (v, t2) => Some (v, t1 ++ t2) | None => None end
  | None => None
  end.

Lemma run_opt_of e r : run e = Some r -> run_opt e = Some r.
Proof.
  unfold run, run_opt. destruct (gen (fun _ => None) 0 e) as [[[d pe] n'] k].
  destruct (exec (fun _ => None) d) as [[F t1]|] eqn:E; [|discriminate].
  rewrite (opt_stmts_preserves _ _ _ _ E). auto.
Qed.

Theorem optimized_compile_correct e v tr :
  eval (fun _ => None) e = Some (v, tr) -> hazard_free e = true -> run_opt e = Some (v, tr).
Proof. intros He Hh. apply run_opt_of, compile_correct; assumption. Qed.

(** the rewrite really fires on generated code: (do 2 (t 4)) has a droppable statement *)
Example opt_nonvacuous :
  let e := EDo (EConst (VInt 2)) (ECall PTrace [EConst (VInt 4)]) in
  let '(d, _, _, _) := gen (fun _ => None) 0 e in
  length (opt_stmts d) < length d.
Proof. vm_compute. lia. Qed.
