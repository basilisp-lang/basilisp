(** C04 -- variadic calls: (disj s a b ..), (dissoc m k1 k2 ..), (assoc c k1 v1 k2 v2 ..),
    (conj! t a b ..), (assoc! t k1 v1 k2 v2 ..), (dissoc! t k1 k2 ..), (disj! t a b ..).

    The property prescribes (and the unchanged code computes) the n-ary call as the LEFT FOLD
    of the unary one.  The operation type stays unary; a variadic call is a GROUP of
    consecutive unary operations of a history: the first one names the operand of the call,
    every later one names the slot of the one before it (for a transient that is the same
    cell).  The group's slots are those of the fold; what the CALL returns is

       the first exception among the group's results, else the last result        [vpos]

    (a unary operation applied to the slot of an exception is a bad reference on both sides:
    it returns EBadRef and leaves the heap alone, so nothing happens after the first
    exception -- [variadic_error_stops] in Inst.v).  Group sizes [gs] sum to the length of the
    history; a plain operation is a group of one.

    [project gs m]  the visible results (one per group) of the slot list [m]
    [fill gs m vis] the slot list [m] with, in every group, the call's result replaced by the
                    observed one [vis]: the hidden intermediate values are WITNESSES taken
                    from [m]; [srun] checks each of them against the unary specification
                    like any other result, so a wrong witness can only make the check fail. *)
From Coq Require Import List Bool Lia.
Import ListNotations.
From Verif Require Import C04.Syntax.

Section Groups.
  Context {C : Type}.

  Definition is_err (r : res C) : bool := match r with RErr _ => true | _ => false end.

  (** position, in a group, of the result of the call *)
  Fixpoint vpos (g : list (res C)) : nat :=
    match g with
    | [] => 0
    | x :: r => match r with
                | [] => 0
                | _ => if is_err x then 0 else S (vpos r)
                end
    end.

  Fixpoint set_nth (k : nat) (v : res C) (g : list (res C)) : list (res C) :=
    match g, k with
    | [], _ => []
    | _ :: r, O => v :: r
    | x :: r, S k' => x :: set_nth k' v r
    end.

  Definition vresult (g : list (res C)) : res C := nth (vpos g) g (RErr EOther).

  Fixpoint project (gs : list nat) (m : list (res C)) : list (res C) :=
    match gs with
    | [] => []
    | n :: gs' => vresult (firstn n m) :: project gs' (skipn n m)
    end.

  Fixpoint fill (gs : list nat) (m vis : list (res C)) : list (res C) :=
    match gs, vis with
    | n :: gs', v :: vis' => set_nth (vpos (firstn n m)) v (firstn n m) ++ fill gs' (skipn n m) vis'
    | _, _ => []
    end.

  Lemma set_nth_same d : forall g k, set_nth k (nth k g d) g = g.
  Proof. induction g as [|x r IH]; intros [|k]; simpl; try reflexivity. rewrite IH. reflexivity. Qed.

  Lemma fill_project : forall gs m, list_sum gs = length m -> fill gs m (project gs m) = m.
  Proof.
    induction gs as [|n gs IH]; intros m H; simpl in *.
    - destruct m; [reflexivity|discriminate].
    - unfold vresult. rewrite set_nth_same, IH, firstn_skipn; [reflexivity|].
      rewrite skipn_length. lia.
  Qed.

  Lemma project_length : forall gs m, length (project gs m) = length gs.
  Proof. induction gs as [|n gs IH]; intro m; simpl; [reflexivity|]. rewrite IH. reflexivity. Qed.

  Lemma vpos_cons y r : r <> [] -> vpos (y :: r) = if is_err y then 0 else S (vpos r).
  Proof. destruct r; [congruence|reflexivity]. Qed.

  Lemma vresult_app g r : forallb (fun r => negb (is_err r)) g = true -> r <> [] -> vresult (g ++ r) = vresult r.
  Proof.
    unfold vresult. induction g as [|y g IH]; simpl app; intros H N; [reflexivity|].
    simpl in H. apply andb_true_iff in H as [Hy Hg]. apply negb_true_iff in Hy.
    rewrite vpos_cons by (destruct g, r; simpl; congruence). rewrite Hy. simpl. apply IH; assumption.
  Qed.

  (** no exception in the group: the call returns what the last unary step returned *)
  Lemma vresult_last g x : forallb (fun r => negb (is_err r)) g = true -> vresult (g ++ [x]) = x.
  Proof. intro H. apply (vresult_app g [x] H). discriminate. Qed.

  (** an exception at some step: the call returns the first one *)
  Lemma vresult_first_error g cls r : forallb (fun r => negb (is_err r)) g = true ->
    vresult (g ++ RErr cls :: r) = RErr cls.
  Proof. intro H. rewrite (vresult_app g _ H) by discriminate. destruct r; reflexivity. Qed.

  (** singletons: a history without variadic calls is projected to itself *)
  Lemma project_ones : forall m, project (map (fun _ => 1) m) m = m.
  Proof. induction m as [|x r IH]; simpl; [reflexivity|]. unfold vresult. simpl. rewrite IH. reflexivity. Qed.
End Groups.

(** the unary operations a variadic call unfolds to, with their operand *)
Definition chain_op (o : op) : option nat :=
  match o with
  | OConj i _ | OAssoc i _ _ | ODissoc i _ | ODisj i _
  | OConjT i _ | OAssocT i _ _ | ODissocT i _ | ODisjT i _ => Some i
  | _ => None
  end.
