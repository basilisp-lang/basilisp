(** C04 -- theorems over whole (branching) histories, for every [L : Libs]. *)
From Coq Require Import List Bool ZArith Lia Permutation.
Import ListNotations.
From Verif Require Import Common.ListX C04.Val C04.Lib C04.Model C04.Spec C04.Abs C04.Wrappers C04.Sim.

Section Proofs.
  Variable L : Libs.

  (** the results that running [ops] from [st] appends to the slots *)
  Fixpoint new_slots (st : ist L) (ops : list op) : list (ires L) :=
    match ops with
    | [] => []
    | o :: r => fst (step L st o) :: new_slots (istep L st o) r
    end.

  Lemma new_slots_length ops : forall st, length (new_slots st ops) = length ops.
  Proof. induction ops as [|o r IH]; intro st; simpl; [reflexivity|]. rewrite IH. reflexivity. Qed.

  Lemma istep_slots st o : slots (istep L st o) = slots st ++ [fst (step L st o)].
  Proof. unfold istep. destruct (step L st o); reflexivity. Qed.
  Lemma istep_heap st o : heap (istep L st o) = snd (step L st o).
  Proof. unfold istep. destruct (step L st o); reflexivity. Qed.

  Lemma slots_irun_from ops : forall st, slots (irun_from L st ops) = slots st ++ new_slots st ops.
  Proof.
    induction ops as [|o r IH]; intro st; simpl; [rewrite app_nil_r; reflexivity|].
    unfold irun_from in *. simpl. rewrite IH, istep_slots, <- app_assoc. reflexivity.
  Qed.

  Lemma irun_app ops1 ops2 : irun L (ops1 ++ ops2) = irun_from L (irun L ops1) ops2.
  Proof. unfold irun, irun_from. apply fold_left_app. Qed.

  Theorem old_values_stable ops1 ops2 i r :
    nth_error (slots (irun L ops1)) i = Some r ->
    nth_error (slots (irun L (ops1 ++ ops2))) i = Some r.
  Proof.
    intro H. rewrite irun_app, slots_irun_from. rewrite nth_error_app1; [exact H|].
    apply nth_error_Some. congruence.
  Qed.

  (** ... in particular the source of a transient, whatever is done to the transient *)
  Corollary transient_source_stable ops1 i r ops2 :
    nth_error (slots (irun L ops1)) i = Some r ->
    nth_error (slots (irun L (ops1 ++ OTransient i :: ops2))) i = Some r.
  Proof. apply old_values_stable. Qed.

  Lemma run_sim ops : forall st sh, Rheap L (heap st) sh ->
    guard_from L (hazard_neg L) st ops = true -> guard_from L (hazard_meta L) st ops = true ->
    exists shf, srun ops (abs_slots L st) (map (abs_res L) (new_slots st ops)) sh = Some shf /\
                Rheap L (heap (irun_from L st ops)) shf.
  Proof.
    induction ops as [|o r IH]; intros st sh HR G1 G2.
    - exists sh. split; [reflexivity|exact HR].
    - simpl in G1, G2. apply andb_true_iff in G1 as [N1 G1]. apply andb_true_iff in G2 as [N2 G2].
      apply negb_true_iff in N1, N2.
      destruct (step_sim L st sh o HR N1 N2) as [A HR'].
      cbn [new_slots map srun]. destruct (sstep (abs_slots L st) sh o) as [x sh'] eqn:E.
      cbn [fst snd] in A, HR'. rewrite A.
      rewrite <- istep_heap in HR'.
      destruct (IH (istep L st o) sh' HR' G1 G2) as (shf & S & HRf).
      exists shf. split; [|exact HRf].
      unfold abs_slots in S. rewrite istep_slots, map_app in S. exact S.
  Qed.

  Lemma Rheap_cells_ok ih sh : Rheap L ih sh ->
    cells_ok sh (map (fun c => cell_coll (abs_cell L c)) ih) = true.
  Proof.
    intro H. unfold cells_ok. rewrite map_length, <- (Rheap_length L _ _ H), Nat.eqb_refl. simpl.
    induction H as [|ic sc ih sh C H IH]; simpl; [reflexivity|]. rewrite IH, andb_true_r.
    apply cequiv_b. destruct (Rcell_view L _ _ C) as [e|mm m R|mm l R]; simpl; constructor; symmetry; exact R.
  Qed.

  Theorem history_refines_partial ops :
    indices_nonneg L ops = true -> meta_args_nonnil L ops = true ->
    exists h, srun ops [] (abs_slots L (irun L ops)) [] = Some h /\
              cells_ok h (map (fun c => cell_coll (abs_cell L c)) (heap (irun L ops))) = true.
  Proof.
    intros G1 G2. destruct (run_sim ops (ist0 L) [] (Forall2_nil _) G1 G2) as (h & S & HR).
    exists h. split.
    - unfold abs_slots, irun. rewrite slots_irun_from. exact S.
    - apply Rheap_cells_ok. exact HR.
  Qed.

  Corollary history_legal_partial ops :
    indices_nonneg L ops = true -> meta_args_nonnil L ops = true ->
    legal ops (abs_slots L (irun L ops)) = true.
  Proof. intros G1 G2. unfold legal. destruct (history_refines_partial ops G1 G2) as (h & -> & _). reflexivity. Qed.

  Lemma forallb_perm {A} (f : A -> bool) l1 l2 : Permutation l1 l2 -> forallb f l1 = forallb f l2.
  Proof.
    induction 1; simpl; try congruence.
    destruct (f x), (f y); reflexivity.
  Qed.

  Lemma coll_equal_cequiv_l a a' b : cequiv a a' -> coll_equal a b = coll_equal a' b.
  Proof.
    destruct 1 as [l|l|l|m1 m2 P|l1 l2 P]; try reflexivity; destruct b; try reflexivity; simpl.
    - rewrite (zlen_perm _ _ P). f_equal. apply forallb_perm. exact P.
    - rewrite (zlen_perm _ _ P). f_equal. apply forallb_perm. exact P.
  Qed.

  Lemma coll_equal_cequiv_r a b b' : cequiv b b' ->
    (forall m, b = CMap m -> nodupk m = true) -> coll_equal a b = coll_equal a b'.
  Proof.
    destruct 1 as [l|l|l|m1 m2 P|l1 l2 P]; try reflexivity; intro N; destruct a; try reflexivity; simpl.
    - rewrite (zlen_perm _ _ P). f_equal. apply forallb_ext'. intros [k v]. simpl.
      rewrite (perm_al_get k _ _ P (N _ eq_refl)). reflexivity.
    - rewrite (zlen_perm _ _ P). f_equal. apply forallb_ext'. intro x. apply perm_mem. exact P.
  Qed.

  Lemma abs_map_nodup c : forall m, abs_coll L c = CMap m -> nodupk m = true.
  Proof. destruct c; simpl; intros m0 H; inversion H; subst. apply H_map_nodup. Qed.

  (** same contents = [cequiv] abstractions; [=] and [hash] depend on the contents only *)
  Lemma coll_eq_cequiv c c' d d' : cequiv (abs_coll L c) (abs_coll L c') -> cequiv (abs_coll L d) (abs_coll L d') ->
    coll_eq L c d = coll_eq L c' d'.
  Proof.
    intros Hc Hd. rewrite !coll_eq_abs, (coll_equal_cequiv_l _ _ _ Hc).
    apply coll_equal_cequiv_r; [exact Hd|apply abs_map_nodup].
  Qed.

  Lemma coll_hash_cequiv c c' : cequiv (abs_coll L c) (abs_coll L c') -> coll_hash L c = coll_hash L c'.
  Proof.
    destruct c, c'; simpl; intro H; inversion H; subst.
    - apply H_pvec_hash. assumption.
    - apply H_plist_hash. assumption.
    - apply H_pdeque_hash. assumption.
    - apply H_map_hash. assumption.
    - apply H_keys_hash. assumption.
  Qed.

  Lemma list_keq_refl' l : list_keq l l = true.
  Proof. apply list_keq_refl. Qed.

  Lemma al_sub_refl m : nodupk m = true -> al_sub m m = true.
  Proof.
    intro N. apply forallb_forall. intros [k v] Hin. simpl. rewrite (al_get_In k v m N Hin). apply keq_refl.
  Qed.

  Lemma mem_self_all l : forallb (fun x => mem x l) l = true.
  Proof. apply forallb_forall. intros x Hin. apply mem_In, Hin. Qed.

  Lemma coll_eq_refl c : coll_eq L c c = true.
  Proof.
    rewrite coll_eq_abs. destruct c; simpl; try apply list_keq_refl.
    - rewrite Z.eqb_refl. simpl. apply al_sub_refl. apply H_map_nodup.
    - rewrite Z.eqb_refl. simpl. apply mem_self_all.
  Qed.

  Lemma same_contents_eq_hash c c' : cequiv (abs_coll L c) (abs_coll L c') ->
    (forall d, coll_eq L c' d = coll_eq L c d /\ coll_eq L d c' = coll_eq L d c) /\
    coll_eq L c c' = true /\ coll_hash L c' = coll_hash L c.
  Proof.
    intro H. repeat split.
    - symmetry. apply coll_eq_cequiv; [exact H|apply cequiv_refl].
    - symmetry. apply coll_eq_cequiv; [apply cequiv_refl|exact H].
    - rewrite <- (coll_eq_cequiv c c c c' (cequiv_refl _) H). apply coll_eq_refl.
    - symmetry. apply coll_hash_cequiv, H.
  Qed.

  (** (with-meta c m) on a collection: an equal value carrying exactly m; the heap and every
      earlier result are left alone.  The guard excludes m = nil on a collection that has
      metadata (quirk Q2, finding F-04b). *)
  Theorem with_meta_exact_partial st i m c m0 :
    target L st i = TColl L c m0 -> hazard_meta L st (OWithMeta i m) = false ->
    exists c', step L st (OWithMeta i m) = (RColl c' m, heap st) /\
               cequiv (abs_coll L c) (abs_coll L c') /\
               coll_eq L c c' = true /\ coll_hash L c' = coll_hash L c /\
               slots (istep L st (OWithMeta i m)) = slots st ++ [RColl c' m].
  Proof.
    intros T HZ. unfold hazard_meta in HZ. unfold istep, step. rewrite T in *.
    destruct m as [n|].
    - exists (coll_with_meta L c). pose proof (abs_coll_with_meta L c) as E.
      destruct (same_contents_eq_hash _ _ E) as (_ & Q & H). repeat split; assumption.
    - destruct m0; [discriminate|]. exists c. pose proof (cequiv_refl (abs_coll L c)) as E.
      destruct (same_contents_eq_hash _ _ E) as (_ & Q & H). repeat split; assumption.
  Qed.

  (** which operations keep, set or drop the metadata: whenever an operation returns a
      collection, its metadata is given by this table *)
  Definition src_meta (st : ist L) (i : nat) : option N :=
    match target L st i with TColl _ _ m => m | _ => None end.
  Definition meta_rule (st : ist L) (o : op) : option N :=
    match o with
    | OConj i _ | OAssoc i _ _ | ODissoc i _ | ODisj i _ | OUpdate i _ | OEmpty i | OInto i _ => src_meta st i
    | OPop i => match target L st i with TColl _ (IQueue _) m => m | _ => None end      (* Q3 *)
    | OWithMeta i (Some n) => Some n
    | OWithMeta i None => src_meta st i                                              (* Q2 *)
    | _ => None                                  (* constructors, merge, persistent! : no metadata *)
    end.

  Theorem meta_table st o c' m' : fst (step L st o) = RColl c' m' -> m' = meta_rule st o.
  Proof.
    unfold meta_rule, src_meta.
    destruct o; unfold step; cbv beta iota zeta; cbn [fst];
      try (destruct (target L st i) as [|c m|a cell|]; cbn [fst]).
    all: try solve [intros [= _ <-]; reflexivity].
    (* every branch of the remaining matches ends in a constructor: split on each scrutinee, read the equation *)
    all: unfold coll_cons, conj_nil, vec_assoc, vec_pop, op_into, op_merge, remeta, tgt_eq, seq_res,
                vec_peek, vec_nth, list_nth, tvec_nth, tvec_val_at, tvec_contains, tvec_assoc;
         repeat match goal with |- context [match ?x with _ => _ end] => destruct x end;
         intros [= _ <-]; reflexivity.
  Qed.

  Definition roundtrip (c : icoll L) : option (icoll L) :=
    match c with
    | IVec p => Some (IVec (fst (ev_persistent L (pv_evolver L p))))
    | IMap p => Some (IMap (finish L (m_mutate L p)))
    | ISet p => Some (ISet (finish L (m_mutate L p)))
    | _ => None
    end.

  (** (persistent! (transient c)) has the contents of c, c's slot is untouched, and the two
      steps of the model compute exactly [roundtrip] *)
  Theorem transient_roundtrip st i c m c' :
    target L st i = TColl L c m -> roundtrip c = Some c' ->
    let st1 := istep L st (OTransient i) in
    let st2 := istep L st1 (OPersistent (length (slots st))) in
    slots st2 = slots st ++ [RTrans (length (heap st)); RColl c' None] /\
    cequiv (abs_coll L c) (abs_coll L c') /\ coll_eq L c c' = true.
  Proof.
    intros T R st1 st2.
    assert (cequiv (abs_coll L c) (abs_coll L c')) as CE.
    { destruct c; simpl in R; inversion R; subst; simpl.
      - rewrite H_evolver_persistent, H_evolver_of. constructor.
      - constructor. symmetry. apply Rmut_finish. apply Rmut_mutate.
      - constructor. symmetry. apply Rkeys_finish. apply Rkeys_mutate. }
    split; [|split; [exact CE|]].
    - subst st2 st1. rewrite !istep_slots, <- app_assoc. cbn [app].
      (* the second step finds the cell that the first one has just appended *)
      destruct c as [p|p|p|p|p]; try discriminate R; injection R as <-;
        (eassert (step L st (OTransient i) = (RTrans (length (heap st)), heap st ++ [_])) as E1
           by (unfold step; rewrite T; reflexivity));
        rewrite E1; cbn [fst]; do 3 f_equal;
        unfold step, target; rewrite istep_slots, istep_heap, E1; cbn [fst snd];
        rewrite nth_error_app2, Nat.sub_diag by lia; cbn [nth_error];
        rewrite nth_error_app2, Nat.sub_diag by lia; reflexivity.
    - apply same_contents_eq_hash, CE.
  Qed.

  Theorem meta_irrelevant_eq_hash (c d : icoll L) (m1 m2 n1 n2 : option N) :
    tgt_eq L (TColl L c m1) (TColl L d n1) = tgt_eq L (TColl L c m2) (TColl L d n2) /\
    coll_eq L (coll_with_meta L c) d = coll_eq L c d /\
    coll_eq L d (coll_with_meta L c) = coll_eq L d c /\
    coll_eq L c (coll_with_meta L c) = true /\
    coll_hash L (coll_with_meta L c) = coll_hash L c.
  Proof.
    destruct (same_contents_eq_hash c _ (abs_coll_with_meta L c)) as (A & B & C).
    (* [tgt_eq] does not read the metadata *)
    exact (conj eq_refl (conj (proj1 (A d)) (conj (proj2 (A d)) (conj B C)))).
  Qed.
End Proofs.

Theorem nonneg_index_is_clojure_index l i x : (0 <= i)%Z ->
  py_nth l i = clj_nth l i /\ py_set l i x = clj_set l i x.
Proof. intro H. exact (conj (py_nth_nonneg l i H) (py_set_nonneg l i x H)). Qed.

Theorem spec_maps_modulo_permutation k v (l1 l2 : al) :
  Permutation l1 l2 -> nodupk l1 = true ->
  al_get k l1 = al_get k l2 /\ Permutation (al_set k v l1) (al_set k v l2) /\
  Permutation (al_del k l1) (al_del k l2) /\ nodupk (al_set k v l1) = true /\ nodupk (al_del k l1) = true.
Proof.
  intros P N.
  exact (conj (perm_al_get k l1 l2 P N) (conj (perm_al_set k v l1 l2 P N)
        (conj (perm_al_del k l1 l2 P N) (conj (nodupk_al_set k v l1 N) (nodupk_al_del k l1 N))))).
Qed.

Theorem spec_sets_modulo_permutation x (l1 l2 : list elem) :
  Permutation l1 l2 -> nodup l1 = true ->
  mem x l1 = mem x l2 /\ Permutation (s_add x l1) (s_add x l2) /\ Permutation (s_del x l1) (s_del x l2) /\
  nodup (s_add x l1) = true /\ nodup (s_del x l1) = true.
Proof.
  intros P N.
  exact (conj (perm_mem x l1 l2 P) (conj (perm_s_add x l1 l2 P) (conj (perm_s_del x l1 l2 P N)
        (conj (nodup_s_add x l1 N) (nodup_s_del x l1 N))))).
Qed.

Theorem key_equality_is_an_equivalence :
  (forall a, keq a a = true) /\ (forall a b, keq a b = keq b a) /\
  (forall a b c, keq a b = true -> keq b c = true -> keq a c = true).
Proof. exact (conj keq_refl (conj keq_sym keq_trans)). Qed.
