(** C04 -- the list instance: the executable model meets the specification on every guarded
    history; concrete witnesses where the current code does not (kernel-checked by vm_compute). *)
From Coq Require Import List Bool ZArith.
Import ListNotations.
From Verif Require Import C04.Corr C04.Proofs.

Theorem model_meets_spec ops :
  indices_nonneg ListLibs ops = true -> meta_args_nonnil ListLibs ops = true ->
  spec_ok (CHist ops) (model (CHist ops)) = true.
Proof.
  intros G1 G2. destruct (history_refines_partial ListLibs ops G1 G2) as (h & S & C).
  unfold spec_ok, model. rewrite S, C. reflexivity.
Qed.

Lemma tag_zero_iff ops :
  tag (CHist ops) = 0%N <-> indices_nonneg ListLibs ops = true /\ meta_args_nonnil ListLibs ops = true.
Proof.
  unfold tag. destruct (indices_nonneg ListLibs ops), (meta_args_nonnil ListLibs ops); simpl; split;
    try (intros [? ?]); try discriminate; auto.
Qed.

(** ** F-04a: a negative index reaches pyrsistent *)
Definition v123 : op := ONew KVec [i_ 1; i_ 2; i_ 3].
Definition neg_witnesses : list (list op) :=
  [ [v123; OGet 0 (i_ (-1)) None];                        (* (get [1 2 3] -1)      => 3, not nil *)
    [v123; ONth 0 (i_ (-1)) (Some (k_ 9))];               (* (nth [1 2 3] -1 :nf)  => 3, not :nf *)
    [v123; ONth 0 (i_ (-1)) None];                        (* (nth [1 2 3] -1)      => 3, not an error *)
    [v123; OAssoc 0 (i_ (-1)) (k_ 1)];                    (* (assoc [1 2 3] -1 :x) => [1 2 :x], not an error *)
    [v123; OUpdate 0 (i_ (-3))];                          (* (update [1 2 3] -3 f) => [[:u 1] 2 3] *)
    [v123; OTransient 0; OAssocT 1 (i_ (-1)) (k_ 1)];     (* (assoc! t -1 :x) *)
    [v123; OTransient 0; OGet 1 (i_ (-2)) None] ].        (* (get t -2)            => 2 *)

Definition fails (ops : list op) : bool := negb (spec_ok (CHist ops) (model (CHist ops))).

Theorem negative_index_refuted :
  forallb (fun ops => fails ops && negb (indices_nonneg ListLibs ops) && meta_args_nonnil ListLibs ops) neg_witnesses = true.
Proof. vm_compute. reflexivity. Qed.

(** what the model computes on the first witness, and that contains? disagrees with get *)
Example negative_index_values :
  model (CHist [v123; OGet 0 (i_ (-1)) None; OContains 0 (i_ (-1)); OAssoc 0 (i_ (-1)) (k_ 1)]) =
  OOut [RColl (CVec [i_ 1; i_ 2; i_ 3]) None; RVal (i_ 3); RBool false; RColl (CVec [i_ 1; i_ 2; k_ 1]) None]
       true [].
Proof. vm_compute. reflexivity. Qed.

(** ** F-04b: (with-meta c nil) keeps the old metadata *)
Definition meta_witness : list op :=
  [ONew KVec [i_ 1]; OWithMeta 0 (Some 1%N); OWithMeta 1 None; OMeta 2].

Theorem with_meta_nil_refuted :
  fails meta_witness && negb (meta_args_nonnil ListLibs meta_witness) && indices_nonneg ListLibs meta_witness = true.
Proof. vm_compute. reflexivity. Qed.

Example with_meta_nil_values :
  model (CHist meta_witness) =
  OOut [RColl (CVec [i_ 1]) None; RColl (CVec [i_ 1]) (Some 1%N); RColl (CVec [i_ 1]) (Some 1%N); RNum 1]
       true [].
Proof. vm_compute. reflexivity. Qed.

(** ** the guards are met by a history that uses every kind, transients, aliasing, a
    transient after persistent!, hash-colliding keys and metadata *)
Definition sample : list op :=
  [ ONew KVec [i_ 1; f_ 1; o_ 0];          (* 0 *)
    OConj 0 [k_ 1; n_];                     (* 1 *)
    OTransient 1;                           (* 2 *)
    OConjT 2 (i_ 7);                        (* 3: same transient *)
    OAssocT 3 (i_ 0) (b_ false);            (* 4 *)
    OPersistent 2;                          (* 5 *)
    OConjT 2 (i_ 8);                        (* 6: after persistent! *)
    OPersistent 6;                          (* 7 *)
    ONewMap [(i_ 1, k_ 1); (o_ 0, k_ 2)];   (* 8 *)
    OAssoc 8 (f_ 1) n_;                     (* 9: 1.0 is the key 1 *)
    OWithMeta 9 (Some 5%N);                 (* 10 *)
    ODissoc 10 (o_ 0);                      (* 11 *)
    OMerge 8 11;                            (* 12 *)
    OTransient 12;                          (* 13 *)
    OAssocT 13 (k_ 3) (i_ 3);               (* 14 *)
    OPersistent 13;                         (* 15 *)
    OAssocT 13 (k_ 4) (i_ 4);               (* 16: ValueError *)
    ONew KSet [i_ 1; f_ 1; o_ 0];           (* 17 *)
    ODisj 17 (f_ 1);                        (* 18 *)
    OInto 17 1;                             (* 19 *)
    ONew KList [i_ 1; i_ 2];                (* 20 *)
    OPop 20; OPop 21; OConj 22 [i_ 3];      (* 21 22 23 *)
    ONew KQueue [i_ 1; i_ 2];               (* 24 *)
    OPop 24; OPeek 25; OInto 25 0;          (* 25 26 27 *)
    ONil; OConj 28 [i_ 1]; OAssoc 28 (i_ 1) (i_ 2); OUpdate 0 (i_ 3); ONth 5 (i_ 0) None; OGet 17 (f_ 1) None;
    OEq 1 5; OEq 10 9; OMeta 10; OMeta 11; OSeq 7; ORseq 7; OCount 13; OContains 13 (k_ 3); OEmpty 10 ].

Example guards_nonvacuous :
  indices_nonneg ListLibs sample = true /\ meta_args_nonnil ListLibs sample = true /\
  spec_ok (CHist sample) (model (CHist sample)) = true.
Proof. vm_compute. auto. Qed.

(** the hypotheses bundled in [Libs] are satisfiable *)
Theorem libs_satisfiable : inhabited Libs.
Proof. exact (inhabits ListLibs). Qed.

(** ** variadic calls (C04/Variadic.v): the n-ary call is the left fold of the unary step *)
Lemma model_obs_length ops : length (model_obs ops) = length ops.
Proof.
  unfold model_obs, abs_slots, irun. rewrite map_length, slots_irun_from, app_length, new_slots_length.
  reflexivity.
Qed.

(** running a group [chain] after a history [pre] IS folding the unary step over it from the
    state [pre] leaves: its slots are the successive results of [step], its heap the fold's *)
Theorem variadic_is_fold (L : Libs) pre chain :
  slots (irun L (pre ++ chain)) = slots (irun L pre) ++ new_slots L (irun L pre) chain /\
  heap (irun L (pre ++ chain)) = heap (fold_left (istep L) chain (irun L pre)).
Proof. rewrite irun_app. split; [apply slots_irun_from|reflexivity]. Qed.

Lemma target_err (L : Libs) (st : ist L) i cls :
  nth_error (slots st) i = Some (RErr cls) -> target L st i = TBad L.
Proof. unfold target. intros ->. reflexivity. Qed.

(** after an exception nothing happens: a unary step of a group applied to the slot of an
    exception returns EBadRef and leaves the heap alone *)
Theorem variadic_error_stops (L : Libs) (st : ist L) o i cls :
  chain_op o = Some i -> nth_error (slots st) i = Some (RErr cls) ->
  step L st o = (RErr EBadRef, heap st).
Proof.
  intros HC HE. apply (target_err L) in HE.
  destruct o; simpl in HC; try discriminate; injection HC as <-; unfold step; rewrite HE; reflexivity.
Qed.

(** what the call returns: the last result when no step raises, else the first exception *)
Lemma variadic_result (g : list sres) (x : sres) (cls : N) (r : list sres) :
  forallb (fun r => negb (is_err r)) g = true ->
  vresult (g ++ [x]) = x /\ vresult (g ++ RErr cls :: r) = RErr cls.
Proof. intro H. split; [apply vresult_last|apply vresult_first_error]; exact H. Qed.

(** hence the correspondence's verdict on a history with variadic calls is covered by the
    refinement theorem: under the two guards the model's visible results are accepted *)
Theorem variadic_model_meets_spec gs ops :
  list_sum gs = length ops ->
  indices_nonneg ListLibs ops = true -> meta_args_nonnil ListLibs ops = true ->
  spec_ok (CHistV gs ops) (model (CHistV gs ops)) = true.
Proof.
  intros HS G1 G2. pose proof (model_meets_spec ops G1 G2) as M.
  unfold spec_ok, model in *. cbv zeta in *. fold (model_obs ops) in *.
  rewrite fill_project by (rewrite model_obs_length; exact HS).
  apply andb_true_iff; split; [apply andb_true_iff; split|exact M]; apply Nat.eqb_eq;
    [exact HS|symmetry; apply project_length].
Qed.

(** a history without variadic calls: the grouped form says the same as the plain one *)
Lemma variadic_conservative ops :
  model (CHistV (map (fun _ => 1) (model_obs ops)) ops) = model (CHist ops).
Proof. unfold model. cbv zeta. f_equal. apply (@project_ones coll (model_obs ops)). Qed.

(** (disj #{:k1} :k2 :k1) = #{} -- an absent element first; (dissoc {:k1 1} :k2 :k1) = {};
    (assoc [] 0 :k1 1 :k2) = [:k1 :k2]; (assoc! (transient [7]) 0 :k1 5 :k2) raises and has set slot 0 *)
Example variadic_values :
  model (CHistV [1; 2; 1; 2; 1; 2; 1; 1; 2; 1]
    [ONew KSet [k_ 1]; ODisj 0 (k_ 2); ODisj 1 (k_ 1);
     ONewMap [(k_ 1, i_ 1)]; ODissoc 3 (k_ 2); ODissoc 4 (k_ 1);
     ONew KVec []; OAssoc 6 (i_ 0) (k_ 1); OAssoc 7 (i_ 1) (k_ 2);
     ONew KVec [i_ 7]; OTransient 9; OAssocT 10 (i_ 0) (k_ 1); OAssocT 11 (i_ 5) (k_ 2); OGet 10 (i_ 0) None]) =
  OOut [RColl (CSet [k_ 1]) None; RColl (CSet []) None; RColl (CMap [(k_ 1, i_ 1)]) None; RColl (CMap []) None;
        RColl (CVec []) None; RColl (CVec [k_ 1; k_ 2]) None; RColl (CVec [i_ 7]) None; RTrans 0;
        RErr EIndex; RVal (k_ 1)] true [CVec [k_ 1]].
Proof. vm_compute. reflexivity. Qed.
