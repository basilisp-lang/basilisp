(** C04 -- what each wrapper function abstracts to (from the laws of [Libs]). *)
From Coq Require Import List ZArith Permutation.
Import ListNotations.
From Verif Require Import Common.ListX C04.Val C04.Lib C04.Model C04.Spec.

Lemma list_eqb_elem_refl l : list_eqb elem_eqb l l = true.
Proof. apply list_eqb_spec; [apply elem_eqb_eq|reflexivity]. Qed.

Lemma coll_equiv_map m1 m2 : Permutation m1 m2 -> coll_equiv (CMap m1) (CMap m2) = true.
Proof. intro H. simpl. apply perm_perm_eqb; [apply pair_eqb_eq|assumption]. Qed.

Lemma coll_equiv_set l1 l2 : Permutation l1 l2 -> coll_equiv (CSet l1) (CSet l2) = true.
Proof. intro H. simpl. apply perm_perm_eqb; [apply elem_eqb_eq|assumption]. Qed.

Lemma coll_equiv_refl c : coll_equiv c c = true.
Proof.
  destruct c; [apply list_eqb_elem_refl..| |].
  - apply coll_equiv_map. reflexivity.
  - apply coll_equiv_set. reflexivity.
Qed.

Lemma meta_eqb_refl m : meta_eqb m m = true.
Proof. destruct m; simpl; [apply N.eqb_refl|reflexivity]. Qed.

Lemma sres_eqb_refl r : sres_eqb r r = true.
Proof.
  destruct r; simpl.
  - rewrite coll_equiv_refl, meta_eqb_refl. reflexivity.
  - apply Nat.eqb_refl.
  - apply elem_eqb_refl.
  - apply Bool.eqb_reflx.
  - apply Z.eqb_refl.
  - rewrite Bool.eqb_reflx. apply list_eqb_elem_refl.
  - apply N.eqb_refl.
Qed.

Lemma has_key_al_get k m : has_key (al_get k m) = memk k m.
Proof.
  destruct (al_get k m) eqn:E; simpl.
  - destruct (memk k m) eqn:F; [reflexivity|]. apply al_get_none_memk in F. congruence.
  - symmetry. apply al_get_none_memk. assumption.
Qed.

Lemma map_fst_dup l : map fst (map (fun x : elem => (x, x)) l) = l.
Proof. induction l; simpl; congruence. Qed.

Lemma map_fst_fold_al_set l : forall acc,
  map fst (fold_left (fun a kv => al_set (fst kv) (snd kv) a) (map (fun x : elem => (x, x)) l) acc)
  = fold_left (fun a x => s_add x a) l (map fst acc).
Proof.
  induction l as [|x r IH]; intro acc; simpl; [reflexivity|].
  rewrite IH, map_fst_al_set. reflexivity.
Qed.

Lemma set_of_list_nodup l : nodup l = true -> set_of_list l = l.
Proof.
  intro N. unfold set_of_list. pose proof (map_fst_fold_al_set l []) as H. simpl in H. rewrite <- H.
  fold (al_of (map (fun x : elem => (x, x)) l)). rewrite al_of_nodup; [apply map_fst_dup|].
  unfold nodupk. rewrite map_fst_dup. exact N.
Qed.

Section Wrappers.
  Variable L : Libs.

  Lemma fold_ev_append xs : forall e,
    ev_list L (fold_left (ev_append L) xs e) = ev_list L e ++ xs.
  Proof.
    induction xs as [|x r IH]; intro e; simpl; [rewrite app_nil_r; reflexivity|].
    rewrite IH, H_evolver_append, <- app_assoc. reflexivity.
  Qed.

  Lemma abs_vec_cons p xs : pv_list L (vec_cons L p xs) = pv_list L p ++ xs.
  Proof. unfold vec_cons. rewrite H_evolver_persistent, fold_ev_append, H_evolver_of. reflexivity. Qed.

  Lemma abs_vec_with_meta p : pv_list L (vec_with_meta L p) = pv_list L p.
  Proof. unfold vec_with_meta. apply H_pvec_of. Qed.

  Lemma pv_mset_abs p z v :
    match pv_mset L p z v with
    | Some p' => py_set (pv_list L p) z v = Some (pv_list L p')
    | None => py_set (pv_list L p) z v = None
    end.
  Proof. pose proof (H_pvec_mset L p z v) as H. destruct (pv_mset L p z v); simpl in H; auto. Qed.

  Lemma ev_set_abs e z v :
    match ev_set L e z v with
    | Some e' => py_set (ev_list L e) z v = Some (ev_list L e')
    | None => py_set (ev_list L e) z v = None
    end.
  Proof. pose proof (H_evolver_set L e z v) as H. destruct (ev_set L e z v); simpl in H; auto. Qed.

  Lemma fold_pl_cons xs : forall p, pl_list L (fold_left (pl_cons L) xs p) = rev xs ++ pl_list L p.
  Proof.
    induction xs as [|x r IH]; intro p; simpl; [reflexivity|].
    rewrite IH, H_plist_cons, <- app_assoc. reflexivity.
  Qed.

  Lemma fold_dq_extend1 xs : forall q,
    dq_list L (fold_left (fun q x => dq_extend L q [x]) xs q) = dq_list L q ++ xs.
  Proof.
    induction xs as [|x r IH]; intro q; simpl; [rewrite app_nil_r; reflexivity|].
    rewrite IH, H_pdeque_extend, <- app_assoc. reflexivity.
  Qed.

  (** a mutation [mm] represents the association list [m] *)
  Definition Rmut (mm : pmut L) (m : al) : Prop := Permutation (mm_items L mm) m.

  Lemma Rmut_nodupk mm m : Rmut mm m -> nodupk m = true.
  Proof. intro H. rewrite <- (perm_nodupk _ _ H). apply H_mut_nodup. Qed.

  Lemma Rmut_mutate p : Rmut (m_mutate L p) (m_items L p) /\ mm_fin L (m_mutate L p) = false.
  Proof. apply H_map_mutate. Qed.

  Lemma Rmut_set mm m k v : Rmut mm m -> mm_fin L mm = false ->
    exists mm', mm_set L mm k v = Some mm' /\ Rmut mm' (al_set k v m) /\ mm_fin L mm' = false.
  Proof.
    intros R F. destruct (H_mut_set L mm k v F) as (mm' & E & F' & P).
    exists mm'. repeat split; try assumption. unfold Rmut. rewrite P.
    apply perm_al_set; [exact R|apply H_mut_nodup].
  Qed.

  (** dissoc!/disj! on a live mutation: an absent key is not an error *)
  Lemma mut_dissoc_items mm k : mm_fin L mm = false ->
    exists mm', mut_dissoc L mm k = Some mm' /\ mm_fin L mm' = false /\
                Permutation (mm_items L mm') (al_del k (mm_items L mm)).
  Proof.
    intro F. unfold mut_dissoc. destruct (memk k (mm_items L mm)) eqn:E.
    - destruct (H_mut_del L mm k F E) as (mm' & -> & F' & P). eauto.
    - rewrite (H_mut_del_absent L mm k F E), (al_del_notin _ _ E). eauto.
  Qed.

  Lemma Rmut_dissoc mm m k : Rmut mm m -> mm_fin L mm = false ->
    exists mm', mut_dissoc L mm k = Some mm' /\ Rmut mm' (al_del k m) /\ mm_fin L mm' = false.
  Proof.
    intros R F. destruct (mut_dissoc_items mm k F) as (mm' & E & F' & P).
    exists mm'. repeat split; try assumption. unfold Rmut. rewrite P.
    apply perm_al_del; [exact R|apply H_mut_nodup].
  Qed.

  Lemma mut_dissoc_finished mm k : mm_fin L mm = true -> mut_dissoc L mm k = None.
  Proof. intro F. unfold mut_dissoc. rewrite (H_mut_del_finished L mm k F). reflexivity. Qed.

  Lemma Rmut_finish mm m : Rmut mm m -> Permutation (m_items L (finish L mm)) m.
  Proof. intro R. unfold finish. destruct (H_mut_finish L mm) as (P & _ & _). rewrite P. exact R. Qed.

  Lemma Rmut_finish_snd mm m : Rmut mm m ->
    Rmut (snd (mm_finish L mm)) m /\ mm_fin L (snd (mm_finish L mm)) = true.
  Proof. intro R. destruct (H_mut_finish L mm) as (_ & P & F). split; [unfold Rmut; rewrite P; exact R|exact F]. Qed.

  Lemma Rmut_get mm m k : Rmut mm m -> mm_get L mm k = al_get k m.
  Proof. intro R. rewrite H_mut_get. apply perm_al_get; [exact R|apply H_mut_nodup]. Qed.

  Lemma Rmut_len mm m : Rmut mm m -> mm_len L mm = zlen m.
  Proof. intro R. rewrite H_mut_len. apply zlen_perm. exact R. Qed.

  (** map conj against the specification's [c_conj1] / [c_conj] *)
  Lemma mut_conj1_sim mm m x : Rmut mm m -> mm_fin L mm = false ->
    match mut_conj1 L mm x, c_conj1 (CMap m) x with
    | Some mm', Some (CMap m') => Rmut mm' m' /\ mm_fin L mm' = false
    | None, None => True
    | _, _ => False
    end.
  Proof.
    intros R F. unfold mut_conj1, c_conj1.
    destruct x as [[]|[|k [|v [|w r]]]]; auto.
    destruct (Rmut_set mm m k v R F) as (mm' & E & R' & F'). rewrite E. auto.
  Qed.

  (** after persistent! only (conj! t nil) still works, and does nothing *)
  Lemma mut_conj1_finished mm x : mm_fin L mm = true ->
    mut_conj1 L mm x = Some mm \/ mut_conj1 L mm x = None.
  Proof.
    intro F. unfold mut_conj1. destruct x as [[]|[|k [|v [|w r]]]]; auto.
    right. apply H_mut_set_finished, F.
  Qed.

  Lemma mut_conj_sim xs : forall mm m, Rmut mm m -> mm_fin L mm = false ->
    match mut_conj L mm xs, c_conj (CMap m) xs with
    | Some mm', Some (CMap m') => Rmut mm' m' /\ mm_fin L mm' = false
    | None, None => True
    | _, _ => False
    end.
  Proof.
    induction xs as [|x r IH]; intros mm m R F; cbn [mut_conj c_conj]; [auto|].
    pose proof (mut_conj1_sim mm m x R F) as H.
    destruct (mut_conj1 L mm x) as [mm'|], (c_conj1 (CMap m) x) as [[]|]; try contradiction; auto.
    destruct H as [R' F']. apply IH; assumption.
  Qed.

  Lemma map_cons_sim p xs :
    match map_cons L p xs, c_conj (CMap (m_items L p)) xs with
    | Some p', Some (CMap m') => Permutation (m_items L p') m'
    | None, None => True
    | _, _ => False
    end.
  Proof.
    unfold map_cons. destruct (Rmut_mutate p) as [R F].
    pose proof (mut_conj_sim xs _ _ R F) as H.
    destruct (mut_conj L (m_mutate L p) xs) as [mm'|], (c_conj (CMap (m_items L p)) xs) as [[]|];
      try contradiction; auto.
    destruct H as [R' _]. apply Rmut_finish. exact R'.
  Qed.

  Lemma map_assoc_sim p k v :
    exists p', map_assoc L p k v = Some p' /\ Permutation (m_items L p') (al_set k v (m_items L p)).
  Proof.
    unfold map_assoc. destruct (Rmut_mutate p) as [R F].
    destruct (Rmut_set _ _ k v R F) as (mm' & -> & R' & _). eauto using Rmut_finish.
  Qed.

  Lemma map_dissoc_sim p k :
    exists p', map_dissoc L p k = Some p' /\ Permutation (m_items L p') (al_del k (m_items L p)).
  Proof.
    unfold map_dissoc. destruct (Rmut_mutate p) as [R F].
    destruct (Rmut_dissoc _ _ k R F) as (mm' & -> & R' & _). eauto using Rmut_finish.
  Qed.

  Lemma fold_set_sim kvs : forall (acc : pmut L) m, Rmut acc m -> mm_fin L acc = false ->
    exists mm', fold_left (fun acc kv => match acc with Some mm => mm_set L mm (fst kv) (snd kv) | None => None end)
                          kvs (Some acc) = Some mm' /\
                Rmut mm' (fold_left (fun a kv => al_set (fst kv) (snd kv) a) kvs m) /\ mm_fin L mm' = false.
  Proof.
    induction kvs as [|[k v] r IH]; intros acc m R F; simpl; [eauto|].
    destruct (Rmut_set acc m k v R F) as (mm' & E & R' & F'). rewrite E. apply IH; assumption.
  Qed.

  Lemma map_of_kvs_sim kvs :
    exists p, map_of_kvs L kvs = Some p /\ Permutation (m_items L p) (al_of kvs).
  Proof.
    unfold map_of_kvs. destruct (Rmut_mutate (m_empty L)) as [R F]. rewrite H_map_empty in R.
    destruct (fold_set_sim kvs _ _ R F) as (mm' & -> & R' & _). eauto using Rmut_finish.
  Qed.

  (** a mutation [mm] of a set represents the key list [l] *)
  Definition Rkeys (mm : pmut L) (l : list elem) : Prop := Permutation (map fst (mm_items L mm)) l.

  Lemma Rkeys_nodup mm l : Rkeys mm l -> nodup l = true.
  Proof. intro H. rewrite <- (perm_nodup _ _ H). apply (H_mut_nodup L mm). Qed.

  Lemma Rkeys_mutate p : Rkeys (m_mutate L p) (set_keys L p) /\ mm_fin L (m_mutate L p) = false.
  Proof.
    destruct (H_map_mutate L p) as [P F]. split; [|exact F].
    unfold Rkeys, set_keys. apply Permutation_map. exact P.
  Qed.

  Lemma Rkeys_add mm l x : Rkeys mm l -> mm_fin L mm = false ->
    exists mm', mm_set L mm x x = Some mm' /\ Rkeys mm' (s_add x l) /\ mm_fin L mm' = false.
  Proof.
    intros R F. destruct (H_mut_set L mm x x F) as (mm' & E & F' & P).
    exists mm'. repeat split; try assumption. unfold Rkeys.
    rewrite (Permutation_map fst P), map_fst_al_set. apply perm_s_add. exact R.
  Qed.

  Lemma Rkeys_mem mm l x : Rkeys mm l -> memk x (mm_items L mm) = mem x l.
  Proof. intro R. unfold memk. apply perm_mem. exact R. Qed.

  Lemma Rkeys_del mm l x : Rkeys mm l -> mm_fin L mm = false ->
    exists mm', mut_dissoc L mm x = Some mm' /\ Rkeys mm' (s_del x l) /\ mm_fin L mm' = false.
  Proof.
    intros R F. destruct (mut_dissoc_items mm x F) as (mm' & E & F' & P).
    exists mm'. repeat split; try assumption. unfold Rkeys.
    rewrite (Permutation_map fst P), map_fst_al_del. apply perm_s_del; [exact R|apply (H_mut_nodup L mm)].
  Qed.

  Lemma Rkeys_finish mm l : Rkeys mm l -> Permutation (set_keys L (finish L mm)) l.
  Proof.
    intro R. unfold finish, set_keys. destruct (H_mut_finish L mm) as (P & _ & _).
    rewrite (Permutation_map fst P). exact R.
  Qed.

  Lemma Rkeys_finish_snd mm l : Rkeys mm l ->
    Rkeys (snd (mm_finish L mm)) l /\ mm_fin L (snd (mm_finish L mm)) = true.
  Proof.
    intro R. destruct (H_mut_finish L mm) as (_ & P & F). split; [|exact F].
    unfold Rkeys. rewrite (Permutation_map fst P). exact R.
  Qed.

  Lemma Rkeys_has mm l x : Rkeys mm l -> has_key (mm_get L mm x) = mem x l.
  Proof. intro R. rewrite H_mut_get, has_key_al_get. apply Rkeys_mem. exact R. Qed.

  Lemma Rkeys_len mm l : Rkeys mm l -> mm_len L mm = zlen l.
  Proof.
    intro R. rewrite H_mut_len. unfold zlen. rewrite <- (Permutation_length R), map_length. reflexivity.
  Qed.

  Lemma mut_add_sim xs : forall mm l, Rkeys mm l -> mm_fin L mm = false ->
    exists mm', mut_add L mm xs = Some mm' /\
                Rkeys mm' (fold_left (fun acc x => s_add x acc) xs l) /\ mm_fin L mm' = false.
  Proof.
    induction xs as [|x r IH]; intros mm l R F; simpl; [eauto|].
    destruct (Rkeys_add mm l x R F) as (mm' & E & R' & F'). rewrite E. apply IH; assumption.
  Qed.

  Lemma set_cons_sim p xs :
    exists p', set_cons L p xs = Some p' /\
               Permutation (set_keys L p') (fold_left (fun acc x => s_add x acc) xs (set_keys L p)).
  Proof.
    unfold set_cons. destruct (Rkeys_mutate p) as [R F].
    destruct (mut_add_sim xs _ _ R F) as (mm' & -> & R' & _). eauto using Rkeys_finish.
  Qed.

  Lemma set_dissoc_sim p x :
    exists p', map_dissoc L p x = Some p' /\ Permutation (set_keys L p') (s_del x (set_keys L p)).
  Proof.
    unfold map_dissoc. destruct (Rkeys_mutate p) as [R F].
    destruct (Rkeys_del _ _ x R F) as (mm' & -> & R' & _). eauto using Rkeys_finish.
  Qed.

  Lemma set_of_sim l : Permutation (set_keys L (set_of L l)) (set_of_list l).
  Proof.
    unfold set_keys, set_of, set_of_list.
    rewrite (Permutation_map fst (H_map_of L _)). unfold al_of. rewrite map_fst_fold_al_set. reflexivity.
  Qed.

  Lemma set_with_meta_sim p : Permutation (set_keys L (set_with_meta L p)) (set_keys L p).
  Proof.
    unfold set_with_meta. rewrite set_of_sim, set_of_list_nodup; [reflexivity|]. apply (H_map_nodup L p).
  Qed.
End Wrappers.
