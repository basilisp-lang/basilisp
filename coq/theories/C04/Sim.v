(** C04 -- one step of the model is acceptable to the specification.

    [Rheap] relates the model's heap of transient cells to the specification's heap;
    [sim_step st sh o] says: the result of [step] abstracts to something [sstep] accepts,
    and the heaps stay related.  Both sides first look at their operand; [Rtgt] relates the
    two views of one operand, so every operation is proved by one case analysis on it. *)
From Coq Require Import List ZArith Lia Permutation.
Import ListNotations.
From Verif Require Import Common.ListX C04.Val C04.Lib C04.Model C04.Spec C04.Abs C04.Wrappers.

Lemma acc_exact r : accept (XExact r) r = true.
Proof. apply sres_eqb_refl. Qed.
Lemma acc_nil : accept xnil (RVal enil) = true.
Proof. reflexivity. Qed.
Lemma acc_bad : accept xbad (RErr EBadRef) = true.
Proof. reflexivity. Qed.
Lemma acc_coll c c' m : coll_equiv c c' = true -> accept (XColl c) (RColl c' m) = true.
Proof. intro H; exact H. Qed.
Lemma acc_coll_same c m : accept (XColl c) (RColl c m) = true.
Proof. apply coll_equiv_refl. Qed.
Lemma acc_val e : accept (xval e) (RVal e) = true.
Proof. apply elem_eqb_refl. Qed.

Lemma zlen_eq0 {A} (l : list A) : (zlen l =? 0)%Z = match l with [] => true | _ => false end.
Proof. destruct l; reflexivity. Qed.

Lemma forallb_ext' {A} (f g : A -> bool) l : (forall x, f x = g x) -> forallb f l = forallb g l.
Proof. intro H. induction l; simpl; [reflexivity|]. rewrite H, IHl. reflexivity. Qed.

Lemma c_conj_vec xs : forall l, c_conj (CVec l) xs = Some (CVec (l ++ xs)).
Proof. induction xs as [|x r IH]; intro l; simpl; [rewrite app_nil_r; reflexivity|]. rewrite IH, <- app_assoc. reflexivity. Qed.

Lemma c_conj_queue xs : forall l, c_conj (CQueue l) xs = Some (CQueue (l ++ xs)).
Proof. induction xs as [|x r IH]; intro l; simpl; [rewrite app_nil_r; reflexivity|]. rewrite IH, <- app_assoc. reflexivity. Qed.

Lemma c_conj_list xs : forall l, c_conj (CList l) xs = Some (CList (rev xs ++ l)).
Proof. induction xs as [|x r IH]; intro l; simpl; [reflexivity|]. rewrite IH, <- app_assoc. reflexivity. Qed.

Lemma c_conj_set xs : forall l, c_conj (CSet l) xs = Some (CSet (fold_left (fun acc x => s_add x acc) xs l)).
Proof. induction xs as [|x r IH]; intro l; simpl; [reflexivity|apply IH]. Qed.

Lemma neg_key_int k z : neg_key k = false -> key_int k = Some z -> (0 <= z)%Z.
Proof. unfold neg_key. intros H E. rewrite E in H. apply Z.ltb_ge in H. exact H. Qed.

Lemma key_int_num k z : key_int k = Some z -> key_num k = Some z.
Proof. destruct k as [[]|]; simpl; congruence. Qed.

Lemma nth_error_last {A} (l : list A) d : l <> [] -> nth_error l (length l - 1) = Some (last l d).
Proof.
  induction l as [|x r IH]; [congruence|]. intros _. destruct r as [|y r']; [reflexivity|].
  replace (length (x :: y :: r') - 1)%nat with (S (length (y :: r') - 1)) by (simpl; lia).
  cbn [nth_error]. rewrite IH by discriminate. reflexivity.
Qed.

Lemma py_nth_last l : l <> [] -> py_nth l (-1) = Some (last l enil).
Proof.
  intro H. unfold py_nth, py_norm. assert (1 <= zlen l)%Z as Hl by (destruct l; [congruence|unfold zlen; simpl; lia]).
  replace (0 <=? -1)%Z with false by reflexivity. cbn [andb].
  replace (-1 <? 0)%Z with true by reflexivity. cbn [andb].
  destruct (- zlen l <=? -1)%Z eqn:E; [|apply Z.leb_gt in E; lia].
  replace (Z.to_nat (zlen l + -1)) with (length l - 1)%nat by (unfold zlen; lia).
  apply nth_error_last. exact H.
Qed.

Lemma nth_error_clj (l : list elem) z : (0 <= z)%Z -> nth_error l (Z.to_nat z) = clj_nth l z.
Proof.
  intro H. unfold clj_nth. destruct (0 <=? z)%Z eqn:A; [|apply Z.leb_gt in A; lia].
  destruct (z <? zlen l)%Z eqn:B; [reflexivity|]. simpl. apply nth_error_None. apply Z.ltb_ge in B. unfold zlen in B. lia.
Qed.

Section Sim.
  Variable L : Libs.

  Definition Rcell (ic : icell L) (sc : scell) : Prop :=
    match ic, sc with
    | ICVec e, SCVec l => ev_list L e = l
    | ICMap mm, SCMap m fin => Rmut L mm m /\ mm_fin L mm = fin
    | ICSet mm, SCSet l fin => Rkeys L mm l /\ mm_fin L mm = fin
    | _, _ => False
    end.
  Definition Rheap (ih : list (icell L)) (sh : list scell) : Prop := Forall2 Rcell ih sh.

  (** inductive view of [Rcell] (which computes) for [destruct]; [Rcell_view] is the only bridge *)
  Inductive Rcell_v : icell L -> scell -> Prop :=
  | RC_vec e : Rcell_v (ICVec e) (SCVec (ev_list L e))
  | RC_map mm m : Rmut L mm m -> Rcell_v (ICMap mm) (SCMap m (mm_fin L mm))
  | RC_set mm l : Rkeys L mm l -> Rcell_v (ICSet mm) (SCSet l (mm_fin L mm)).

  Lemma Rcell_view ic sc : Rcell ic sc -> Rcell_v ic sc.
  Proof. destruct ic, sc; simpl; try contradiction; [intros <-|intros [? <-]..]; constructor; assumption. Qed.

  Lemma Rheap_length ih sh : Rheap ih sh -> length ih = length sh.
  Proof. induction 1; simpl; congruence. Qed.

  Lemma Rheap_nth ih sh : Rheap ih sh -> forall a,
    match nth_error ih a, nth_error sh a with
    | Some ic, Some sc => Rcell ic sc
    | None, None => True
    | _, _ => False
    end.
  Proof. induction 1 as [|x y l l' Hxy H IH]; intros [|a]; simpl; auto. apply IH. Qed.

  Lemma Rheap_set ih sh a ic sc : Rheap ih sh -> Rcell ic sc -> Rheap (set_cell L ih a ic) (sset_cell sh a sc).
  Proof.
    intros H C. revert a. induction H as [|x y l l' Hxy H IH]; intros [|a]; simpl; try constructor; auto.
    apply IH.
  Qed.

  Lemma sset_cell_same sh : forall a sc, nth_error sh a = Some sc -> sset_cell sh a sc = sh.
  Proof.
    induction sh as [|x r IH]; intros [|a] sc; simpl; intro H; try discriminate.
    - congruence.
    - rewrite IH; auto.
  Qed.

  Lemma Rheap_app ih sh ic sc : Rheap ih sh -> Rcell ic sc -> Rheap (ih ++ [ic]) (sh ++ [sc]).
  Proof. intros H C. apply Forall2_app; [assumption|]. constructor; [assumption|constructor]. Qed.

  Inductive Rtgt (sh : list scell) : tgt L -> stgt -> Prop :=
  | RT_nil : Rtgt sh (TNil L) SNil
  | RT_coll c m : Rtgt sh (TColl L c m) (SColl (abs_coll L c) m)
  | RT_trans a ic sc : Rcell_v ic sc -> nth_error sh a = Some sc -> Rtgt sh (TTrans L a ic) (STrans a sc)
  | RT_bad : Rtgt sh (TBad L) SBad.

  Lemma target_rel st sh i : Rheap (heap st) sh ->
    Rtgt sh (target L st i) (starget (abs_slots L st) sh i).
  Proof.
    intro HR. unfold target, starget, abs_slots. rewrite nth_error_map.
    destruct (nth_error (slots st) i) as [[c m|a|[[]|]|b|z|o l|cls]|]; simpl; try constructor.
    pose proof (Rheap_nth _ _ HR a) as H.
    destruct (nth_error (heap st) a), (nth_error sh a) eqn:E; try contradiction; constructor; auto using Rcell_view.
  Qed.

  Definition sim_res (p : ires L * list (icell L)) (q : expect * list scell) : Prop :=
    accept (fst q) (abs_res L (fst p)) = true /\ Rheap (snd p) (snd q).
  Definition sim_step (st : ist L) (sh : list scell) (o : op) : Prop :=
    sim_res (step L st o) (sstep (abs_slots L st) sh o).

  Lemma sim_pure ih sh (HR : Rheap ih sh) r x : accept x (abs_res L r) = true -> sim_res (r, ih) (x, sh).
  Proof. split; assumption. Qed.
  Lemma sim_upd ih sh (HR : Rheap ih sh) a ic sc : Rcell ic sc ->
    sim_res (RTrans a, set_cell L ih a ic) (XExact (RTrans a), sset_cell sh a sc).
  Proof. split; [apply Nat.eqb_refl|apply Rheap_set; assumption]. Qed.
  Lemma sim_upd_l ih sh (HR : Rheap ih sh) a ic sc r x : nth_error sh a = Some sc -> Rcell ic sc ->
    accept x (abs_res L r) = true -> sim_res (r, set_cell L ih a ic) (x, sh).
  Proof.
    intros N C A. split; [exact A|]. cbn [snd]. rewrite <- (sset_cell_same sh a sc N). apply Rheap_set; assumption.
  Qed.

  (* beta-iota only: [target L st i] and [starget ..] stay visible for [destruct (target_rel ..)] *)
  Ltac begin := unfold sim_step, step, sstep; cbv beta iota zeta.

  Inductive cequiv : coll -> coll -> Prop :=
  | ce_vec l : cequiv (CVec l) (CVec l)
  | ce_list l : cequiv (CList l) (CList l)
  | ce_queue l : cequiv (CQueue l) (CQueue l)
  | ce_map m1 m2 : Permutation m1 m2 -> cequiv (CMap m1) (CMap m2)
  | ce_set l1 l2 : Permutation l1 l2 -> cequiv (CSet l1) (CSet l2).

  Lemma cequiv_b a b : cequiv a b -> coll_equiv a b = true.
  Proof.
    destruct 1; [apply list_eqb_elem_refl..| |].
    - apply coll_equiv_map. assumption.
    - apply coll_equiv_set. assumption.
  Qed.
  Lemma cequiv_refl a : cequiv a a.
  Proof. destruct a; constructor; reflexivity. Qed.
  Lemma cequiv_trans a b c : cequiv a b -> cequiv b c -> cequiv a c.
  Proof. destruct 1; inversion 1; subst; constructor; etransitivity; eassumption. Qed.
  Lemma cequiv_sym a b : cequiv a b -> cequiv b a.
  Proof. destruct 1; constructor; symmetry; assumption. Qed.

  Lemma acc_coll_ce c c' m : cequiv c c' -> accept (XColl c) (RColl c' m) = true.
  Proof. intro H. apply cequiv_b. exact H. Qed.
  Lemma acc_collmeta_ce c c' m : cequiv c c' -> accept (XCollMeta c m) (RColl c' m) = true.
  Proof. intro H. simpl. rewrite (cequiv_b _ _ H), meta_eqb_refl. reflexivity. Qed.
  Lemma acc_map m p mt : Permutation (m_items L p) m ->
    accept (XColl (CMap m)) (abs_res L (RColl (IMap p) mt)) = true.
  Proof. intro P. apply acc_coll_ce. constructor. symmetry. exact P. Qed.
  Lemma acc_set l p mt : Permutation (set_keys L p) l ->
    accept (XColl (CSet l)) (abs_res L (RColl (ISet p) mt)) = true.
  Proof. intro P. apply acc_coll_ce. constructor. symmetry. exact P. Qed.

  Lemma sim_nil st sh : Rheap (heap st) sh -> sim_step st sh ONil.
  Proof. intro HR. begin. apply (sim_pure _ _ HR). reflexivity. Qed.

  Lemma sim_new st sh k l : Rheap (heap st) sh -> sim_step st sh (ONew k l).
  Proof.
    intro HR. begin. destruct k; apply (sim_pure _ _ HR).
    - apply acc_coll_ce. cbn [abs_coll]. rewrite H_pvec_of. constructor.
    - apply acc_coll_ce. cbn [abs_coll]. rewrite H_plist_of. constructor.
    - apply acc_coll_ce. cbn [abs_coll]. rewrite H_pdeque_of. constructor.
    - apply acc_set, set_of_sim.
  Qed.

  Lemma sim_newmap st sh kvs : Rheap (heap st) sh -> sim_step st sh (ONewMap kvs).
  Proof.
    intro HR. begin. destruct (map_of_kvs_sim L kvs) as (p & -> & P). apply (sim_pure _ _ HR), acc_map, P.
  Qed.

  Lemma items_abs c : items_of L c = c_items (abs_coll L c).
  Proof. destruct c; reflexivity. Qed.
  Lemma ordered_abs c : ordered L c = c_ordered (abs_coll L c).
  Proof. destruct c; reflexivity. Qed.
  Lemma coll_len_abs c : coll_len L c = c_len (abs_coll L c).
  Proof.
    destruct c; unfold c_len; simpl.
    - apply H_pvec_len.
    - apply H_plist_len.
    - apply H_pdeque_len.
    - rewrite H_map_len. unfold zlen. rewrite map_length. reflexivity.
    - rewrite H_map_len. unfold zlen, set_keys. rewrite map_length. reflexivity.
  Qed.

  Lemma abs_coll_with_meta c : cequiv (abs_coll L c) (abs_coll L (coll_with_meta L c)).
  Proof.
    destruct c; simpl.
    - rewrite abs_vec_with_meta. constructor.
    - rewrite H_plist_of. constructor.
    - rewrite H_pdeque_of. constructor.
    - constructor. reflexivity.
    - constructor. symmetry. apply set_with_meta_sim.
  Qed.

  Lemma abs_coll_empty c : cequiv (c_empty (abs_coll L c)) (abs_coll L (coll_empty L c)).
  Proof.
    destruct c; simpl.
    - rewrite abs_vec_with_meta, H_pvec_of. constructor.
    - rewrite !H_plist_of. constructor.
    - rewrite !H_pdeque_of. constructor.
    - rewrite H_map_empty. constructor. reflexivity.
    - constructor. symmetry. rewrite set_with_meta_sim. apply (set_of_sim L []).
  Qed.

  Lemma real_exc cls : real_exception cls = true -> accept XErr (@RErr coll cls) = true.
  Proof. intro H; exact H. Qed.

  (** the result of conj-ing [xs] onto the collection [c], however the wrapper does it *)
  Definition conj_spec (c : icoll L) (xs : list elem) (r : ires L) : Prop :=
    match c_conj (abs_coll L c) xs with
    | Some c' => exists ic m, r = RColl ic m /\ cequiv c' (abs_coll L ic)
    | None => r = RErr EValue
    end.

  Lemma conj_spec_accept c xs r : conj_spec c xs r ->
    accept (xcoll_or_err (c_conj (abs_coll L c) xs)) (abs_res L r) = true.
  Proof.
    unfold conj_spec. destruct (c_conj (abs_coll L c) xs) as [c'|].
    - intros (ic & m & -> & H). simpl. apply cequiv_b. exact H.
    - intros ->. reflexivity.
  Qed.

  Lemma conj_spec_intro c xs c0 ic m : c_conj (abs_coll L c) xs = Some c0 -> cequiv c0 (abs_coll L ic) ->
    conj_spec c xs (RColl ic m).
  Proof. intros E H. unfold conj_spec. rewrite E. eauto. Qed.

  Lemma coll_cons_spec c m xs : conj_spec c xs (coll_cons L c m xs).
  Proof.
    destruct c as [p|p|p|p|p]; cbn [coll_cons].
    - apply (conj_spec_intro (IVec p) _ _ _ _ (c_conj_vec _ _)). cbn [abs_coll]. rewrite abs_vec_cons. constructor.
    - apply (conj_spec_intro (IList p) _ _ _ _ (c_conj_list _ _)). cbn [abs_coll]. unfold list_cons. rewrite fold_pl_cons. constructor.
    - apply (conj_spec_intro (IQueue p) _ _ _ _ (c_conj_queue _ _)). cbn [abs_coll]. rewrite H_pdeque_extend. constructor.
    - pose proof (map_cons_sim L p xs) as H. unfold conj_spec. cbn [abs_coll].
      destruct (map_cons L p xs) as [p'|], (c_conj (CMap (m_items L p)) xs) as [[]|]; try contradiction; [|reflexivity].
      eexists _, _. split; [reflexivity|]. constructor. symmetry. exact H.
    - destruct (set_cons_sim L p xs) as (p' & -> & P).
      apply (conj_spec_intro (ISet p) _ _ _ _ (c_conj_set _ _)). constructor. symmetry. exact P.
  Qed.

  Lemma conj_nil_acc xs : accept (XColl (CList (rev xs))) (abs_res L (conj_nil L xs)) = true.
  Proof.
    unfold conj_nil, list_cons. apply acc_coll_ce. cbn [abs_coll].
    rewrite fold_pl_cons, H_plist_of, app_nil_r. constructor.
  Qed.

  Lemma sim_conj st sh i xs : Rheap (heap st) sh -> sim_step st sh (OConj i xs).
  Proof.
    intro HR. begin. destruct (target_rel st sh i HR), xs as [|x r]; apply (sim_pure _ _ HR); try reflexivity.
    - apply conj_nil_acc.
    - apply acc_coll_same.
    - apply (conj_spec_accept c (x :: r)), coll_cons_spec.
  Qed.

  (** with a non-negative key Python indexing is Clojure indexing *)
  Lemma vec_assoc_sim p m k v : neg_key k = false ->
    accept (v_assoc (pv_list L p) k v) (abs_res L (vec_assoc L p m k v)) = true.
  Proof.
    intro N. unfold v_assoc, vec_assoc. destruct (key_int k) as [z|] eqn:E; [|reflexivity].
    pose proof (neg_key_int k z N E) as Hz. rewrite <- (py_set_nonneg _ _ _ Hz).
    pose proof (pv_mset_abs L p z v) as H. destruct (pv_mset L p z v) as [p'|]; rewrite H.
    - apply acc_coll_same.
    - reflexivity.
  Qed.

  Lemma vec_val_at_sim p k d : neg_key k = false -> vec_val_at L p k d = v_get (pv_list L p) k d.
  Proof.
    intro N. unfold v_get, vec_val_at. destruct (key_int k) as [z|] eqn:E; [|reflexivity].
    rewrite H_pvec_get, (py_nth_nonneg _ _ (neg_key_int k z N E)). reflexivity.
  Qed.

  Lemma map_assoc_acc p m k v :
    accept (XColl (CMap (al_set k v (m_items L p))))
           (abs_res L match map_assoc L p k v with Some p' => RColl (IMap p') m | None => RErr EValue end) = true.
  Proof. destruct (map_assoc_sim L p k v) as (p' & -> & P). apply acc_map, P. Qed.

  Lemma map_assoc_empty_acc k v :
    accept (XColl (CMap [(k, v)]))
           (abs_res L match map_assoc L (m_empty L) k v with Some p => RColl (IMap p) None | None => RErr EValue end) = true.
  Proof. pose proof (map_assoc_acc (m_empty L) None k v) as H. rewrite H_map_empty in H. exact H. Qed.

  (** once the operand is a vector, the guard [hazard_neg] reads [neg_key k = false] *)
  Lemma sim_assoc st sh i k v : Rheap (heap st) sh -> hazard_neg L st (OAssoc i k v) = false ->
    sim_step st sh (OAssoc i k v).
  Proof.
    intros HR HZ. begin. cbn [hazard_neg] in HZ. revert HZ.
    destruct (target_rel st sh i HR) as [|[p|p|p|p|p] m| |]; intro HZ; apply (sim_pure _ _ HR); try reflexivity.
    - apply map_assoc_empty_acc.
    - apply vec_assoc_sim, HZ.
    - apply map_assoc_acc.
  Qed.

  Lemma sim_update st sh i k : Rheap (heap st) sh -> hazard_neg L st (OUpdate i k) = false ->
    sim_step st sh (OUpdate i k).
  Proof.
    intros HR HZ. begin. cbn [hazard_neg] in HZ. revert HZ.
    destruct (target_rel st sh i HR) as [|[p|p|p|p|p] m| |]; intro HZ; apply (sim_pure _ _ HR); try reflexivity;
      cbn [abs_coll].
    - apply map_assoc_empty_acc.
    - rewrite (vec_val_at_sim p k enil HZ). apply vec_assoc_sim, HZ.
    - rewrite H_map_get. apply map_assoc_acc.
  Qed.

  Lemma sim_dissoc st sh i k : Rheap (heap st) sh -> sim_step st sh (ODissoc i k).
  Proof.
    intros HR. begin. destruct (target_rel st sh i HR) as [|[p|p|p|p|p] m| |]; apply (sim_pure _ _ HR); try reflexivity.
    destruct (map_dissoc_sim L p k) as (p' & -> & P). apply acc_map, P.
  Qed.

  Lemma sim_disj st sh i x : Rheap (heap st) sh -> sim_step st sh (ODisj i x).
  Proof.
    intros HR. begin. destruct (target_rel st sh i HR) as [|[p|p|p|p|p] m| |]; apply (sim_pure _ _ HR); try reflexivity.
    destruct (set_dissoc_sim L p x) as (p' & -> & P). apply acc_set, P.
  Qed.

  Lemma sim_pop st sh i : Rheap (heap st) sh -> sim_step st sh (OPop i).
  Proof.
    intros HR. begin. destruct (target_rel st sh i HR) as [|[p|p|p|p|p] m| |]; apply (sim_pure _ _ HR); try reflexivity;
      cbn [abs_coll].
    - unfold vec_pop. rewrite H_pvec_len, zlen_eq0. destruct (pv_list L p) eqn:E; [reflexivity|].
      apply acc_coll_ce. cbn [abs_coll]. rewrite H_pvec_init, E. constructor.
    - rewrite H_plist_is_empty. destruct (pl_list L p) eqn:E; [reflexivity|].
      apply acc_coll_ce. cbn [abs_coll]. rewrite H_plist_rest, E. constructor.
    - rewrite H_pdeque_len, zlen_eq0. destruct (dq_list L p) eqn:E; [reflexivity|].
      apply acc_coll_ce. cbn [abs_coll]. rewrite H_pdeque_popleft, E. constructor.
  Qed.

  Lemma sim_peek st sh i : Rheap (heap st) sh -> sim_step st sh (OPeek i).
  Proof.
    intros HR. begin. destruct (target_rel st sh i HR) as [|[p|p|p|p|p] m| |]; apply (sim_pure _ _ HR); try reflexivity;
      cbn [abs_coll].
    - unfold vec_peek. rewrite H_pvec_len, zlen_eq0, H_pvec_get. destruct (pv_list L p) as [|x r] eqn:E; [reflexivity|].
      rewrite py_nth_last by discriminate. apply acc_val.
    - rewrite H_plist_first. destruct (pl_list L p); apply acc_val.
    - rewrite H_pdeque_left. destruct (dq_list L p); apply acc_val.
  Qed.

  Lemma sim_empty st sh i : Rheap (heap st) sh -> sim_step st sh (OEmpty i).
  Proof.
    intros HR. begin. destruct (target_rel st sh i HR); apply (sim_pure _ _ HR); try reflexivity.
    apply acc_coll_ce, abs_coll_empty.
  Qed.

  Lemma sim_with_meta st sh i m : Rheap (heap st) sh -> hazard_meta L st (OWithMeta i m) = false ->
    sim_step st sh (OWithMeta i m).
  Proof.
    intros HR HZ. begin. cbn [hazard_meta] in HZ. revert HZ.
    destruct m as [n|], (target_rel st sh i HR) as [|c m| |]; intro HZ; apply (sim_pure _ _ HR); try reflexivity.
    - apply acc_collmeta_ce, abs_coll_with_meta.
    - destruct m; [discriminate|]. apply acc_collmeta_ce, cequiv_refl.
  Qed.

  Lemma sim_meta st sh i : Rheap (heap st) sh -> sim_step st sh (OMeta i).
  Proof.
    intros HR. begin. destruct (target_rel st sh i HR) as [|c [n|]| |]; apply (sim_pure _ _ HR); try reflexivity.
    apply acc_exact.
  Qed.

  (** [op_into] conj-es like [coll_cons], then restores the metadata *)
  Lemma conj_spec_remeta c xs ic m : conj_spec c xs (RColl ic m) -> conj_spec c xs (remeta L ic m).
  Proof.
    unfold conj_spec, remeta. destruct (c_conj (abs_coll L c) xs); [|discriminate].
    intros (ic0 & m0 & E & H). inversion E; subst ic0 m0. destruct m; eexists _, _; (split; [reflexivity|]); [|exact H].
    eapply cequiv_trans; [exact H|apply abs_coll_with_meta].
  Qed.

  (** the branch of [op_into] for a collection [to], as a function of the items to add *)
  Definition into_coll (c : icoll L) (m : option N) (xs : list elem) : ires L :=
    match c with
    | IVec p => remeta L (IVec (fst (ev_persistent L (fold_left (ev_append L) xs (pv_evolver L p))))) m
    | IMap p => match map_cons L p xs with Some p' => remeta L (IMap p') m | None => RErr EValue end
    | ISet p => match set_cons L p xs with Some p' => remeta L (ISet p') m | None => RErr EValue end
    | IList p => RColl (IList (list_cons L p xs)) m
    | IQueue p => RColl (IQueue (fold_left (fun q x => dq_extend L q [x]) xs p)) m
    end.

  Lemma op_into_coll c m from xs : into_items L from = Some xs ->
    op_into L (TColl L c m) from = into_coll c m xs.
  Proof. intro E. unfold op_into. destruct from; try discriminate E; rewrite E; reflexivity. Qed.

  Lemma into_coll_spec c m xs : conj_spec c xs (into_coll c m xs).
  Proof.
    pose proof (coll_cons_spec c m xs) as H. destruct c as [p|p|p|p|p]; cbn [coll_cons into_coll] in *.
    - apply conj_spec_remeta, H.
    - exact H.
    - apply (conj_spec_intro (IQueue p) _ _ _ _ (c_conj_queue _ _)). cbn [abs_coll]. rewrite fold_dq_extend1. constructor.
    - destruct (map_cons L p xs); [apply conj_spec_remeta|]; exact H.
    - destruct (set_cons L p xs); [apply conj_spec_remeta|]; exact H.
  Qed.

  Lemma sim_into st sh i j : Rheap (heap st) sh -> sim_step st sh (OInto i j).
  Proof.
    intros HR. begin.
    destruct (target_rel st sh i HR) as [|c m| |], (target_rel st sh j HR) as [|d n| |];
      apply (sim_pure _ _ HR); try reflexivity.
    - unfold op_into. cbn [into_items]. rewrite items_abs.
      destruct (c_items (abs_coll L d)) as [|x r] eqn:E; [reflexivity|]. apply conj_nil_acc.
    - rewrite (op_into_coll c m (TNil L) [] eq_refl). apply (conj_spec_accept c []), into_coll_spec.
    - rewrite (op_into_coll c m (TColl L d n) _ eq_refl), <- items_abs. apply conj_spec_accept, into_coll_spec.
    - unfold op_into. cbn [into_items]. destruct (items_of L d); reflexivity.
  Qed.

  Lemma merge_arg_sim sh t s m2 mm m : Rtgt sh t s -> Spec.merge_arg s = Some m2 ->
    Rmut L mm m -> mm_fin L mm = false ->
    exists mm', Model.merge_arg L mm t = Some mm' /\
                Rmut L mm' (fold_left (fun a kv => al_set (fst kv) (snd kv) a) m2 m) /\ mm_fin L mm' = false.
  Proof.
    intros [|[] mt| |] E R F; inversion E; subst; simpl; eauto. apply fold_set_sim; assumption.
  Qed.

  Lemma merge_arg_first sh t s m1 : Rtgt sh t s -> Spec.merge_arg s = Some m1 ->
    exists mm', Model.merge_arg L (m_mutate L (m_empty L)) t = Some mm' /\ Rmut L mm' m1 /\ mm_fin L mm' = false.
  Proof.
    intros T E. destruct (Rmut_mutate L (m_empty L)) as [R0 F0]. rewrite H_map_empty in R0.
    destruct (merge_arg_sim _ _ _ _ _ _ T E R0 F0) as (mm' & M & R & F). exists mm'. repeat split; try assumption.
    replace m1 with (al_of m1); [exact R|].
    destruct T as [|[] mt| |]; inversion E; subst; [reflexivity|]. apply al_of_nodup, H_map_nodup.
  Qed.

  Lemma acc_any_res (r : ires L) : (forall c, r <> RErr c \/ (c <=? 7)%N = true) -> accept XAny (abs_res L r) = true.
  Proof. intro H. destruct r; try reflexivity. simpl. destruct (H cls) as [N|E]; [congruence|exact E]. Qed.

  Lemma merge_any ta tb : accept XAny (abs_res L (op_merge L ta tb)) = true.
  Proof.
    unfold op_merge. destruct ta, tb; try reflexivity;
      (destruct (Model.merge_arg L _ _) as [mm|]; [destruct (Model.merge_arg L mm _)|]; reflexivity).
  Qed.

  Lemma sim_merge st sh i j : Rheap (heap st) sh -> sim_step st sh (OMerge i j).
  Proof.
    intros HR. begin. apply (sim_pure _ _ HR).
    pose proof (merge_arg_first sh) as A. pose proof (merge_arg_sim sh) as B.
    destruct (target_rel st sh i HR) as [|[] ma| |], (target_rel st sh j HR) as [|[] mb| |];
      try reflexivity; try apply merge_any.
    all: match goal with |- context [op_merge L ?ta ?tb] =>
           edestruct (A ta) as (mm1 & M1 & R1 & F1); [constructor|reflexivity|];
           edestruct (B tb) as (mm2 & M2 & R2 & _); [constructor|reflexivity|exact R1|exact F1|]
         end; unfold op_merge; rewrite M1, M2; apply acc_map, Rmut_finish, R2.
  Qed.

  Lemma acc_seq o l : accept (xseq o l) (abs_res L (seq_res L o l)) = true.
  Proof. destruct l; [reflexivity|]. apply acc_exact. Qed.

  Lemma sim_seq st sh i : Rheap (heap st) sh -> sim_step st sh (OSeq i).
  Proof.
    intros HR. begin. destruct (target_rel st sh i HR); apply (sim_pure _ _ HR); try reflexivity.
    rewrite coll_len_abs, ordered_abs, items_abs. unfold c_len. rewrite zlen_eq0.
    destruct (c_items (abs_coll L c)) eqn:E; [reflexivity|]. rewrite <- E. apply acc_seq.
  Qed.

  Lemma sim_rseq st sh i : Rheap (heap st) sh -> sim_step st sh (ORseq i).
  Proof.
    intros HR. begin. destruct (target_rel st sh i HR) as [|[] m| |]; apply (sim_pure _ _ HR); try reflexivity.
    apply acc_seq.
  Qed.

  Lemma sim_count st sh i : Rheap (heap st) sh -> sim_step st sh (OCount i).
  Proof.
    intros HR. begin. destruct (target_rel st sh i HR) as [|c m|a ic sc [e|mm m R|mm l R] _|]; apply (sim_pure _ _ HR);
      try reflexivity.
    - rewrite coll_len_abs. apply acc_exact.
    - rewrite H_evolver_len. apply acc_exact.
    - rewrite (Rmut_len L _ _ R). unfold cell_len, c_len, zlen. simpl. rewrite map_length. apply Z.eqb_refl.
    - rewrite (Rkeys_len L _ _ R). apply acc_exact.
  Qed.

  Lemma acc_nth_res (o : option elem) nf :
    accept match o, nf with Some e, _ => xval e | None, Some d => xval d | None, None => XErr end
           (abs_res L match o, nf with Some e, _ => RVal e | None, Some d => RVal d | None, None => RErr EIndex end) = true.
  Proof. destruct o, nf; try apply acc_val; reflexivity. Qed.

  Lemma vec_nth_sim l k nf (g : Z -> option elem) : neg_key k = false -> (forall z, g z = py_nth l z) ->
    accept (v_nth l k nf)
      (abs_res L match key_int k with
                 | Some z => match g z, nf with Some e, _ => RVal e | None, Some d => RVal d | None, None => RErr EIndex end
                 | None => RErr EType end) = true.
  Proof.
    intros N G. unfold v_nth. destruct (key_int k) as [z|] eqn:E; [|reflexivity].
    rewrite G, (py_nth_nonneg _ _ (neg_key_int k z N E)). apply acc_nth_res.
  Qed.

  Lemma list_nth_sim p k nf : accept (v_nth (pl_list L p) k nf) (abs_res L (list_nth L p k nf)) = true.
  Proof.
    unfold v_nth, list_nth. destruct (key_int k) as [z|] eqn:E.
    - rewrite (key_int_num k z E). destruct (0 <=? z)%Z eqn:A.
      + apply Z.leb_le in A. rewrite (nth_error_clj _ _ A). apply acc_nth_res.
      + replace (clj_nth (pl_list L p) z) with (@None elem) by (unfold clj_nth; rewrite A; reflexivity).
        apply (acc_nth_res None).
    - destruct (match key_num k with Some z => if (0 <=? z)%Z then nth_error (pl_list L p) (Z.to_nat z) else None | None => None end), nf;
        reflexivity.
  Qed.

  Lemma sim_nth st sh i k nf : Rheap (heap st) sh -> hazard_neg L st (ONth i k nf) = false ->
    sim_step st sh (ONth i k nf).
  Proof.
    intros HR HZ. begin. cbn [hazard_neg] in HZ. revert HZ.
    destruct (target_rel st sh i HR) as [|[p|p|p|p|p] m|a ic sc [e|mm m R|mm l R] _|]; intro HZ; apply (sim_pure _ _ HR);
      try reflexivity.
    - apply acc_val.
    - apply vec_nth_sim; [exact HZ|apply H_pvec_get].
    - apply list_nth_sim.
    - apply vec_nth_sim; [exact HZ|apply H_evolver_get].
  Qed.

  Lemma set_get_acc l k dd (present : bool) : present = mem k l ->
    accept match s_find k l with Some y => XKeq y | None => xval dd end
           (abs_res L (RVal (if present then k else dd))) = true.
  Proof.
    intros ->. destruct (s_find k l) as [y|] eqn:E.
    - assert (mem k l = true) as -> by (apply s_find_mem; eauto). simpl. rewrite keq_sym. eapply s_find_keq; eauto.
    - assert (mem k l = false) as ->.
      { destruct (mem k l) eqn:M; [|reflexivity]. apply s_find_mem in M as [y Hy]. congruence. }
      apply acc_val.
  Qed.

  Lemma sim_get st sh i k d : Rheap (heap st) sh -> hazard_neg L st (OGet i k d) = false ->
    sim_step st sh (OGet i k d).
  Proof.
    intros HR HZ. begin. cbn [hazard_neg] in HZ. revert HZ.
    destruct (target_rel st sh i HR) as [|[p|p|p|p|p] m|a ic sc [e|mm m R|mm l R] _|]; intro HZ; apply (sim_pure _ _ HR);
      try apply acc_val; try reflexivity; cbn [abs_coll].
    - rewrite vec_val_at_sim by exact HZ. apply acc_val.
    - rewrite H_map_get. apply acc_val.
    - apply set_get_acc. rewrite H_map_get, has_key_al_get. reflexivity.
    - unfold tvec_val_at, v_get. destruct (key_int k) as [z|] eqn:E; [|reflexivity].
      rewrite H_evolver_get, (py_nth_nonneg _ _ (neg_key_int k z HZ E)). apply acc_val.
    - rewrite (Rmut_get L _ _ k R). apply acc_val.
    - apply set_get_acc, Rkeys_has, R.
  Qed.

  Lemma sim_contains st sh i k : Rheap (heap st) sh -> sim_step st sh (OContains i k).
  Proof.
    intros HR. begin.
    destruct (target_rel st sh i HR) as [|[p|p|p|p|p] m|a ic sc [e|mm m R|mm l R] _|]; apply (sim_pure _ _ HR);
      try reflexivity; cbn [abs_coll].
    - unfold vec_contains, v_contains. rewrite H_pvec_len. apply acc_exact.
    - rewrite H_map_get, has_key_al_get. apply acc_exact.
    - rewrite H_map_get, has_key_al_get. apply acc_exact.
    - unfold tvec_contains, v_contains. destruct (key_int k) as [z|] eqn:E.
      + rewrite (key_int_num k z E), H_evolver_len. apply acc_exact.
      + destruct (key_num k); reflexivity.
    - rewrite (Rmut_get L _ _ k R), has_key_al_get. apply acc_exact.
    - rewrite (Rkeys_has L _ _ k R). apply acc_exact.
  Qed.

  Lemma sim_transient st sh i : Rheap (heap st) sh -> sim_step st sh (OTransient i).
  Proof.
    intros HR. begin. pose proof (Rheap_length _ _ HR) as Len.
    destruct (target_rel st sh i HR) as [|[p|p|p|p|p] m| |]; try (apply (sim_pure _ _ HR); reflexivity);
      (split; [rewrite Len; apply acc_exact|]); apply Rheap_app; try exact HR; simpl.
    - apply H_evolver_of.
    - apply Rmut_mutate.
    - apply Rkeys_mutate.
  Qed.

  Lemma sim_persistent st sh i : Rheap (heap st) sh -> sim_step st sh (OPersistent i).
  Proof.
    intros HR. begin.
    destruct (target_rel st sh i HR) as [| |a ic sc [e|mm m R|mm l R] HN|]; try (apply (sim_pure _ _ HR); reflexivity).
    - apply (sim_upd_l _ _ HR _ _ _ _ _ HN); [apply H_evolver_persistent_stays|].
      apply acc_coll_ce. cbn [abs_coll]. rewrite H_evolver_persistent. constructor.
    - split; [apply acc_map, Rmut_finish, R|]. apply Rheap_set; [exact HR|]. apply Rmut_finish_snd, R.
    - split; [apply acc_set, Rkeys_finish, R|]. apply Rheap_set; [exact HR|]. apply Rkeys_finish_snd, R.
  Qed.

  Lemma sim_conjT st sh i x : Rheap (heap st) sh -> sim_step st sh (OConjT i x).
  Proof.
    intros HR. begin.
    destruct (target_rel st sh i HR) as [| |a ic sc [e|mm m R|mm l R] HN|]; try (apply (sim_pure _ _ HR); reflexivity).
    - apply (sim_upd _ _ HR). apply H_evolver_append.
    - destruct (mm_fin L mm) eqn:F.
      + destruct (mut_conj1_finished L mm x F) as [-> | ->]; [|apply (sim_pure _ _ HR); reflexivity].
        apply (sim_upd_l _ _ HR _ _ _ _ _ HN); [simpl; auto|reflexivity].
      + pose proof (mut_conj1_sim L mm m x R F) as H.
        destruct (mut_conj1 L mm x) as [mm'|], (c_conj1 (CMap m) x) as [[]|]; try contradiction.
        * apply (sim_upd _ _ HR). simpl. exact H.
        * apply (sim_pure _ _ HR). reflexivity.
    - destruct (mm_fin L mm) eqn:F.
      + rewrite (H_mut_set_finished L mm x x F). apply (sim_pure _ _ HR). reflexivity.
      + destruct (Rkeys_add L mm l x R F) as (mm' & -> & R' & F'). apply (sim_upd _ _ HR). simpl. auto.
  Qed.

  Lemma sim_assocT st sh i k v : Rheap (heap st) sh -> hazard_neg L st (OAssocT i k v) = false ->
    sim_step st sh (OAssocT i k v).
  Proof.
    intros HR HZ. begin. cbn [hazard_neg] in HZ. revert HZ.
    destruct (target_rel st sh i HR) as [| |a ic sc [e|mm m R|mm l R] HN|]; intro HZ;
      try (apply (sim_pure _ _ HR); reflexivity).
    - unfold tvec_assoc. destruct (key_int k) as [z|] eqn:E; [|apply (sim_pure _ _ HR); reflexivity].
      rewrite <- (py_set_nonneg _ _ _ (neg_key_int k z HZ E)).
      pose proof (ev_set_abs L e z v) as H. destruct (ev_set L e z v) as [e'|]; rewrite H.
      + apply (sim_upd _ _ HR). reflexivity.
      + apply (sim_pure _ _ HR). reflexivity.
    - destruct (mm_fin L mm) eqn:F.
      + rewrite (H_mut_set_finished L mm k v F). apply (sim_pure _ _ HR). reflexivity.
      + destruct (Rmut_set L mm m k v R F) as (mm' & -> & R' & F'). apply (sim_upd _ _ HR). simpl. auto.
  Qed.

  Lemma sim_dissocT st sh i k : Rheap (heap st) sh -> sim_step st sh (ODissocT i k).
  Proof.
    intros HR. begin.
    destruct (target_rel st sh i HR) as [| |a ic sc [e|mm m R|mm l R] HN|]; try (apply (sim_pure _ _ HR); reflexivity).
    - destruct (mm_fin L mm) eqn:F.
      + rewrite (mut_dissoc_finished L mm k F). apply (sim_pure _ _ HR). reflexivity.
      + destruct (Rmut_dissoc L mm m k R F) as (mm' & -> & R' & F'). apply (sim_upd _ _ HR). simpl. auto.
  Qed.

  Lemma sim_disjT st sh i x : Rheap (heap st) sh -> sim_step st sh (ODisjT i x).
  Proof.
    intros HR. begin.
    destruct (target_rel st sh i HR) as [| |a ic sc [e|mm m R|mm l R] HN|]; try (apply (sim_pure _ _ HR); reflexivity).
    - destruct (mm_fin L mm) eqn:F.
      + rewrite (mut_dissoc_finished L mm x F). apply (sim_pure _ _ HR). reflexivity.
      + destruct (Rkeys_del L mm l x R F) as (mm' & -> & R' & F'). apply (sim_upd _ _ HR). simpl. auto.
  Qed.

  Lemma sim_popT st sh i : Rheap (heap st) sh -> sim_step st sh (OPopT i).
  Proof.
    intros HR. begin.
    destruct (target_rel st sh i HR) as [| |a ic sc [e|mm m R|mm l R] HN|]; try (apply (sim_pure _ _ HR); reflexivity).
    rewrite H_evolver_len, zlen_eq0. destruct (ev_list L e) as [|x r] eqn:E.
    - apply (sim_pure _ _ HR). reflexivity.
    - apply (sim_upd _ _ HR). simpl. rewrite H_evolver_del_last, E. reflexivity.
  Qed.

  Lemma coll_eq_abs a b : coll_eq L a b = coll_equal (abs_coll L a) (abs_coll L b).
  Proof.
    destruct a as [p|p|p|p|p], b as [q|q|q|q|q]; try reflexivity.
    - simpl. rewrite !H_map_len, H_map_eq. reflexivity.
    - simpl. rewrite !H_map_len.
      assert (forall r, zlen (set_keys L r) = zlen (m_items L r)) as Z
        by (intro r; unfold zlen, set_keys; rewrite map_length; reflexivity).
      rewrite !Z. f_equal. apply forallb_ext'. intro x. rewrite H_map_get, has_key_al_get. reflexivity.
  Qed.

  Lemma sim_eq st sh i j : Rheap (heap st) sh -> sim_step st sh (OEq i j).
  Proof.
    intros HR. begin. unfold tgt_eq.
    destruct (target_rel st sh i HR), (target_rel st sh j HR); apply (sim_pure _ _ HR); try reflexivity.
    - rewrite coll_eq_abs. apply acc_exact.
    - apply acc_exact.
  Qed.

  Theorem step_sim st sh o : Rheap (heap st) sh ->
    hazard_neg L st o = false -> hazard_meta L st o = false -> sim_step st sh o.
  Proof.
    intros HR H1 H2.
    destruct o; auto using sim_nil, sim_new, sim_newmap, sim_conj, sim_assoc, sim_dissoc, sim_disj, sim_pop, sim_peek,
      sim_into, sim_empty, sim_with_meta, sim_meta, sim_update, sim_merge, sim_seq, sim_rseq, sim_count, sim_nth,
      sim_get, sim_contains, sim_transient, sim_persistent, sim_conjT, sim_assocT, sim_dissocT, sim_disjT, sim_popT, sim_eq.
  Qed.
End Sim.
