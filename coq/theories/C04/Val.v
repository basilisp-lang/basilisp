(** C04 -- value universe of the collection model.

    Elements of collections are atoms or vectors of elements (a map entry is the
    2-vector [k; v]).  [keq] is the equality the third-party containers use for keys and
    that the wrappers' [__eq__] uses element-wise: Python [==] (so 1 == 1.0, and bool is a
    subtype of int).  On the universe the correspondence run draws from (nil, false,
    integers >= 1, 1.0, keywords, identity objects, vectors of these) it coincides with
    basilisp's [=]; whether [==] is the right key equality in general is property C05's
    subject, not C04's: here it is the equality of BOTH the model and the specification.

    Then: association lists and duplicate-free lists modulo [keq], with the lemmas that make
    them "finite maps / finite sets modulo permutation". *)
From Coq Require Import List Bool ZArith Lia Permutation.
Import ListNotations.
From Verif Require Import Common.ListX.

Inductive atom :=
| ANil
| ABool (b : bool)
| AInt (z : Z)
| AFloat (z : Z)          (* the float z.0 *)
| AKw (n : N)             (* the keyword :k<n> *)
| AObj (id : N).          (* an object with identity equality and a crafted (colliding) hash *)

Inductive elem :=
| EA (a : atom)
| EV (l : list elem).     (* a vector of elements; map entries are EV [k; v] *)

Section ElemInd.
  Variable P : elem -> Prop.
  Hypothesis HA : forall a, P (EA a).
  Hypothesis HV : forall l, Forall P l -> P (EV l).
  Fixpoint elem_ind' (e : elem) : P e :=
    match e with
    | EA a => HA a
    | EV l => HV l ((fix go (l : list elem) : Forall P l :=
                       match l with
                       | [] => Forall_nil P
                       | x :: r => Forall_cons x (elem_ind' x) (go r)
                       end) l)
    end.
End ElemInd.

Definition anum (a : atom) : option Z :=
  match a with
  | ABool b => Some (if b then 1 else 0)%Z
  | AInt z => Some z
  | AFloat z => Some z
  | _ => None
  end.

Definition aeq (a b : atom) : bool :=
  match anum a, anum b with
  | Some x, Some y => Z.eqb x y
  | None, None =>
      match a, b with
      | ANil, ANil => true
      | AKw n, AKw m => N.eqb n m
      | AObj i, AObj j => N.eqb i j
      | _, _ => false
      end
  | _, _ => false
  end.

Fixpoint keq (a b : elem) : bool :=
  match a, b with
  | EA x, EA y => aeq x y
  | EV l1, EV l2 =>
      (fix go (l1 l2 : list elem) : bool :=
         match l1, l2 with
         | [], [] => true
         | x :: r1, y :: r2 => keq x y && go r1 r2
         | _, _ => false
         end) l1 l2
  | _, _ => false
  end.

Lemma keq_EV l1 l2 : keq (EV l1) (EV l2) = list_eqb keq l1 l2.
Proof.
  revert l2; induction l1 as [|x r IH]; intros [|y r2]; simpl; try reflexivity.
  f_equal. apply IH.
Qed.

Lemma aeq_refl a : aeq a a = true.
Proof. destruct a as [| [] | | | |]; unfold aeq; simpl; auto using Z.eqb_refl, N.eqb_refl. Qed.

Lemma aeq_sym a b : aeq a b = aeq b a.
Proof.
  unfold aeq. destruct (anum a) eqn:Ea, (anum b) eqn:Eb; try reflexivity.
  - apply Z.eqb_sym.
  - destruct a, b; try reflexivity; apply N.eqb_sym.
Qed.

Lemma aeq_trans a b c : aeq a b = true -> aeq b c = true -> aeq a c = true.
Proof.
  unfold aeq. destruct (anum a) eqn:Ea, (anum b) eqn:Eb, (anum c) eqn:Ec; try discriminate.
  - intros H1 H2. apply Z.eqb_eq in H1, H2. apply Z.eqb_eq. congruence.
  - destruct a, b; try discriminate; destruct c; try discriminate; try reflexivity;
      intros H1 H2; apply N.eqb_eq in H1, H2; apply N.eqb_eq; congruence.
Qed.

Lemma keq_refl e : keq e e = true.
Proof.
  induction e as [a | l IH] using elem_ind'; [apply aeq_refl|].
  rewrite keq_EV. induction IH as [|x r Hx _ IHr]; simpl; [reflexivity|].
  rewrite Hx. exact IHr.
Qed.

Lemma keq_sym e : forall f, keq e f = keq f e.
Proof.
  induction e as [a | l IH] using elem_ind'; intros [b | l2]; try reflexivity.
  - apply aeq_sym.
  - rewrite !keq_EV. revert l2. induction IH as [|x r Hx _ IHr]; intros [|y r2]; simpl; try reflexivity.
    rewrite Hx, IHr. reflexivity.
Qed.

Lemma keq_trans e : forall f g, keq e f = true -> keq f g = true -> keq e g = true.
Proof.
  induction e as [a | l IH] using elem_ind'; intros [b | l2] [c | l3]; try discriminate.
  - apply aeq_trans.
  - rewrite !keq_EV. revert l2 l3.
    induction IH as [|x r Hx _ IHr]; intros [|y r2] [|z r3]; simpl; try discriminate; try reflexivity.
    intros H1 H2. apply andb_true_iff in H1 as [A1 B1]. apply andb_true_iff in H2 as [A2 B2].
    apply andb_true_iff; split; [eapply Hx|eapply IHr]; eassumption.
Qed.

Lemma keq_cong_l a b c : keq a b = true -> keq a c = keq b c.
Proof.
  intro H. destruct (keq b c) eqn:E.
  - eapply keq_trans; eassumption.
  - destruct (keq a c) eqn:E2; [|reflexivity].
    rewrite keq_sym in H. rewrite (keq_trans _ _ _ H E2) in E. discriminate.
Qed.

Lemma keq_excl k x y : keq x y = false -> keq k x = true -> keq k y = false.
Proof. intros D E. rewrite (keq_cong_l _ _ y E). exact D. Qed.

(** ** Structural (Leibniz) equality, used only to compare observations *)
Definition atom_eqb (a b : atom) : bool :=
  match a, b with
  | ANil, ANil => true
  | ABool x, ABool y => Bool.eqb x y
  | AInt x, AInt y => Z.eqb x y
  | AFloat x, AFloat y => Z.eqb x y
  | AKw x, AKw y => N.eqb x y
  | AObj x, AObj y => N.eqb x y
  | _, _ => false
  end.

Lemma atom_eqb_eq a b : atom_eqb a b = true <-> a = b.
Proof.
  destruct a, b; simpl; split; intro H; try discriminate; try reflexivity;
    try (apply Bool.eqb_prop in H; congruence);
    try (apply Z.eqb_eq in H; congruence);
    try (apply N.eqb_eq in H; congruence);
    inversion H; subst; auto using Bool.eqb_reflx, Z.eqb_refl, N.eqb_refl.
Qed.

Fixpoint elem_eqb (a b : elem) : bool :=
  match a, b with
  | EA x, EA y => atom_eqb x y
  | EV l1, EV l2 =>
      (fix go (l1 l2 : list elem) : bool :=
         match l1, l2 with
         | [], [] => true
         | x :: r1, y :: r2 => elem_eqb x y && go r1 r2
         | _, _ => false
         end) l1 l2
  | _, _ => false
  end.

Lemma elem_eqb_EV l1 l2 : elem_eqb (EV l1) (EV l2) = list_eqb elem_eqb l1 l2.
Proof.
  revert l2; induction l1 as [|x r IH]; intros [|y r2]; simpl; try reflexivity.
  f_equal. apply IH.
Qed.

Lemma elem_eqb_eq e : forall f, elem_eqb e f = true <-> e = f.
Proof.
  induction e as [a | l IH] using elem_ind'; intros [b | l2]; try (simpl; split; discriminate).
  - simpl. rewrite atom_eqb_eq. split; congruence.
  - rewrite elem_eqb_EV, (list_eqb_spec_in elem_eqb l IH l2). split; congruence.
Qed.

Lemma elem_eqb_refl e : elem_eqb e e = true.
Proof. apply elem_eqb_eq; reflexivity. Qed.

Definition pair_eqb (a b : elem * elem) : bool :=
  elem_eqb (fst a) (fst b) && elem_eqb (snd a) (snd b).

Lemma pair_eqb_eq a b : pair_eqb a b = true <-> a = b.
Proof. exact (prod_eqb_spec elem_eqb elem_eqb elem_eqb_eq elem_eqb_eq a b). Qed.

Section PermB.
  Context {A : Type}.
  Variable eqb : A -> A -> bool.
  Hypothesis eqb_eq : forall x y, eqb x y = true <-> x = y.

  Fixpoint remove1 (x : A) (l : list A) : option (list A) :=
    match l with
    | [] => None
    | y :: r => if eqb x y then Some r
                else match remove1 x r with Some r' => Some (y :: r') | None => None end
    end.

  Fixpoint perm_eqb (l1 l2 : list A) : bool :=
    match l1 with
    | [] => match l2 with [] => true | _ => false end
    | x :: r => match remove1 x l2 with Some l2' => perm_eqb r l2' | None => false end
    end.

  Lemma remove1_perm x l l' : remove1 x l = Some l' -> Permutation l (x :: l').
  Proof.
    revert l'; induction l as [|y r IH]; simpl; intros l' H; [discriminate|].
    destruct (eqb x y) eqn:E.
    - apply eqb_eq in E; subst. inversion H; subst. reflexivity.
    - destruct (remove1 x r) as [r'|]; [|discriminate]. inversion H; subst.
      rewrite (IH r' eq_refl). apply perm_swap.
  Qed.

  Lemma remove1_in x l : In x l -> exists l', remove1 x l = Some l'.
  Proof.
    induction l as [|y r IH]; simpl; intros H; [contradiction|].
    destruct (eqb x y) eqn:E; [eauto|].
    destruct H as [H|H]; [subst; assert (eqb x x = true) by (apply eqb_eq; reflexivity); congruence|].
    destruct (IH H) as [l' ->]. eauto.
  Qed.

  Lemma perm_eqb_perm l1 : forall l2, perm_eqb l1 l2 = true -> Permutation l1 l2.
  Proof.
    induction l1 as [|x r IH]; intros l2 H; simpl in H.
    - destruct l2; [constructor|discriminate].
    - destruct (remove1 x l2) as [l2'|] eqn:E; [|discriminate].
      apply remove1_perm in E. rewrite E. constructor. apply IH; assumption.
  Qed.

  Lemma perm_perm_eqb l1 l2 : Permutation l1 l2 -> perm_eqb l1 l2 = true.
  Proof.
    revert l2; induction l1 as [|x r IH]; intros l2 H; simpl.
    - apply Permutation_nil in H; subst; reflexivity.
    - assert (In x l2) as Hin by (eapply Permutation_in; [exact H|left; reflexivity]).
      destruct (remove1_in _ _ Hin) as [l2' E]. rewrite E. apply IH.
      apply remove1_perm in E. eapply Permutation_cons_inv. rewrite H. exact E.
  Qed.

  Lemma perm_eqb_iff l1 l2 : perm_eqb l1 l2 = true <-> Permutation l1 l2.
  Proof. split; [apply perm_eqb_perm|apply perm_perm_eqb]. Qed.
End PermB.

(** ** Duplicate-free lists modulo [keq] (finite sets) *)
Definition mem (x : elem) (l : list elem) : bool := existsb (keq x) l.

Fixpoint nodup (l : list elem) : bool :=
  match l with
  | [] => true
  | x :: r => negb (mem x r) && nodup r
  end.

Definition s_add (x : elem) (l : list elem) : list elem := if mem x l then l else l ++ [x].

Fixpoint s_del (x : elem) (l : list elem) : list elem :=
  match l with
  | [] => []
  | y :: r => if keq x y then r else y :: s_del x r
  end.

(** the stored element equal to x *)
Fixpoint s_find (x : elem) (l : list elem) : option elem :=
  match l with
  | [] => None
  | y :: r => if keq x y then Some y else s_find x r
  end.

(** ** Association lists with keys distinct modulo [keq] (finite maps) *)
Definition al := list (elem * elem).
Definition memk (k : elem) (l : al) : bool := mem k (map fst l).
Definition nodupk (l : al) : bool := nodup (map fst l).

Fixpoint al_get (k : elem) (l : al) : option elem :=
  match l with
  | [] => None
  | (k', v) :: r => if keq k k' then Some v else al_get k r
  end.

(** assoc keeps the key object that is already stored (as Clojure and immutables do) *)
Fixpoint al_set (k v : elem) (l : al) : al :=
  match l with
  | [] => [(k, v)]
  | (k', v') :: r => if keq k k' then (k', v) :: r else (k', v') :: al_set k v r
  end.

Fixpoint al_del (k : elem) (l : al) : al :=
  match l with
  | [] => []
  | (k', v') :: r => if keq k k' then r else (k', v') :: al_del k r
  end.

Lemma mem_app x l1 l2 : mem x (l1 ++ l2) = mem x l1 || mem x l2.
Proof. unfold mem. apply existsb_app. Qed.

Lemma mem_keq x y l : keq x y = true -> mem x l = mem y l.
Proof.
  intro H. induction l as [|z r IH]; simpl; [reflexivity|].
  rewrite IH. f_equal. apply keq_cong_l; assumption.
Qed.

Lemma mem_In x l : In x l -> mem x l = true.
Proof.
  induction l as [|y r IH]; simpl; [contradiction|].
  intros [->|H]; [rewrite keq_refl; reflexivity|]. rewrite (IH H). apply orb_true_r.
Qed.

Lemma perm_mem x l1 l2 : Permutation l1 l2 -> mem x l1 = mem x l2.
Proof.
  induction 1; simpl; try congruence.
  destruct (keq x y), (keq x x0); reflexivity.
Qed.

Lemma perm_nodup l1 l2 : Permutation l1 l2 -> nodup l1 = nodup l2.
Proof.
  induction 1 as [| x l l' H IH | x y l | l l' l'' H1 IH1 H2 IH2]; simpl; try congruence.
  - rewrite (perm_mem x _ _ H), IH. reflexivity.
  - rewrite (keq_sym y x). destruct (keq x y), (mem x l), (mem y l), (nodup l); reflexivity.
Qed.

Lemma nodup_app_one l x : nodup (l ++ [x]) = nodup l && negb (mem x l).
Proof.
  induction l as [|y r IH]; simpl; [reflexivity|].
  rewrite mem_app, IH. simpl. rewrite (keq_sym y x).
  destruct (mem y r), (keq x y), (nodup r), (mem x r); reflexivity.
Qed.

Lemma nodup_s_add x l : nodup l = true -> nodup (s_add x l) = true.
Proof.
  unfold s_add. intro H. destruct (mem x l) eqn:E; [assumption|].
  rewrite nodup_app_one, H, E. reflexivity.
Qed.

Lemma mem_s_del_other x y l : keq x y = false -> mem y (s_del x l) = mem y l.
Proof.
  intro H. induction l as [|z r IH]; simpl; [reflexivity|].
  destruct (keq x z) eqn:E; simpl.
  - rewrite (keq_sym y z), <- (keq_cong_l _ _ y E), H. reflexivity.
  - rewrite IH. reflexivity.
Qed.

Lemma mem_s_del_false y x l : mem y l = false -> mem y (s_del x l) = false.
Proof.
  induction l as [|z r IH]; simpl; [reflexivity|].
  intro H. apply orb_false_iff in H as [A B].
  destruct (keq x z); simpl; [assumption|]. rewrite A, (IH B). reflexivity.
Qed.

Lemma nodup_s_del x l : nodup l = true -> nodup (s_del x l) = true.
Proof.
  induction l as [|y r IH]; simpl; [reflexivity|].
  intro H. apply andb_true_iff in H as [A B].
  destruct (keq x y); [assumption|]. simpl. rewrite (IH B), andb_true_r.
  apply negb_true_iff. apply mem_s_del_false. apply negb_true_iff. assumption.
Qed.

Lemma map_fst_al_set k v l : map fst (al_set k v l) = s_add k (map fst l).
Proof.
  unfold s_add. induction l as [|[k' v'] r IH]; simpl; [reflexivity|].
  destruct (keq k k') eqn:E; simpl; [reflexivity|].
  rewrite IH. destruct (mem k (map fst r)); reflexivity.
Qed.

Lemma map_fst_al_del k l : map fst (al_del k l) = s_del k (map fst l).
Proof.
  induction l as [|[k' v'] r IH]; simpl; [reflexivity|].
  destruct (keq k k'); simpl; [reflexivity|]. rewrite IH. reflexivity.
Qed.

Lemma nodupk_al_set k v l : nodupk l = true -> nodupk (al_set k v l) = true.
Proof. unfold nodupk. rewrite map_fst_al_set. apply nodup_s_add. Qed.

Lemma nodupk_al_del k l : nodupk l = true -> nodupk (al_del k l) = true.
Proof. unfold nodupk. rewrite map_fst_al_del. apply nodup_s_del. Qed.

(** Map(pairs) / hash-map: insert from left to right *)
Definition al_of (l : al) : al := fold_left (fun acc kv => al_set (fst kv) (snd kv) acc) l [].

Lemma nodupk_fold_al_set l : forall acc, nodupk acc = true ->
  nodupk (fold_left (fun acc kv => al_set (fst kv) (snd kv) acc) l acc) = true.
Proof. induction l as [|[k v] r IH]; simpl; intros acc H; [assumption|]. apply IH, nodupk_al_set, H. Qed.

Lemma nodupk_al_of l : nodupk (al_of l) = true.
Proof. apply nodupk_fold_al_set. reflexivity. Qed.

Lemma perm_nodupk (l1 l2 : al) : Permutation l1 l2 -> nodupk l1 = nodupk l2.
Proof. intro H. apply perm_nodup. apply Permutation_map. assumption. Qed.

Lemma perm_memk k (l1 l2 : al) : Permutation l1 l2 -> memk k l1 = memk k l2.
Proof. intro H. apply perm_mem. apply Permutation_map. assumption. Qed.

Lemma al_get_none_memk k l : al_get k l = None <-> memk k l = false.
Proof.
  unfold memk. induction l as [|[k' v'] r IH]; simpl; [tauto|].
  destruct (keq k k'); simpl; [split; discriminate|exact IH].
Qed.

Lemma al_get_In k v l : nodupk l = true -> In (k, v) l -> al_get k l = Some v.
Proof.
  induction l as [|[k' v'] r IH]; [contradiction|]. unfold nodupk; simpl. intros N [H|H].
  - inversion H; subst. rewrite keq_refl. reflexivity.
  - apply andb_true_iff in N as [N1 N2]. destruct (keq k k') eqn:E; [|apply IH; assumption].
    apply negb_true_iff in N1. rewrite keq_sym in E. rewrite (mem_keq _ _ _ E) in N1.
    rewrite (mem_In k (map fst r) (in_map fst _ _ H)) in N1. discriminate.
Qed.

(** induction on a permutation of a list with pairwise different keys: the swap case knows that the two keys differ *)
Lemma perm_nodup_ind {A} (key : A -> elem) (P : list A -> list A -> Prop) :
  P [] [] ->
  (forall a l l', Permutation l l' -> P l l' -> P (a :: l) (a :: l')) ->
  (forall a b l, keq (key a) (key b) = false -> P (b :: a :: l) (a :: b :: l)) ->
  (forall l l' l'', P l l' -> P l' l'' -> P l l'') ->
  forall l l', Permutation l l' -> nodup (map key l) = true -> P l l'.
Proof.
  intros H0 Hs Hw Ht. induction 1 as [|x l l' H IH|x y l|l l' l'' H1 IH1 H2 IH2]; simpl; intro N.
  - exact H0.
  - apply andb_true_iff in N as [_ N]. auto.
  - apply Hw. apply andb_true_iff in N as [D _]. apply negb_true_iff, orb_false_iff in D as [D _].
    rewrite keq_sym. exact D.
  - eapply Ht; [auto|]. apply IH2. rewrite <- (perm_nodup _ _ (Permutation_map key H1)). exact N.
Qed.

Lemma perm_al_get k (l1 l2 : al) :
  Permutation l1 l2 -> nodupk l1 = true -> al_get k l1 = al_get k l2.
Proof.
  revert l1 l2. apply (perm_nodup_ind fst); simpl; try congruence.
  - intros [x vx] l l' _ ->. reflexivity.
  - intros [x vx] [y vy] l D. simpl in D.
    destruct (keq k x) eqn:E; [rewrite (keq_excl k x y D E)|]; reflexivity.
Qed.

Lemma al_set_notin k v l : memk k l = false -> al_set k v l = l ++ [(k, v)].
Proof.
  unfold memk. induction l as [|[k' v'] r IH]; simpl; [reflexivity|].
  intro H. apply orb_false_iff in H as [A B]. rewrite A, (IH B). reflexivity.
Qed.

Lemma al_of_nodup m : nodupk m = true -> al_of m = m.
Proof.
  unfold al_of, nodupk. induction m as [|[k v] r IH] using rev_ind; [reflexivity|].
  rewrite map_app, fold_left_app. cbn [map fst snd fold_left]. rewrite nodup_app_one.
  intro N. apply andb_true_iff in N as [N1 N2].
  rewrite (IH N1). apply al_set_notin. apply negb_true_iff. exact N2.
Qed.

Lemma al_del_notin k m : memk k m = false -> al_del k m = m.
Proof.
  unfold memk. induction m as [|[k' v'] r IH]; simpl; [reflexivity|].
  intro H. apply orb_false_iff in H as [A B]. rewrite A, (IH B). reflexivity.
Qed.

Lemma perm_al_set k v (l1 l2 : al) :
  Permutation l1 l2 -> nodupk l1 = true -> Permutation (al_set k v l1) (al_set k v l2).
Proof.
  revert l1 l2. apply (perm_nodup_ind fst); simpl; [reflexivity| | |intros; etransitivity; eassumption].
  - intros [x vx] l l' H IH. destruct (keq k x); constructor; assumption.
  - intros [x vx] [y vy] l D. simpl in D.
    destruct (keq k x) eqn:E; [rewrite (keq_excl k x y D E)|destruct (keq k y)]; apply perm_swap.
Qed.

Lemma perm_al_del k (l1 l2 : al) :
  Permutation l1 l2 -> nodupk l1 = true -> Permutation (al_del k l1) (al_del k l2).
Proof.
  revert l1 l2. apply (perm_nodup_ind fst); simpl; [reflexivity| | |intros; etransitivity; eassumption].
  - intros [x vx] l l' H IH. destruct (keq k x); [|constructor]; assumption.
  - intros [x vx] [y vy] l D. simpl in D.
    destruct (keq k x) eqn:E; [rewrite (keq_excl k x y D E)|destruct (keq k y)]; try reflexivity; apply perm_swap.
Qed.

Lemma perm_s_add x l1 l2 :
  Permutation l1 l2 -> Permutation (s_add x l1) (s_add x l2).
Proof.
  intro H. unfold s_add. rewrite (perm_mem x _ _ H). destruct (mem x l2); [assumption|].
  apply Permutation_app_tail. assumption.
Qed.

Lemma perm_s_del x l1 l2 :
  Permutation l1 l2 -> nodup l1 = true -> Permutation (s_del x l1) (s_del x l2).
Proof.
  intros H N. rewrite <- (map_id l1) in N. revert l1 l2 H N.
  apply (perm_nodup_ind (fun y => y)); simpl; [reflexivity| | |intros; etransitivity; eassumption].
  - intros y l l' H IH. destruct (keq x y); [|constructor]; assumption.
  - intros y z l D.
    destruct (keq x y) eqn:E; [rewrite (keq_excl x y z D E)|destruct (keq x z)]; try reflexivity; apply perm_swap.
Qed.

Lemma perm_s_find x l1 l2 :
  Permutation l1 l2 -> nodup l1 = true -> s_find x l1 = s_find x l2.
Proof.
  intros H N. rewrite <- (map_id l1) in N. revert l1 l2 H N.
  apply (perm_nodup_ind (fun y => y)); simpl; try congruence.
  - intros y l l' _ ->. reflexivity.
  - intros y z l D. destruct (keq x y) eqn:E; [rewrite (keq_excl x y z D E)|]; reflexivity.
Qed.

Lemma s_find_mem x l : (exists y, s_find x l = Some y) <-> mem x l = true.
Proof.
  induction l as [|y r IH]; simpl.
  - split; [intros [? ?]; discriminate|discriminate].
  - destruct (keq x y); simpl; [split; eauto|exact IH].
Qed.

Lemma s_find_keq x l y : s_find x l = Some y -> keq x y = true.
Proof.
  induction l as [|z r IH]; simpl; [discriminate|].
  destruct (keq x z) eqn:E; [intro H; inversion H; subst; assumption|exact IH].
Qed.

(** ** Python sequence indexing (negative indices count from the end) *)
Definition py_norm (len i : Z) : option Z :=
  (if (0 <=? i) && (i <? len) then Some i
   else if (i <? 0) && (- len <=? i) then Some (len + i)
   else None)%Z.

Definition zlen {A} (l : list A) : Z := Z.of_nat (length l).

Lemma zlen_perm {A} (l1 l2 : list A) : Permutation l1 l2 -> zlen l1 = zlen l2.
Proof. intro H. unfold zlen. rewrite (Permutation_length H). reflexivity. Qed.

Definition py_nth (l : list elem) (i : Z) : option elem :=
  match py_norm (zlen l) i with
  | Some j => nth_error l (Z.to_nat j)
  | None => None
  end.

Fixpoint set_nth (l : list elem) (n : nat) (x : elem) : list elem :=
  match l, n with
  | [], _ => []
  | _ :: r, O => x :: r
  | y :: r, S n' => y :: set_nth r n' x
  end.

(** pvector.set / evolver.set: in range (negative allowed) replaces, i = len appends,
    anything else is an IndexError *)
Definition py_set (l : list elem) (i : Z) (x : elem) : option (list elem) :=
  if (i =? zlen l)%Z then Some (l ++ [x])
  else match py_norm (zlen l) i with
       | Some j => Some (set_nth l (Z.to_nat j) x)
       | None => None
       end.

(** what Clojure prescribes: indices are 0 .. len-1 (len appends on assoc) *)
Definition clj_nth (l : list elem) (i : Z) : option elem :=
  if (0 <=? i)%Z && (i <? zlen l)%Z then nth_error l (Z.to_nat i) else None.

Definition clj_set (l : list elem) (i : Z) (x : elem) : option (list elem) :=
  if (i =? zlen l)%Z then Some (l ++ [x])
  else if (0 <=? i)%Z && (i <? zlen l)%Z then Some (set_nth l (Z.to_nat i) x) else None.

Lemma py_nth_nonneg l i : (0 <= i)%Z -> py_nth l i = clj_nth l i.
Proof.
  intro H. unfold py_nth, clj_nth, py_norm.
  destruct (0 <=? i)%Z eqn:A; [|lia]. destruct (i <? zlen l)%Z eqn:B; simpl; [reflexivity|].
  destruct (i <? 0)%Z eqn:C; [lia|reflexivity].
Qed.

Lemma py_set_nonneg l i x : (0 <= i)%Z -> py_set l i x = clj_set l i x.
Proof.
  intro H. unfold py_set, clj_set, py_norm.
  destruct (i =? zlen l)%Z; [reflexivity|].
  destruct (0 <=? i)%Z eqn:A; [|lia]. destruct (i <? zlen l)%Z eqn:B; simpl; [reflexivity|].
  destruct (i <? 0)%Z eqn:C; [lia|reflexivity].
Qed.

Fixpoint list_keq (l1 l2 : list elem) : bool :=
  match l1, l2 with
  | [], [] => true
  | x :: r1, y :: r2 => keq x y && list_keq r1 r2
  | _, _ => false
  end.

Lemma list_keq_refl l : list_keq l l = true.
Proof. induction l; simpl; [reflexivity|]. rewrite keq_refl. assumption. Qed.
