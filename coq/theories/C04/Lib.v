(** C04 -- the third-party persistent structures as abstract interfaces.

    [Libs] bundles the carriers and operations of pyrsistent (pvector + evolver, plist,
    pdeque) and immutables (Map + MapMutation) that the basilisp wrappers call, together
    with the algebraic laws a persistent structure has to satisfy.  Every law is stated
    through the structure's own iteration ([pv_list] = list(v), [m_items] = list(m.items())
    ...): the result of each operation iterates like the list-level operation on what the
    argument iterated like.  Objects are Coq values, so "an operation does not disturb its
    argument" is built into the typing; THAT assumption (structural sharing inside
    pvectorc / immutables' HAMT is sound) is not proved here, it is exercised by the
    correspondence run only.

    The models and theorems of C04 take [L : Libs] as a Section variable; [ListLibs] at
    the end instantiates it with plain lists / association lists, which shows that the
    hypotheses are satisfiable and gives the executable model. *)
From Coq Require Import List ZArith Permutation.
Import ListNotations.
From Verif Require Import C04.Val.

(** result of MapMutation.__delitem__ *)
Inductive del_res (M : Type) := DelOk (m : M) | DelKeyError | DelFinished.
Arguments DelOk {M} m.
Arguments DelKeyError {M}.
Arguments DelFinished {M}.

Record Libs := {
  (* ---------------- pyrsistent.pvector ---------------- *)
  pvec : Type;
  pv_list : pvec -> list elem;                      (* iteration *)
  pv_of : list elem -> pvec;                        (* pvector(iterable) *)
  pv_len : pvec -> Z;                               (* len(v) *)
  pv_get : pvec -> Z -> option elem;                (* v[i] with a Python int; None = IndexError *)
  pv_init : pvec -> pvec;                           (* v[:-1] *)
  pv_mset : pvec -> Z -> elem -> option pvec;       (* v.mset(i, x); None = IndexError *)
  pv_hash : pvec -> Z;                              (* what the wrapper's __hash__ derives from _inner *)
  H_pvec_of : forall l, pv_list (pv_of l) = l;
  H_pvec_len : forall v, pv_len v = zlen (pv_list v);
  H_pvec_get : forall v i, pv_get v i = py_nth (pv_list v) i;
  H_pvec_init : forall v, pv_list (pv_init v) = removelast (pv_list v);
  H_pvec_mset : forall v i x, option_map pv_list (pv_mset v i x) = py_set (pv_list v) i x;
  H_pvec_hash : forall a b, pv_list a = pv_list b -> pv_hash a = pv_hash b;
  (* ---------------- its evolver ---------------- *)
  pev : Type;
  ev_list : pev -> list elem;
  pv_evolver : pvec -> pev;                         (* v.evolver() *)
  ev_append : pev -> elem -> pev;                   (* e.append(x) *)
  ev_set : pev -> Z -> elem -> option pev;          (* e.set(i, x); None = IndexError *)
  ev_get : pev -> Z -> option elem;                 (* e[i] *)
  ev_len : pev -> Z;
  ev_del_last : pev -> pev;                         (* del e[-1] on a non-empty evolver *)
  ev_persistent : pev -> pvec * pev;                (* e.persistent(): the vector, and the evolver afterwards *)
  H_evolver_of : forall v, ev_list (pv_evolver v) = pv_list v;
  H_evolver_append : forall e x, ev_list (ev_append e x) = ev_list e ++ [x];
  H_evolver_set : forall e i x, option_map ev_list (ev_set e i x) = py_set (ev_list e) i x;
  H_evolver_get : forall e i, ev_get e i = py_nth (ev_list e) i;
  H_evolver_len : forall e, ev_len e = zlen (ev_list e);
  H_evolver_del_last : forall e, ev_list (ev_del_last e) = removelast (ev_list e);
  H_evolver_persistent : forall e, pv_list (fst (ev_persistent e)) = ev_list e;
  H_evolver_persistent_stays : forall e, ev_list (snd (ev_persistent e)) = ev_list e;
  (* ---------------- pyrsistent.plist ---------------- *)
  plist : Type;
  pl_list : plist -> list elem;
  pl_of : list elem -> plist;
  pl_cons : plist -> elem -> plist;                 (* l.cons(x) *)
  pl_first : plist -> option elem;                  (* l.first; None = AttributeError on the empty list *)
  pl_rest : plist -> plist;
  pl_is_empty : plist -> bool;                      (* l is _EMPTY_PLIST *)
  pl_len : plist -> Z;
  pl_hash : plist -> Z;
  H_plist_of : forall l, pl_list (pl_of l) = l;
  H_plist_cons : forall l x, pl_list (pl_cons l x) = x :: pl_list l;
  H_plist_first : forall l, pl_first l = hd_error (pl_list l);
  H_plist_rest : forall l, pl_list (pl_rest l) = tl (pl_list l);
  H_plist_is_empty : forall l, pl_is_empty l = match pl_list l with [] => true | _ => false end;
  H_plist_len : forall l, pl_len l = zlen (pl_list l);
  H_plist_hash : forall a b, pl_list a = pl_list b -> pl_hash a = pl_hash b;
  (* ---------------- pyrsistent.pdeque ---------------- *)
  pdeque : Type;
  dq_list : pdeque -> list elem;
  dq_of : list elem -> pdeque;
  dq_extend : pdeque -> list elem -> pdeque;        (* d.extend(xs) *)
  dq_left : pdeque -> option elem;                  (* d.left; None = IndexError *)
  dq_popleft : pdeque -> pdeque;
  dq_len : pdeque -> Z;
  dq_hash : pdeque -> Z;
  H_pdeque_of : forall l, dq_list (dq_of l) = l;
  H_pdeque_extend : forall d xs, dq_list (dq_extend d xs) = dq_list d ++ xs;
  H_pdeque_left : forall d, dq_left d = hd_error (dq_list d);
  H_pdeque_popleft : forall d, dq_list (dq_popleft d) = tl (dq_list d);
  H_pdeque_len : forall d, dq_len d = zlen (dq_list d);
  H_pdeque_hash : forall a b, dq_list a = dq_list b -> dq_hash a = dq_hash b;
  (* ---------------- immutables.Map ---------------- *)
  pmap : Type;
  pmut : Type;                                      (* immutables.MapMutation, below *)
  m_items : pmap -> al;                             (* list(m.items()), in the map's own order *)
  m_empty : pmap;                                   (* Map() *)
  m_of : al -> pmap;                                (* Map(iterable of pairs): later pairs win *)
  m_get : pmap -> elem -> option elem;              (* lookup (get with a sentinel / in) *)
  m_len : pmap -> Z;
  m_mutate : pmap -> pmut;                          (* m.mutate() *)
  m_hash : pmap -> Z;                               (* hash(m): order independent *)
  keys_hash : list elem -> Z;                       (* collections.abc.Set._hash over the members *)
  m_eq : pmap -> pmap -> bool;                      (* m == other (same sizes) *)
  (* ---------------- immutables.MapMutation ---------------- *)
  mm_items : pmut -> al;
  mm_fin : pmut -> bool;                            (* finish() has been called *)
  mm_set : pmut -> elem -> elem -> option pmut;     (* mm[k] = v / mm.set(k, v); None = ValueError (finished) *)
  mm_del : pmut -> elem -> del_res pmut;            (* del mm[k] *)
  mm_get : pmut -> elem -> option elem;
  mm_len : pmut -> Z;
  mm_finish : pmut -> pmap * pmut;                  (* mm.finish(): the map, and the mutation afterwards *)
  H_map_nodup : forall m, nodupk (m_items m) = true;
  H_map_empty : m_items m_empty = [];
  H_map_of : forall l, Permutation (m_items (m_of l)) (al_of l);
  H_map_get : forall m k, m_get m k = al_get k (m_items m);
  H_map_len : forall m, m_len m = zlen (m_items m);
  H_map_eq : forall a b, m_eq a b = forallb (fun kv => match al_get (fst kv) (m_items b) with
                                                       | Some v => keq (snd kv) v | None => false end)
                                            (m_items a);
  H_map_hash : forall a b, Permutation (m_items a) (m_items b) -> m_hash a = m_hash b;
  H_keys_hash : forall l1 l2, Permutation l1 l2 -> keys_hash l1 = keys_hash l2;
  H_mut_nodup : forall mm, nodupk (mm_items mm) = true;
  H_map_mutate : forall m, Permutation (mm_items (m_mutate m)) (m_items m) /\ mm_fin (m_mutate m) = false;
  H_mut_set_finished : forall mm k v, mm_fin mm = true -> mm_set mm k v = None;
  H_mut_set : forall mm k v, mm_fin mm = false ->
      exists mm', mm_set mm k v = Some mm' /\ mm_fin mm' = false /\
                  Permutation (mm_items mm') (al_set k v (mm_items mm));
  H_mut_del_finished : forall mm k, mm_fin mm = true -> mm_del mm k = DelFinished;
  H_mut_del_absent : forall mm k, mm_fin mm = false -> memk k (mm_items mm) = false ->
      mm_del mm k = DelKeyError;
  H_mut_del : forall mm k, mm_fin mm = false -> memk k (mm_items mm) = true ->
      exists mm', mm_del mm k = DelOk mm' /\ mm_fin mm' = false /\
                  Permutation (mm_items mm') (al_del k (mm_items mm));
  H_mut_get : forall mm k, mm_get mm k = al_get k (mm_items mm);
  H_mut_len : forall mm, mm_len mm = zlen (mm_items mm);
  H_mut_finish : forall mm, Permutation (m_items (fst (mm_finish mm))) (mm_items mm) /\
                            Permutation (mm_items (snd (mm_finish mm))) (mm_items mm) /\
                            mm_fin (snd (mm_finish mm)) = true;
}.

(** ** The list instance *)

(** an association list with distinct keys, carried with its proof *)
Record lmap := { lm_items : al; lm_ok : nodupk lm_items = true }.
Record lmut := { lu_items : al; lu_fin : bool; lu_ok : nodupk lu_items = true }.

Definition lm_of (l : al) : lmap := {| lm_items := al_of l; lm_ok := nodupk_al_of l |}.

Definition lm_nil : lmap := {| lm_items := []; lm_ok := eq_refl |}.

Definition lu_set (mm : lmut) (k v : elem) : option lmut :=
  if lu_fin mm then None
  else Some {| lu_items := al_set k v (lu_items mm); lu_fin := false;
               lu_ok := nodupk_al_set k v _ (lu_ok mm) |}.

Definition lu_del (mm : lmut) (k : elem) : del_res lmut :=
  if lu_fin mm then DelFinished
  else if memk k (lu_items mm)
       then DelOk {| lu_items := al_del k (lu_items mm); lu_fin := false;
                     lu_ok := nodupk_al_del k _ (lu_ok mm) |}
       else DelKeyError.

Definition list_hash (l : list elem) : Z := 0%Z.   (* hashes are not modelled *)

Definition al_eq_items (a b : al) : bool :=
  forallb (fun kv => match al_get (fst kv) b with Some v => keq (snd kv) v | None => false end) a.

Definition ListLibs : Libs.
Proof.
  refine {|
    pvec := list elem; pv_list := fun l => l; pv_of := fun l => l; pv_len := zlen;
    pv_get := py_nth; pv_init := @removelast elem; pv_mset := py_set; pv_hash := list_hash;
    pev := list elem; ev_list := fun l => l; pv_evolver := fun l => l;
    ev_append := fun l x => l ++ [x]; ev_set := py_set; ev_get := py_nth; ev_len := zlen;
    ev_del_last := @removelast elem; ev_persistent := fun l => (l, l);
    plist := list elem; pl_list := fun l => l; pl_of := fun l => l; pl_cons := fun l x => x :: l;
    pl_first := @hd_error elem; pl_rest := @tl elem;
    pl_is_empty := fun l => match l with [] => true | _ => false end; pl_len := zlen; pl_hash := list_hash;
    pdeque := list elem; dq_list := fun l => l; dq_of := fun l => l; dq_extend := fun l xs => l ++ xs;
    dq_left := @hd_error elem; dq_popleft := @tl elem; dq_len := zlen; dq_hash := list_hash;
    pmap := lmap; m_items := lm_items; m_empty := lm_nil; m_of := lm_of;
    m_get := fun m k => al_get k (lm_items m); m_len := fun m => zlen (lm_items m);
    m_mutate := fun m => {| lu_items := lm_items m; lu_fin := false; lu_ok := lm_ok m |};
    m_hash := fun _ => 0%Z; keys_hash := fun _ => 0%Z; m_eq := fun a b => al_eq_items (lm_items a) (lm_items b);
    pmut := lmut; mm_items := lu_items; mm_fin := lu_fin; mm_set := lu_set; mm_del := lu_del;
    mm_get := fun mm k => al_get k (lu_items mm); mm_len := fun mm => zlen (lu_items mm);
    mm_finish := fun mm => ({| lm_items := lu_items mm; lm_ok := lu_ok mm |},
                            {| lu_items := lu_items mm; lu_fin := true; lu_ok := lu_ok mm |})
  |}; try (intros; reflexivity).
  - intros v i x. destruct (py_set v i x); reflexivity.
  - intros e i x. destruct (py_set e i x); reflexivity.
  - intros m. apply lm_ok.
  - intros mm. apply lu_ok.
  - intros m. simpl. split; reflexivity.
  - intros mm k v H. unfold lu_set. rewrite H. reflexivity.
  - intros mm k v H. unfold lu_set. rewrite H. eexists; split; [reflexivity|]. simpl. split; reflexivity.
  - intros mm k H. unfold lu_del. rewrite H. reflexivity.
  - intros mm k H1 H2. unfold lu_del. rewrite H1, H2. reflexivity.
  - intros mm k H1 H2. unfold lu_del. rewrite H1, H2. eexists; split; [reflexivity|]. simpl. split; reflexivity.
  - intros mm. simpl. repeat split; reflexivity.
Defined.
