(** C07 -- Sequence functions and their transducers agree with each other and the model.
    This file contains only statements, each closed by [exact], and Print Assumptions.

    Vocabulary (C07/Model.v, Spec.v, Mach.v):
      [xform A B]      a transducer: a function from reducing functions to reducing functions;
      [comp]           function composition, as basilisp.core/comp;
      [sem A B]        reference triple: [sF] the list function, [sE] what has been handed
                       downstream before completion, [sD] "finished after these inputs";
      [denotes x m]    for EVERY downstream reducing function, accumulator and input list:
                       feeding until Reduced and then completing once equals the downstream
                       process over [sF m l] (so downstream completion runs exactly once and
                       nothing is called after Reduced), the process stops on [l] iff
                       [sD m l] or downstream stopped on [sE m l], and the transducer never
                       touches the accumulator itself;
      [need D l]       length of the shortest non-empty prefix of [l] satisfying [D], else [length l]. *)
From Coq Require Import List Bool ZArith NArith Lia.
Import ListNotations.
From Verif Require Import C07.Model C07.Spec C07.Mach C07.Sem C07.Sem2 C07.Partial
                          C07.Drivers C07.Corr C07.Refuted C07.PipeProofs.

(** ** Composition *)
Theorem C07_comp : forall A B C (x1 : xform A B) (x2 : xform B C) m1 m2,
  denotes x1 m1 -> denotes x2 m2 -> denotes (comp x1 x2) (sem_comp m1 m2).
Proof. exact @comp_denotes. Qed.
Theorem C07_comp_guarded : forall A B C (G1 : list A -> Prop) (G2 : list B -> Prop)
    (x1 : xform A B) (x2 : xform B C) m1 m2,
  denotes_on G1 x1 m1 -> denotes_on G2 x2 m2 ->
  denotes_on (fun l => G1 l /\ G2 (sF m1 l) /\ G2 (sE m1 l)) (comp x1 x2) (sem_comp m1 m2).
Proof. exact @comp_denotes_on. Qed.

(** ** One instance per function: any element types, any functions/predicates, any input *)
Theorem C07_map : forall A B (f : A -> B), denotes (map_xf f) (sem_map f).
Proof. exact @map_denotes. Qed.
Theorem C07_map_indexed : forall A B (f : Z -> A -> B),
  denotes (map_indexed_xf f) (sem_map_indexed (fun i => f (Z.of_nat i))).
Proof. exact @map_indexed_denotes. Qed.
Theorem C07_filter : forall A (p : A -> bool), denotes (filter_xf p) (sem_filter p).
Proof. exact @filter_denotes. Qed.
Theorem C07_remove : forall A (p : A -> bool), denotes (remove_xf p) (sem_remove p).
Proof. exact @remove_denotes. Qed.
Theorem C07_keep : forall A B (f : A -> option B), denotes (keep_xf f) (sem_keep f).
Proof. exact @keep_denotes. Qed.
Theorem C07_keep_indexed : forall A B (f : Z -> A -> option B),
  denotes (keep_indexed_xf f) (sem_keep_indexed (fun i => f (Z.of_nat i))).
Proof. exact @keep_indexed_denotes. Qed.
Theorem C07_take : forall A (n : nat), denotes (@take_xf A (Z.of_nat n)) (sem_take n).
Proof. exact @take_denotes. Qed.
Theorem C07_take_while : forall A (p : A -> bool), denotes (take_while_xf p) (sem_take_while p).
Proof. exact @take_while_denotes. Qed.
Theorem C07_take_nth : forall A (n : nat), 1 <= n -> denotes (@take_nth_xf A (Z.of_nat n)) (sem_take_nth n).
Proof. exact @take_nth_denotes. Qed.
Theorem C07_drop : forall A (n : nat), denotes (@drop_xf A (Z.of_nat n)) (sem_drop n).
Proof. exact @drop_denotes. Qed.
Theorem C07_drop_while : forall A (p : A -> bool), denotes (drop_while_xf p) (sem_drop_while p).
Proof. exact @drop_while_denotes. Qed.
Theorem C07_interpose : forall A (sep : A), denotes (interpose_xf sep) (sem_interpose sep).
Proof. exact @interpose_denotes. Qed.
Theorem C07_partition_all : forall A (n : nat), 1 <= n ->
  denotes (@partition_all_xf A (Z.of_nat n)) (sem_partition_all n).
Proof. exact @partition_all_denotes. Qed.
Theorem C07_mapcat : forall A B (f : A -> list B), denotes (mapcat_xf f) (sem_mapcat f).
Proof. exact @mapcat_denotes. Qed.
Theorem C07_cat : forall A, denotes (@cat_xf A) sem_cat.
Proof. exact @cat_denotes. Qed.

(** distinct is right whenever set membership agrees with the equality used by the
    reference; on the current tree it does not (Python [==] identifies false/0, true/1) *)
Theorem C07_distinct : forall A (eqb : A -> A -> bool),
  denotes (distinct_xf (mem_of eqb)) (sem_distinct eqb).
Proof. exact @distinct_denotes. Qed.
Theorem C07_distinct_partial : forall A (eqb heqb : A -> A -> bool),
  denotes_on (fun l => distinct_guard eqb heqb l = true) (distinct_xf (mem_of heqb)) (sem_distinct eqb).
Proof. exact @distinct_partial. Qed.
Theorem C07_distinct_refuted :
  exists l : list val, fst (fst (into (distinct_xf hmem) l)) <> ref_distinct val_eqb l.
Proof. exact distinct_refuted. Qed.

(** dedupe and partition-by start from a keyword sentinel that is an ordinary value *)
Theorem C07_dedupe_partial : forall A (eqb : A -> A -> bool) (sentinel : A),
  denotes_on (fun l => dedupe_guard eqb sentinel l = true) (dedupe_xf eqb sentinel) (sem_dedupe eqb).
Proof. exact @dedupe_partial. Qed.
Theorem C07_dedupe_refuted :
  exists l : list val,
    fst (fst (into (dedupe_xf meqb kw_dedupe_sentinel) l)) <> ref_dedupe val_eqb l.
Proof. exact dedupe_refuted. Qed.
Theorem C07_partition_by_partial : forall A K (eqb : K -> K -> bool),
  (forall a, eqb a a = true) -> (forall a b, eqb a b = eqb b a) ->
  (forall a b c, eqb a b = true -> eqb b c = true -> eqb a c = true) ->
  forall (f : A -> K) (sentinel : K),
  denotes_on (fun l => partition_by_guard eqb f sentinel l = true)
             (partition_by_xf eqb f sentinel) (sem_partition_by eqb f).
Proof. exact @partition_by_partial. Qed.
Theorem C07_partition_by_refuted :
  exists l : list val,
    fst (fst (into (partition_by_xf meqb (fn1 0) kw_partition_by_sentinel) l))
    <> ref_partition_by val_eqb (fn1 0) l.
Proof. exact partition_by_refuted. Qed.
(** the premises of the three guarded theorems are met by ordinary inputs *)
Example C07_guards_nontrivial :
  dedupe_guard val_eqb kw_dedupe_sentinel [VNil; VNil; VBool false; VInt 1] = true /\
  partition_by_guard val_eqb (fn1 0%N) kw_partition_by_sentinel [VNil; VBool false; VInt 0; VKw 0%N] = true /\
  distinct_guard val_eqb heqb [VNil; VBool false; VInt 1; VInt 2; VKw 0%N] = true /\
  (forall a, val_eqb a a = true) /\ (forall a b, val_eqb a b = val_eqb b a) /\
  (forall a b c, val_eqb a b = true -> val_eqb b c = true -> val_eqb a c = true).
Proof.
  exact (conj eq_refl (conj eq_refl (conj eq_refl (conj val_eqb_refl (conj val_eqb_sym val_eqb_trans))))).
Qed.

(** ** The application forms: elements, inputs consumed, completion calls *)
Theorem C07_transduce : forall A B (G : list A -> Prop) (x : xform A B) (m : sem A B),
  denotes_on G x m -> forall l, (forall k, G (firstn k l)) ->
  transduce x (conj_rf B) ([], 0) l = ((sF m l, 1), need (sD m) l).
Proof. exact @transduce_conj. Qed.
(** with an arbitrary reducing function [f] (possibly returning Reduced itself) *)
Theorem C07_transduce_any_rf : forall A B (G : list A -> Prop) (x : xform A B) (m : sem A B),
  denotes_on G x m -> forall Acc (f : rf Acc B) (init : Acc) l, (forall k, G (firstn k l)) ->
  transduce x f init l =
    (exec_acc f init (sF m l), need (fun p => sD m p || halted f init (sE m p)) l).
Proof. exact @transduce_general. Qed.
Theorem C07_into : forall A B (G : list A -> Prop) (x : xform A B) (m : sem A B),
  denotes_on G x m -> forall l, (forall k, G (firstn k l)) ->
  into x l = ((sF m l, 1), need (sD m) l).
Proof. exact @into_correct. Qed.
Theorem C07_sequence : forall A B (G : list A -> Prop) (x : xform A B) (m : sem A B),
  denotes_on G x m -> forall l, (forall k, G (firstn k l)) ->
  sequence x l = (sF m l, 1, need (sD m) l).
Proof. exact @sequence_correct. Qed.
Theorem C07_eduction : forall A B (G : list A -> Prop) (x : xform A B) (m : sem A B),
  denotes_on G x m -> forall l, (forall k, G (firstn k l)) ->
  eduction x l = (sF m l, 1, need (sD m) l).
Proof. exact @eduction_correct. Qed.
(** infinite inputs: termination within the needed prefix, independent of the fuel *)
Theorem C07_transduce_stream : forall A B (x : xform A B) (m : sem A B), denotes x m ->
  forall (src : nat -> A) (fuel : nat), sD m (prefix src fuel) = true ->
  transduce_stream x (conj_rf B) ([], 0) src fuel =
    Some ((sF m (prefix src fuel), 1), need (sD m) (prefix src fuel)).
Proof. exact @transduce_stream_correct. Qed.
Theorem C07_transduce_stream_fuel : forall A B (x : xform A B) Acc (f : rf Acc B) init
    (src : nat -> A) fuel fuel' v, fuel <= fuel' ->
  transduce_stream x f init src fuel = Some v -> transduce_stream x f init src fuel' = Some v.
Proof. exact @transduce_stream_mono. Qed.

(** ** The lazy-seq arities *)
Theorem C07_lazy_form_map : forall A B (f : A -> B) l, lazy_map f l = ref_map f l.
Proof. exact @lazy_map_ref. Qed.
Theorem C07_lazy_form_map_indexed : forall A B (f : Z -> A -> B) l,
  lazy_map_indexed f l = ref_map_indexed (fun i => f (Z.of_nat i)) l.
Proof. exact @lazy_map_indexed_ref. Qed.
Theorem C07_lazy_form_filter : forall A (p : A -> bool) l, lazy_filter p l = ref_filter p l.
Proof. exact @lazy_filter_ref. Qed.
Theorem C07_lazy_form_remove : forall A (p : A -> bool) l, lazy_remove p l = ref_remove p l.
Proof. exact @lazy_remove_ref. Qed.
Theorem C07_lazy_form_keep : forall A B (f : A -> option B) l, lazy_keep f l = ref_keep f l.
Proof. exact @lazy_keep_ref. Qed.
Theorem C07_lazy_form_keep_indexed : forall A B (f : Z -> A -> option B) l,
  lazy_keep_indexed f l = ref_keep_indexed (fun i => f (Z.of_nat i)) l.
Proof. exact @lazy_keep_indexed_ref. Qed.
Theorem C07_lazy_form_take : forall A (l : list A) n, lazy_take (Z.of_nat n) l = ref_take n l.
Proof. exact @lazy_take_ref. Qed.
Theorem C07_lazy_form_take_while : forall A (p : A -> bool) l, lazy_take_while p l = ref_take_while p l.
Proof. exact @lazy_take_while_ref. Qed.
Theorem C07_lazy_form_take_nth : forall A (n : nat) (l : list A), 1 <= n ->
  lazy_take_nth (Z.of_nat n) l = ref_take_nth n l.
Proof. exact @lazy_take_nth_ref. Qed.
Theorem C07_lazy_form_drop : forall A (l : list A) n, lazy_drop (Z.of_nat n) l = ref_drop n l.
Proof. exact @lazy_drop_ref. Qed.
Theorem C07_lazy_form_drop_while : forall A (p : A -> bool) l, lazy_drop_while p l = ref_drop_while p l.
Proof. exact @lazy_drop_while_ref. Qed.
Theorem C07_lazy_form_interpose : forall A (sep : A) l, lazy_interpose sep l = ref_interpose sep l.
Proof. exact @lazy_interpose_ref. Qed.
Theorem C07_lazy_form_partition_all : forall A (n : nat) (l : list A),
  lazy_partition_all (Z.of_nat n) l = ref_partition_all n l.
Proof. exact @lazy_partition_all_ref. Qed.
Theorem C07_lazy_form_partition_by : forall A K (eqb : K -> K -> bool),
  (forall a, eqb a a = true) -> (forall a b, eqb a b = eqb b a) ->
  (forall a b c, eqb a b = true -> eqb b c = true -> eqb a c = true) ->
  forall (f : A -> K) l, lazy_partition_by eqb f l = ref_partition_by eqb f l.
Proof. exact @lazy_partition_by_ref. Qed.
Theorem C07_lazy_form_distinct_partial : forall A (eqb heqb : A -> A -> bool) l,
  (forall x y, In x l -> In y l -> heqb x y = eqb x y) ->
  lazy_distinct (mem_of heqb) l = ref_distinct eqb l.
Proof. exact @lazy_distinct_ref_on. Qed.
Theorem C07_lazy_form_distinct_refuted :
  exists l : list val, lazy_distinct hmem l <> ref_distinct val_eqb l.
Proof. exact lazy_distinct_refuted. Qed.
Theorem C07_lazy_form_dedupe : forall A (eqb : A -> A -> bool), (forall a b, eqb a b = eqb b a) ->
  forall l, lazy_dedupe eqb l = ref_dedupe eqb l.
Proof. exact @lazy_dedupe_ref. Qed.
Theorem C07_lazy_form_mapcat : forall A B (f : A -> list B) l, lazy_mapcat f l = ref_mapcat f l.
Proof. exact @lazy_mapcat_ref. Qed.
Theorem C07_lazy_form_iterate : forall A n (g : A -> A) x, iterate_take n g x = ref_iterate n g x.
Proof. exact @iterate_take_ref. Qed.

(** ** The concrete model checked by the correspondence meets the prescription: every
    pipeline built from the stage syntax of C07/Corr.v that does not compare elements
    (no distinct / dedupe / partition-by; take-nth and partition-all with n >= 1), every
    input, bounded or unbounded source, all five application forms *)
Theorem C07_pipeline_model_meets_spec : forall pipe input limit, pipe_ok pipe = true ->
  spec_ok (CPipe pipe input limit) (model (CPipe pipe input limit)) = true.
Proof. exact model_case_meets_spec. Qed.
Theorem C07_pipeline_denotes : forall pipe, pipe_ok pipe = true -> denotes (xf_pipe pipe) (sem_pipe pipe).
Proof. exact pipe_denotes. Qed.
Theorem C07_iterate_model_meets_spec : forall n table dflt x,
  spec_ok (CIterate n table dflt x) (model (CIterate n table dflt x)) = true.
Proof. exact model_iterate_meets_spec. Qed.
Example C07_pipe_ok_nontrivial :
  pipe_ok [SPartAll 2%N; SCat; SInterpose (VKw 4%N); STake 3%N; SMapIdx 0%N; SMapcat 2%N] = true.
Proof. exact eq_refl. Qed.

Print Assumptions C07_comp.
Print Assumptions C07_comp_guarded.
Print Assumptions C07_map.
Print Assumptions C07_map_indexed.
Print Assumptions C07_filter.
Print Assumptions C07_remove.
Print Assumptions C07_keep.
Print Assumptions C07_keep_indexed.
Print Assumptions C07_take.
Print Assumptions C07_take_while.
Print Assumptions C07_take_nth.
Print Assumptions C07_drop.
Print Assumptions C07_drop_while.
Print Assumptions C07_interpose.
Print Assumptions C07_partition_all.
Print Assumptions C07_mapcat.
Print Assumptions C07_cat.
Print Assumptions C07_distinct.
Print Assumptions C07_distinct_partial.
Print Assumptions C07_distinct_refuted.
Print Assumptions C07_dedupe_partial.
Print Assumptions C07_dedupe_refuted.
Print Assumptions C07_partition_by_partial.
Print Assumptions C07_partition_by_refuted.
Print Assumptions C07_guards_nontrivial.
Print Assumptions C07_transduce.
Print Assumptions C07_transduce_any_rf.
Print Assumptions C07_into.
Print Assumptions C07_sequence.
Print Assumptions C07_eduction.
Print Assumptions C07_transduce_stream.
Print Assumptions C07_transduce_stream_fuel.
Print Assumptions C07_lazy_form_map.
Print Assumptions C07_lazy_form_map_indexed.
Print Assumptions C07_lazy_form_filter.
Print Assumptions C07_lazy_form_remove.
Print Assumptions C07_lazy_form_keep.
Print Assumptions C07_lazy_form_keep_indexed.
Print Assumptions C07_lazy_form_take.
Print Assumptions C07_lazy_form_take_while.
Print Assumptions C07_lazy_form_take_nth.
Print Assumptions C07_lazy_form_drop.
Print Assumptions C07_lazy_form_drop_while.
Print Assumptions C07_lazy_form_interpose.
Print Assumptions C07_lazy_form_partition_all.
Print Assumptions C07_lazy_form_partition_by.
Print Assumptions C07_lazy_form_distinct_partial.
Print Assumptions C07_lazy_form_distinct_refuted.
Print Assumptions C07_lazy_form_dedupe.
Print Assumptions C07_lazy_form_mapcat.
Print Assumptions C07_lazy_form_iterate.
Print Assumptions C07_pipeline_model_meets_spec.
Print Assumptions C07_pipeline_denotes.
Print Assumptions C07_iterate_model_meets_spec.
Print Assumptions C07_pipe_ok_nontrivial.
