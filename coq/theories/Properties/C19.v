(** C19 -- EDN, JSON and bencode codecs invert themselves and never mis-frame.
    This file contains only statements, each closed by [exact] (after the witness, for the
    existential ones), and Print Assumptions. *)
From Coq Require Import List Bool ZArith NArith.
Import ListNotations.
From Verif Require Import Common.ListX Gen.Tables C19.Bencode C19.Edn C19.Json C19.Spec
  C19.BencodeProofs C19.EdnProofs C19.JsonProofs.
Local Open Scope N_scope.

(** Obligations on the tables regenerated from edn.lpy / bencode.lpy *)
Theorem C19_table_bencode_tokens : bencode_tokens = [105; 108; 100; 101; 58].
Proof. exact eq_refl. Qed.
(** every escape the writer emits is a backslash and a character the reader maps back to the
    escaped one; the quote and the backslash are among the escaped characters *)
Theorem C19_table_edn_escapes : EdnProofs.table_ok = true.
Proof. exact edn_escape_tables_ok. Qed.
(** the characters allowed in guarded names are no delimiters (edn.lpy dispatch-chars) *)
Theorem C19_table_edn_dispatch_chars :
  forallb EdnProofs.safe_facts (map N.of_nat (seq 33 94)) = true.
Proof. exact safe_facts_all. Qed.

(** ** bencode.  [wf]: no nil; in every dict the keys are strictly increasing byte strings
    (the order [encode] itself emits).  For all values, all byte lists, no size bound. *)
Theorem C19_bencode_fuel_sufficient : forall data, decode data <> DFuel /\ decode_all data <> None.
Proof. exact (fun data => conj (decode_fuel data) (decode_all_fuel data)). Qed.

Theorem C19_bencode_roundtrip : forall v r, wf v = true -> decode (encode v ++ r) = DVal v r.
Proof. exact bencode_roundtrip. Qed.

Theorem C19_bencode_prefix_free : forall v p, wf v = true ->
  (exists q, q <> [] /\ encode v = p ++ q) -> decode p = DInc p.
Proof. exact bencode_prefix_free. Qed.

Theorem C19_bencode_stream : forall msgs k, forallb wf msgs = true ->
  decode_all (firstn k (concat (map encode msgs))) = Some (split_stream msgs k).
Proof. exact bencode_stream. Qed.

(** the writer is injective and its image is a prefix code: no encoding is a proper prefix of
    another, and a byte stream is the concatenation of at most one sequence of messages *)
Theorem C19_bencode_prefix_code : forall v w q, wf v = true -> wf w = true ->
  encode v = encode w ++ q -> v = w /\ q = [].
Proof. exact encode_prefix_code. Qed.
Theorem C19_bencode_encode_injective : forall v w, wf v = true -> wf w = true ->
  encode v = encode w -> v = w.
Proof. exact encode_injective. Qed.
Theorem C19_bencode_stream_injective : forall ms ns,
  forallb wf ms = true -> forallb wf ns = true ->
  concat (map encode ms) = concat (map encode ns) -> ms = ns.
Proof. exact stream_injective. Qed.
Theorem C19_bencode_encode_is_reference : forall v, wf v = true -> encode v = ref_encode v.
Proof. exact encode_ref. Qed.

(** the numerals [encode] prints are canonical BEP-3 numerals ("0", or an optional "-", a
    digit 1-9 and more digits) denoting the integer *)
Theorem C19_bencode_numeral_canonical : forall z,
  canonical_numeral (dec_Z z) = true /\ numeral_value (dec_Z z) = z.
Proof. exact numeral_canonical. Qed.

(** dict entries in any order with pairwise distinct keys ([dkeys]): what comes back is the
    key-sorted form; in particular for what Lisp hands to [encode] (strings, keywords and
    symbols become the UTF-8 bytes of their text, also as map keys) *)
Theorem C19_bencode_roundtrip_any_order : forall v r,
  dkeys v = true -> decode (encode v ++ r) = DVal (norm v) r.
Proof. exact bencode_roundtrip_any_order. Qed.

Theorem C19_bencode_coercion : forall x r,
  dkeys (inj x) = true -> decode (encode_l x ++ r) = DVal (norm (inj x)) r.
Proof. exact bencode_coercion. Qed.

Example C19_bencode_coercion_nonvacuous :
  let x := LMap [(LKKw None [111; 112], LStr [233]); (LKStr [105; 100], LVec [LInt 1; LSym (Some [110]) [120]])] in
  dkeys (inj x) = true /\
  norm (inj x) = BDict [([105; 100], BList [BInt 1; BStr [110; 47; 120]]); ([111; 112], BStr [195; 169])].
Proof. exact (conj eq_refl eq_refl). Qed.

(** the premises are met by a nested value and a two-message stream cut inside the second *)
Example C19_bencode_nonvacuous :
  let m1 := BDict [([97], BList [BInt (-7); BStr []]); ([98], BStr [101])] in
  let m2 := BInt 10 in
  wf m1 = true /\ wf m2 = true /\
  decode_all (firstn 21 (concat (map encode [m1; m2]))) = Some ([m1], [105; 49]).
Proof. exact bencode_nonvacuous. Qed.

(** ** EDN.  [guard]: names over safe ASCII characters, floats in exponent-free repr form
    (and, for the EDN reader, keyword names without '.').  [pf] is CPython's
    repr(float(.)), [isr t] says t is what repr prints for some float. *)
Theorem C19_edn_string_escape_roundtrip : forall d s acc rest,
  read_str_body d (escape s ++ 34 :: rest) acc = ROk (acc ++ s, rest).
Proof. exact read_str_escape. Qed.

Theorem C19_edn_roundtrip_partial : forall (pf : str -> option str) (isr : str -> bool),
  (forall t, isr t = true -> pf t = Some t) ->
  forall v, guard isr Edn v = true -> read_string pf Edn (write v) = ROk v.
Proof. exact (fun pf isr H v => edn_roundtrip pf isr H Edn v). Qed.

Theorem C19_edn_via_lisp_reader_partial : forall (pf : str -> option str) (isr : str -> bool),
  (forall t, isr t = true -> pf t = Some t) ->
  forall v, guard isr Lisp v = true -> read_string pf Lisp (write v) = ROk v.
Proof. exact (fun pf isr H v => edn_roundtrip pf isr H Lisp v). Qed.

Example C19_edn_guard_nonvacuous : forall d, guard (fun _ => true) d EdnProofs.sample = true.
Proof. exact sample_guard. Qed.

(** F-19a: the float the writer prints as 1e+23 reads back as the integer 1 *)
Theorem C19_edn_float_exp_refuted :
  exists tok, forall pf, read_string pf Edn (write (EFloat tok)) = ROk (EInt 1).
Proof. exists tok_1e23. exact edn_float_exp_reads_int. Qed.

(** F-19b: the keyword :a.b is written as ":a.b", which the EDN reader rejects (the Lisp
    reader accepts it) *)
Theorem C19_edn_kw_dot_refuted :
  exists nm, forall pf, read_string pf Edn (write (EKw None nm)) = RErr 1
                        /\ read_string pf Lisp (write (EKw None nm)) = ROk (EKw None nm).
Proof. exists kw_a_dot_b. exact (fun pf => conj (edn_kw_dot_rejected pf) (lisp_kw_dot_accepted pf)). Qed.

(** F-19c (repaired): through the Lisp reader the float text 1e+23 used to become the integer
    10^23; the reader now hands every exponent literal to float() *)
Theorem C19_edn_via_lisp_float_exp :
  exists tok, forall pf, pf tok = Some tok -> read_string pf Lisp (write (EFloat tok)) = ROk (EFloat tok).
Proof. exists tok_1e23. exact lisp_float_exp_reads_float. Qed.

(** ** JSON: with Python's json.dumps/json.loads inverse on trees with distinct object keys,
    read-str (write-str v) is the documented coercion of v *)
Theorem C19_json_coercion : forall (dumps : pj -> str) (loads : str -> option pj),
  (forall p, pj_wf p = true -> loads (dumps p) = Some p) ->
  forall v, jkeys_distinct v = true -> read_str loads (write_str dumps v) = Some (coerce v).
Proof. exact json_coercion. Qed.

Example C19_json_nonvacuous :
  jkeys_distinct (JMap [(JKKw (Some [110]) [97], JList [JKw None [107]; JSet [JInt 1]]); (JKStr [98], JNil)]) = true.
Proof. exact eq_refl. Qed.

Print Assumptions C19_table_bencode_tokens.
Print Assumptions C19_table_edn_escapes.
Print Assumptions C19_table_edn_dispatch_chars.
Print Assumptions C19_bencode_fuel_sufficient.
Print Assumptions C19_bencode_roundtrip.
Print Assumptions C19_bencode_prefix_free.
Print Assumptions C19_bencode_stream.
Print Assumptions C19_bencode_prefix_code.
Print Assumptions C19_bencode_encode_injective.
Print Assumptions C19_bencode_stream_injective.
Print Assumptions C19_bencode_encode_is_reference.
Print Assumptions C19_bencode_numeral_canonical.
Print Assumptions C19_bencode_roundtrip_any_order.
Print Assumptions C19_bencode_coercion.
Print Assumptions C19_bencode_coercion_nonvacuous.
Print Assumptions C19_bencode_nonvacuous.
Print Assumptions C19_edn_string_escape_roundtrip.
Print Assumptions C19_edn_roundtrip_partial.
Print Assumptions C19_edn_via_lisp_reader_partial.
Print Assumptions C19_edn_guard_nonvacuous.
Print Assumptions C19_edn_float_exp_refuted.
Print Assumptions C19_edn_kw_dot_refuted.
Print Assumptions C19_edn_via_lisp_float_exp.
Print Assumptions C19_json_coercion.
Print Assumptions C19_json_nonvacuous.
