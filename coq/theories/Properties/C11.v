(** C11 -- Dynamic bindings are scoped, thread-local and conveyed to futures.
    Only statements, each closed by [exact] (the table obligations by [reflexivity]), and
    Print Assumptions.

    [cfg] = which Vars are ^:dynamic, their validators, their roots (any).  A binding map [m]
    is the list of (Var, value) in the order the map's iterator yields them (any order).
    [tstate] = one thread's Var stacks + frame stack; [inv] holds of the state of a new
    thread and is preserved by every step.  Shape 1 of push_thread_bindings is the repaired
    code; the table obligations tie the shapes to runtime.py / core.lpy as read on this run. *)
From Coq Require Import List Bool ZArith NArith Permutation.
Import ListNotations.
From Verif Require Import Gen.Tables C11.Bindings C11.Spec C11.Proofs C11.ProofsHist C11.ProofsSpec
  C11.Corr.

(** obligations on what is re-read from the source on every run *)
Theorem C11_table_push_rolls_back : push_thread_bindings_shape = 1%N.
Proof. reflexivity. Qed.
Theorem C11_table_pop_shape : pop_thread_bindings_shape = 1%N.
Proof. reflexivity. Qed.
Theorem C11_table_var_shape : var_bindings_shape = 1%N.
Proof. reflexivity. Qed.
Theorem C11_table_binding_forms : binding_forms_shape = 1%N.
Proof. reflexivity. Qed.

(** the state of a new thread satisfies the invariant, and every step of every history
    (well nested or not; maps have distinct keys) preserves it *)
Theorem C11_invariant : forall c,
  inv c clean /\
  (forall st o, inv c st -> wfop o -> inv c (fst (lstep c 1 st o))) /\
  (forall h st, inv c st -> Forall wfop h -> inv c (run c 1 h st)).
Proof. exact (fun c => conj (inv_clean c) (conj (inv_step c) (inv_run c))). Qed.

(** A binding form (binding / with-bindings* ) that was established, around ANY well-nested
    body (any depth, any Vars, inner forms that fail, set!, exits by exception), left
    normally (b = false) or by an exception (b = true): the frame stack is as on entry; every
    Var's stack has its entry length and entry contents below the top; every Var the form
    binds, and every Var the body does not set!, has exactly its entry stack and value. *)
Theorem C11_well_nested_restores : forall c m body b st,
  inv c st -> NoDup (keys m) -> push_okb c m = true -> balanced c body ->
  let st' := run c 1 (WEnter m :: body ++ [WLeave b]) st in
  inv c st' /\ frames st' = frames st /\
  (forall u, length (stk st' u) = length (stk st u) /\ tl (stk st' u) = tl (stk st u)) /\
  (forall u, memb u (keys m) = true \/ ~ In u (setvars body) ->
             stk st' u = stk st u /\ value c st' u = value c st u).
Proof. exact well_nested_restores. Qed.

(** ... hence the whole thread state when the body only set!s Vars the form binds *)
Theorem C11_well_nested_restores_all : forall c m body b st,
  inv c st -> NoDup (keys m) -> push_okb c m = true -> balanced c body ->
  (forall u, In u (setvars body) -> In u (keys m)) ->
  steq (run c 1 (WEnter m :: body ++ [WLeave b]) st) st.
Proof. exact well_nested_restores_all. Qed.

(** Establishing a form fails half way (a non-dynamic Var or a rejected value at ANY position
    of ANY iteration order, after any number of successful pushes): an exception is raised
    and the thread state is exactly the entry state.  No premise on [st]. *)
Theorem C11_failed_push_restores : forall c m st,
  NoDup (keys m) -> push_okb c m = false ->
  exists st' code, push_thread_bindings c 1 m st = (st', code) /\ code <> 0%N /\
    frames st' = frames st /\
    forall u, stk st' u = stk st u /\ value c st' u = value c st u.
Proof. exact failed_push_restores. Qed.

(** the code before the repair (shape 0) violates it: (binding [v0 1  v3 2] ...) with v3 not
    dynamic, v0 first in iteration order, leaves v0 = 1 in the thread *)
Theorem C11_partial_push_leak_refuted :
  exists (m : list (var * val)) (v : var),
    NoDup (keys m) /\ push_okb cfg_w m = false /\
    snd (push_thread_bindings cfg_w 0 m clean) <> 0%N /\
    value cfg_w (fst (push_thread_bindings cfg_w 0 m clean)) v <> value cfg_w clean v.
Proof. exact partial_push_leak_refuted. Qed.

(** the iteration order of the map is irrelevant: same success, same stacks, same values *)
Theorem C11_push_order_irrelevant : forall c m m' st, NoDup (keys m) -> Permutation m m' ->
  let r := push_thread_bindings c 1 m st in
  let r' := push_thread_bindings c 1 m' st in
  (snd r = 0%N <-> snd r' = 0%N) /\
  (forall u, stk (fst r) u = stk (fst r') u) /\
  (forall u, value c (fst r) u = value c (fst r') u) /\
  Permutation (concat (frames (fst r))) (concat (frames (fst r'))).
Proof. exact push_order_irrelevant. Qed.

(** set! replaces the top of the current thread's stack of that Var and nothing else; it
    succeeds only on a thread-bound Var with an accepted value; otherwise nothing changes *)
Theorem C11_set_bang_innermost : forall c v x st,
  let st' := fst (set_bang c v x st) in
  frames st' = frames st /\
  (forall u, u <> v -> stk st' u = stk st u) /\
  tl (stk st' v) = tl (stk st v) /\
  (snd (set_bang c v x st) = 0%N ->
     thread_bound c st v = true /\ valid c v x = true /\ value c st' v = x) /\
  (snd (set_bang c v x st) <> 0%N -> st' = st).
Proof. exact set_bang_innermost. Qed.

(** threads: whatever the other threads do, in whatever interleaving, a thread's state (so
    every deref in it) is unchanged by steps that do not target it *)
Theorem C11_thread_isolation : forall c sched g u,
  (forall t o, In (t, o) sched -> target t o <> u) -> grun c 1 sched g u = g u.
Proof. exact (fun c => thread_isolation c 1). Qed.

(** conveyance: establishing the snapshot in the worker never fails; the work sees the
    creator's value of every Var the creator had bound, and of EVERY Var when the worker has
    no bindings of its own (pool thread, new thread) *)
Theorem C11_conveyance : forall c cr wk, inv c cr ->
  exists st1, push_thread_bindings c 1 (snapshot c cr) wk = (st1, 0%N) /\
    (forall v, value c st1 v = if thread_bound c cr v then value c cr v else value c wk v) /\
    ((forall u, stk wk u = []) -> forall v, value c st1 v = value c cr v).
Proof. exact conveyance. Qed.

(** ... and afterwards the worker thread is exactly as before (so set! inside conveyed work
    never reaches the creator or later jobs) *)
Theorem C11_conveyed_work_restores : forall c g t w work,
  inv c (g t) -> inv c (g w) -> balanced c work ->
  (w = t \/ forall u, stk (g w) u = []) ->
  steq (gstep c 1 g t (GSpawn true w work) w) (g w).
Proof. exact conveyed_work_restores. Qed.

(** the model refines the lexical-discipline reference (Spec.v) on EVERY history: same
    result (or one of the failure kinds the reference allows), related states, hence the
    same value of every Var after every step *)
Theorem C11_refines_lexical_step : forall c st th o, R st th -> wfth th -> wfop o ->
  let r := lstep c 1 st o in
  let s := sstep (dyn c) (valid c) th (ProofsSpec.erase o) in
  R (fst r) (fst s) /\ wfth (fst s) /\
  (snd s = [] -> snd r = 0%N) /\ (snd s <> [] -> In (snd r) (snd s)).
Proof. exact refines_step. Qed.
Theorem C11_refines_lexical : forall c h st th, R st th -> wfth th -> Forall wfop h ->
  R (run c 1 h st) (srun (dyn c) (valid c) (map ProofsSpec.erase h) th) /\
  forall v, value c (run c 1 h st) v
            = svalue (dyn c) (root c) (srun (dyn c) (valid c) (map ProofsSpec.erase h) th) v.
Proof. exact refines_run. Qed.

(** the executable model the correspondence check evaluates moves states as [gstep] *)
Theorem C11_corr_model_is_gstep : forall g t o, inv corr_cfg (g t) ->
  forall u, fst (fst (mstep g t o)) u = gstep corr_cfg 1 g t o u.
Proof. exact mstep_is_gstep. Qed.

(** non-vacuity: a depth-3 well-nested history with a failing inner form, set! on an outer
    Var and an exit by exception, from a state meeting the invariant *)
Example C11_nonvacuous :
  inv cfg_w clean /\ balanced cfg_w ex_body /\
  map (value cfg_w (run cfg_w 1 (WEnter [(0%N, 1%Z)] :: ex_body ++ [WLeave false]) clean))
      [0%N; 1%N; 2%N; 4%N] = [100%Z; 200%Z; 300%Z; 500%Z].
Proof. exact nonvacuous. Qed.

Print Assumptions C11_table_push_rolls_back.
Print Assumptions C11_table_pop_shape.
Print Assumptions C11_table_var_shape.
Print Assumptions C11_table_binding_forms.
Print Assumptions C11_invariant.
Print Assumptions C11_well_nested_restores.
Print Assumptions C11_well_nested_restores_all.
Print Assumptions C11_failed_push_restores.
Print Assumptions C11_partial_push_leak_refuted.
Print Assumptions C11_push_order_irrelevant.
Print Assumptions C11_set_bang_innermost.
Print Assumptions C11_thread_isolation.
Print Assumptions C11_conveyance.
Print Assumptions C11_conveyed_work_restores.
Print Assumptions C11_refines_lexical_step.
Print Assumptions C11_refines_lexical.
Print Assumptions C11_corr_model_is_gstep.
Print Assumptions C11_nonvacuous.
