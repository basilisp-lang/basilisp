(** C02 -- sub-expressions are evaluated left to right, exactly once.
    Only statements, each closed by [exact], and Print Assumptions. *)
From Coq Require Import List ZArith NArith Bool.
Import ListNotations.
From Verif Require Import C01.Lisp C01.Py C01.Gen C01.Sim C01.Top.
From Verif Require C01.FLisp C01.FCorr C01.FRefuted.
From Verif Require C01L.LLisp C01L.LGen C01L.LTop.
From Verif Require C01X.XLisp C01X.XGen C01X.XTop.
From Verif Require C01C.CLisp C01C.CGen C01C.CTop.

(** PARTIAL: for programs without a hoisting hazard the compiled code produces exactly the
    source-order effect trace (every traced sub-expression on the taken path once, none on
    untaken branches). *)
Theorem C02_order_partial : forall e v tr,
  eval (fun _ => None) e = Some (v, tr) -> hazard_free e = true -> exists v', run e = Some (v', tr).
Proof. exact (fun e v tr He Hh => ex_intro _ v (Top.compile_correct e v tr He Hh)). Qed.

(** REFUTED in general: dependencies of a later argument are emitted before the inline
    expression of an earlier argument.  Witness: (vector (t 1) (let* [x (t 2)] x)). *)
Theorem C02_hoist_refuted :
  exists e v tr tr', eval (fun _ => None) e = Some (v, tr) /\ run e = Some (v, tr') /\ tr <> tr'.
Proof. exact Top.hoist_refuted. Qed.

(** with loop*/recur: loop initialisers in order, recur arguments left to right, every
    iteration's effects in source order (trace component of C01_compile_correct_loops_partial) *)
Theorem C02_order_loops_partial : forall fuel e v tr,
  LLisp.leval fuel (fun _ => None) e = Some (LLisp.OVal v, tr) -> LGen.hazard_free e = true ->
  exists m, forall m', (m <= m')%nat -> LGen.lrun m' e = Some (v, tr).
Proof. exact LTop.lcompile_correct. Qed.

(** with throw and try/catch/finally: the effects performed before an exception is raised, by
    the handler and by the finally clause happen in source order, and nothing after the raise
    point runs, also when the exception leaves the program (trace component of
    C01_compile_correct_exceptions_partial) *)
Theorem C02_order_exceptions_partial : forall fuel e o tr,
  XLisp.xeval fuel (fun _ => None) e = Some (o, tr) -> XGen.hazard_free e = true ->
  match o with
  | XLisp.OVal v => exists m, forall m', (m <= m')%nat -> XGen.xrun m' e = Some (XGen.XRVal v tr)
  | XLisp.OExc c _ => exists m, forall m', (m <= m')%nat -> XGen.xrun m' e = Some (XGen.XRExc c tr)
  | XLisp.ORec _ => True
  end.
Proof. exact XTop.xcompile_correct. Qed.
Example C02_effects_around_exceptions :
  XGen.hazard_free XTop.caught = true /\
  XLisp.xeval 30 (fun _ => None) XTop.caught = Some (XLisp.OVal (VExc 1 (VInt 7)), [VInt 1; VInt 3; VInt 4]) /\
  XGen.xrun 30 XTop.caught = Some (XGen.XRVal (VExc 1 (VInt 7)) [VInt 1; VInt 3; VInt 4]).
Proof. exact XTop.caught_ok. Qed.

(** with fn* closures and invocation: the function position and the arguments of a call are
    evaluated left to right before the call, the effects of a function body happen at each call
    (not at definition), in source order (trace component of C01_compile_correct_closures_partial) *)
Theorem C02_order_closures_partial : forall fuel e v tr,
  CLisp.ceval fuel [] e = Some (v, tr) -> CGen.hazard_free e = true ->
  exists m, forall m', (m <= m')%nat -> CGen.crun m' e = Some (CLisp.obs_of v, tr).
Proof. exact CTop.ccompile_correct. Qed.
Example C02_effects_of_calls :
  CGen.hazard_free CTop.adder = true /\
  CGen.ceval_obs 30 CTop.adder =
    Some (FLisp.OVec [FLisp.OVec [FLisp.OInt 1; FLisp.OInt 2; FLisp.OInt 5]; FLisp.OVec [FLisp.OInt 1; FLisp.OInt 3; FLisp.OInt 5]],
          [FLisp.OInt 5; FLisp.OInt 3; FLisp.OInt 5]) /\
  CGen.crun 30 CTop.adder = CGen.ceval_obs 30 CTop.adder.
Proof. exact CTop.adder_ok. Qed.

(** the same witness as a collection literal of the full fragment *)
Theorem C02_hoist_literal_refuted :
  exists e, FCorr.spec e = FLisp.RVal (FLisp.OVec [FLisp.OInt 1; FLisp.OInt 2]) [FLisp.OInt 1; FLisp.OInt 2]
            /\ FCorr.model e = FLisp.RVal (FLisp.OVec [FLisp.OInt 1; FLisp.OInt 2]) [FLisp.OInt 2; FLisp.OInt 1] /\ FCorr.tag e = 1%N.
Proof. exact FRefuted.hoist_refuted_full. Qed.

(** a tail recur inside try/finally: the loop locals are rebound before the finally runs *)
Theorem C02_recur_in_try_refuted :
  exists e, FCorr.spec e = FLisp.RVal (FLisp.OInt 2) [FLisp.OInt 0; FLisp.OInt 1; FLisp.OInt 2]
            /\ FCorr.model e = FLisp.RVal (FLisp.OInt 2) [FLisp.OInt 1; FLisp.OInt 2; FLisp.OInt 2] /\ FCorr.tag e = 16%N.
Proof. exact FRefuted.recur_in_try_refuted. Qed.

Print Assumptions C02_order_partial.
Print Assumptions C02_order_loops_partial.
Print Assumptions C02_recur_in_try_refuted.
Print Assumptions C02_hoist_literal_refuted.
Print Assumptions C02_hoist_refuted.
Print Assumptions C02_order_exceptions_partial.
Print Assumptions C02_effects_around_exceptions.
Print Assumptions C02_order_closures_partial.
Print Assumptions C02_effects_of_calls.
