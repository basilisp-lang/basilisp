(** C09 -- Syntax-quote is hygienic and destructuring binds what nth/get would return.
    This file contains only statements, each closed by [exact], and Print Assumptions. *)
From Coq Require Import List Bool ZArith NArith String.
Import ListNotations.
From Verif Require Import Common.ListX Gen.Tables C09.DLang C09.Destructure C09.DSpec C09.DProofs
  C09.Values C09.SyntaxQuote C09.SQSpec C09.SQProofs C09.Corr C09.Refuted C09.TableProofs.

(** * Obligations on what is regenerated from runtime.py / reader.py *)
Theorem C09_table_special_forms :
  forallb (fun x => mem x sq_special_forms) TableProofs.required_special = true
  /\ mem amp sq_special_forms = false.
Proof. exact TableProofs.special_forms_ok. Qed.
Theorem C09_table_builders : TableProofs.model_builders = sq_builders.
Proof. exact TableProofs.builders_ok. Qed.
Theorem C09_table_shapes : sq_resolve_shape = 1%N /\ sq_expand_shape = 1%N.
Proof. exact TableProofs.shapes_ok. Qed.

(** * Destructuring.  For EVERY oracle O (nth, nthnext, get, seq?, ...), every pattern of any
    nesting, every init expression, every environment, every gensym counter: on the names a
    user can write, the let* binding list emitted by (destructure [p e]) computes the
    environment [bind p (eval e)] of the specification, or fails with the same class. *)
Theorem C09_destructure_sound :
  forall (O : oracle) (datum : expr O -> val O) (p : pat O) (e : expr O) (n : N) (em es : env O),
    user_pat p = true -> user_expr e = true -> distinct_binders p -> agree em es ->
    sim (eval_let (fst (destructure O cur_shape datum p e n)) em)
        (v <- eval es e ;; bind O p v es).
Proof. exact DProofs.destructure_sound_distinct. Qed.

(** the same under the weaker executable guard (duplicate plain binders allowed: later wins) *)
Theorem C09_destructure_sound_alias_ok :
  forall (O : oracle) (datum : expr O -> val O) (p : pat O) (e : expr O) (n : N) (em es : env O),
    user_pat p = true -> user_expr e = true -> alias_ok p = true -> agree em es ->
    sim (eval_let (fst (destructure O cur_shape datum p e n)) em)
        (v <- eval es e ;; bind O p v es).
Proof. exact DProofs.destructure_sound. Qed.

Theorem C09_distinct_binders_meet_guard :
  forall (O : oracle) (p : pat O), distinct_binders p -> alias_ok p = true.
Proof. exact (fun O => proj1 (DProofs.distinct_alias_ok O)). Qed.

(** the let macro with any number of binding pairs *)
Theorem C09_let_sound :
  forall (O : oracle) (datum : expr O -> val O) (bs : list (pat O * expr O)) (n : N) (em es : env O),
    let_ok O bs = true -> agree em es ->
    sim (eval_let (fst (let_bindings O cur_shape datum bs n)) em) (bind_let O bs es).
Proof. exact DProofs.let_sound. Qed.

(** fn parameters and loop bindings (also after recur): once the parameter / loop variable is
    bound to a value, the let* in the body binds what the pattern binds on that value *)
Theorem C09_fn_loop_block_sound :
  forall (O : oracle) (datum : expr O -> val O) (p : pat O) (n : N) d n' (em es : env O) (v : val O),
    mkdef O p n = (d, n') -> user_pat p = true -> alias_ok p = true -> agree em es ->
    sim (eval_let (dbind_ns O cur_shape datum d) ((dname O d, v) :: em)) (bind O p v es).
Proof. exact DProofs.param_block_sound. Qed.

(** the emitted list binds only binders of the pattern and temporaries allocated for it *)
Theorem C09_destructure_binds_only_pattern_names :
  forall (O : oracle) (datum : expr O -> val O) (p : pat O) (n : N) d n',
    mkdef O p n = (d, n') ->
    (n <= n')%N /\
    forall y, In y (map fst (dbind O cur_shape datum d)) ->
              DProofs.usr_in (binders p) y \/ DProofs.tmp_in n n' y.
Proof. exact DProofs.dbind_names. Qed.

Theorem C09_or_default_iff_absent : forall l k d,
  (massoc k l = None -> c_get (VMap l) k d = Ok d)
  /\ (forall v, massoc k l = Some v -> c_get (VMap l) k d = Ok v).
Proof. exact DProofs.or_default_iff_absent. Qed.

(** [:or] is keyed on the NAME being in the :or map, never on the truthiness of the default: for
    a :keys / :strs / :syms element and a {sym key} entry alike, a binder with an :or entry whose
    key is absent from the map is bound to the default's value [dv], whatever [dv] is (false, nil). *)
Theorem C09_or_default_any_value :
  forall (sh : shape) (datum : expr C -> cval) (nm : name) (ors : list (str * expr C)) (x : str)
         (ns : option str) (de : expr C) (l : list (cval * cval)) (dv : cval) (en : env C),
    assoc x ors = Some de ->
    lookup nm en = Some (VMap l) ->
    eval en de = Ok dv ->
    (kw_binding C nm ors (ns, x) = (NU x, @EGet3 C (EVar nm) (@EConst C (VKw ns x)) de)
     /\ (massoc (VKw ns x) l = None -> eval en (snd (kw_binding C nm ors (ns, x))) = Ok dv))
    /\ (str_binding C nm ors x = (NU x, @EGet3 C (EVar nm) (@EConst C (VStr x)) de)
        /\ (massoc (VStr x) l = None -> eval en (snd (str_binding C nm ors x)) = Ok dv))
    /\ (sym_binding C nm ors (ns, x) = (NU x, @EGet3 C (EVar nm) (@EConst C (VSym ns x)) de)
        /\ (massoc (VSym ns x) l = None -> eval en (snd (sym_binding C nm ors (ns, x))) = Ok dv))
    /\ (forall k kv, named_binding C cur_shape datum nm ors k (NU x) = (NU x, @EGet3 C (EVar nm) k de)
        /\ (eval en k = Ok kv -> massoc kv l = None ->
            eval en (snd (named_binding C cur_shape datum nm ors k (NU x))) = Ok dv)).
Proof. exact (fun _ => DProofs.or_default_any_value). Qed.

Example C09_or_falsey_defaults :
  let run d v := (finish [Refuted.a_] (model_let cur_shape (Refuted.w_or d v)),
                  finish [Refuted.a_] (bind_let C (Refuted.w_or d v) [])) in
  run (Some (VBool false)) None = (OVals [VBool false], OVals [VBool false])
  /\ run (Some VNil) None = (OVals [VNil], OVals [VNil])
  /\ run (Some (VInt 0)) None = (OVals [VInt 0], OVals [VInt 0])
  /\ run None None = (OVals [VNil], OVals [VNil])
  /\ run (Some (VBool false)) (Some VNil) = (OVals [VNil], OVals [VNil])
  /\ run (Some (VInt 1)) (Some (VBool false)) = (OVals [VBool false], OVals [VBool false])
  /\ out_eqb (OVals [VBool false]) (OVals [VNil]) = false.
Proof. exact Refuted.or_falsey_defaults. Qed.

Example C09_dup_binders_later_wins :
  let_ok C Refuted.w_dup = true
  /\ finish [Refuted.a_] (model_let cur_shape Refuted.w_dup) = OVals [VInt 2]
  /\ finish [Refuted.a_] (bind_let C Refuted.w_dup []) = OVals [VInt 2].
Proof. exact Refuted.dup_binders_later_wins. Qed.

Example C09_dup_alias_outside_guard :
  alias_ok (fst (hd (@PSym C Refuted.a_, @EConst C VNil) Refuted.w_alias)) = false
  /\ finish [Refuted.a_; Refuted.b_] (model_let cur_shape Refuted.w_alias)
     = OVals [VVec [VInt 7; VInt 8]; VInt 8]
  /\ finish [Refuted.a_; Refuted.b_] (bind_let C Refuted.w_alias [])
     = OVals [VVec [VInt 7; VInt 8]; VInt 2].
Proof. exact Refuted.dup_alias_outside_guard. Qed.

(** the code before the two repairs (fixes/C09-*.patch) *)
Theorem C09_or_quoted_key_old_shape_refuted :
  finish [Refuted.a_] (model_let Refuted.only_quote Refuted.w_09a) = OVals [VInt 1]
  /\ finish [Refuted.a_] (bind_let C Refuted.w_09a []) = OVals [VInt 5]
  /\ Refuted.agree_out cur_shape Refuted.w_09a [Refuted.a_] = true.
Proof. exact Refuted.or_quoted_key_old_shape_refuted. Qed.

Theorem C09_nested_reemit_old_shape_refuted :
  finish [Refuted.a_; Refuted.b_] (model_let Refuted.only_reemit Refuted.w_09b) = OVals [VInt 2; VInt 2]
  /\ finish [Refuted.a_; Refuted.b_] (bind_let C Refuted.w_09b []) = OVals [VInt 1; VInt 2]
  /\ Refuted.agree_out cur_shape Refuted.w_09b [Refuted.a_; Refuted.b_] = true.
Proof. exact Refuted.nested_reemit_old_shape_refuted. Qed.

Theorem C09_reemit_exponential_old_shape : forall d e n,
  List.length (fst (destructure C old_shape c_datum (Refuted.nestp d) e n)) = (2 ^ d)%nat
  /\ List.length (fst (destructure C cur_shape c_datum (Refuted.nestp d) e n)) = S d.
Proof. exact Refuted.reemit_exponential_old_shape. Qed.

(** open finding F-09c: scope of loop inits and of defaults in a fn rest pattern *)
Theorem C09_loop_init_scope_refuted :
  model Refuted.w_09c_loop = OErr E_UNBOUND
  /\ spec_ok Refuted.w_09c_loop (OVals [VInt 1]) = true
  /\ spec_ok Refuted.w_09c_loop (model Refuted.w_09c_loop) = false.
Proof. exact Refuted.loop_init_scope_refuted. Qed.

Theorem C09_fn_rest_default_scope_refuted :
  model Refuted.w_09c_fn = OErr E_UNBOUND
  /\ spec_ok Refuted.w_09c_fn (OVals [VInt 1; VInt 1]) = true
  /\ spec_ok Refuted.w_09c_fn (model Refuted.w_09c_fn) = false.
Proof. exact Refuted.fn_rest_default_scope_refuted. Qed.

Example C09_guards_nonvacuous :
  user_pat Refuted.p_big = true /\ alias_ok Refuted.p_big = true /\ distinct_binders Refuted.p_big
  /\ finish [Refuted.a_; Refuted.b_; Refuted.c_; Refuted.x_; Refuted.y_; Refuted.r_]
            (model_let cur_shape [(Refuted.p_big, @EConst C Refuted.v_big)])
     = OVals [VInt 9; VInt 2; VInt 9; VInt 3; VInt 4; VList [VInt 5; VInt 6]].
Proof. exact Refuted.guards_nonvacuous. Qed.

(** * Syntax-quote.  For every namespace record, template of any depth, gensym state and hole
    values: the code the reader emits evaluates to the substitution instance in which an empty
    list is nil ([subst_seq]); to the substitution instance itself ([subst]) when no list
    node ends up empty. *)
Theorem C09_sq_eval_seq :
  forall R t st code st' sg, expand R t st = Some (code, st') ->
  forall g, SQProofs.agrees g (fst st') -> ev sg code = subst_seq R g sg t.
Proof. exact SQProofs.sq_eval_seq. Qed.

Theorem C09_sq_eval_partial :
  forall R t st code st' sg, expand R t st = Some (code, st') -> ne_ok sg t = true ->
  forall g, SQProofs.agrees g (fst st') -> ev sg code = subst R g sg t.
Proof. exact SQProofs.sq_eval_partial. Qed.

(** open finding F-09d *)
Theorem C09_sq_empty_list_refuted :
  exists t code st,
    expand Refuted.R0 t ([], 0%N) = Some (code, st)
    /\ ev [] code = Ok (FNil, [])
    /\ subst Refuted.R0 (fun _ => 0%N) [] t = Ok (FList [], []).
Proof. exact Refuted.sq_empty_list_refuted. Qed.

(** holes are evaluated exactly once each, in textual order *)
Theorem C09_sq_holes_once_in_order :
  forall ml R g sg t v tr, subst_gen ml R g sg t = Ok (v, tr) -> tr = holes_of t.
Proof. exact (fun ml R g sg => proj1 (SQProofs.subst_trace ml R g sg)). Qed.

(** resolution of symbols *)
Theorem C09_sq_resolves : forall R n,
  SQProofs.plain R n ->
  (forall vns vn, ns_find R n = Some (vns, vn) -> read_sym R None n = (Some vns, vn))
  /\ (ns_find R n = None -> read_sym R None n = (Some (cur R), n))
  /\ fst (read_sym R None n) <> None.
Proof. exact SQProofs.sq_resolves. Qed.

Theorem C09_sq_special_bare : forall R n,
  mem n (special R) = true \/ str_eqb n amp = true \/ starts_with_dot n = true ->
  read_sym R None n = (None, n).
Proof. exact SQProofs.sq_special_bare. Qed.

Theorem C09_sq_alias : forall R a n,
  (forall full, assoc a (aliases R) = Some full -> read_sym R (Some a) n = (Some full, n))
  /\ (assoc a (aliases R) = None -> read_sym R (Some a) n = (Some a, n)).
Proof. exact SQProofs.sq_alias. Qed.

Theorem C09_sq_hygienic : forall globals R U locals n vns vn,
  SQProofs.plain R n ->
  ns_find R n = Some (vns, vn) ->
  var_exists globals vns vn = true ->
  (str_eqb vns (cur U) = true -> ns_find U vn = Some (vns, vn)) ->
  denote globals U locals (fst (read_sym R None n)) (snd (read_sym R None n)) = DVar vns vn.
Proof. exact SQProofs.sq_hygienic. Qed.

(** auto-gensyms *)
Theorem C09_gensym_one_per_template : forall R t c code c',
  read_template R t c = Some (code, c') ->
  exists g, expand_pure R g t = Some code
            /\ (forall p, In p (gens t) -> (c <= g p < c')%N)
            /\ (forall p q, In p (gens t) -> In q (gens t) -> g p = g q -> p = q)
            /\ (c <= c')%N.
Proof. exact SQProofs.gensym_one_per_template. Qed.

Theorem C09_gensym_fresh_across : forall R1 R2 t1 t2 c code1 c1 c1' code2 c2,
  read_template R1 t1 c = Some (code1, c1) -> (c1 <= c1')%N ->
  read_template R2 t2 c1' = Some (code2, c2) ->
  exists g1 g2, expand_pure R1 g1 t1 = Some code1 /\ expand_pure R2 g2 t2 = Some code2
                /\ forall p q, In p (gens t1) -> In q (gens t2) -> g1 p <> g2 q.
Proof. exact SQProofs.gensym_fresh_across. Qed.

Example C09_sq_nonvacuous :
  let t := TList (TCons (TSym None (s_ "if")) (TCons (TGen Refuted.x_) (TCons (TVec (TCons (TGen Refuted.x_)
             (TCons (TUnq 0) (TCons (TSplice 1) TNil)))) (TCons (TSym None Refuted.a_) TNil)))) in
  ne_ok [FInt 1; FVec [FInt 2; FInt 3]] t = true
  /\ exists code c', read_template Refuted.R0 t 7 = Some (code, c')
     /\ ev [FInt 1; FVec [FInt 2; FInt 3]] code
        = Ok (FList [FSym None (SN (s_ "if")); FSym None (SG Refuted.x_ 7);
                     FVec [FSym None (SG Refuted.x_ 7); FInt 1; FInt 2; FInt 3];
                     FSym (Some (s_ "user")) (SN Refuted.a_)], [0%N; 1%N]).
Proof. exact Refuted.sq_nonvacuous. Qed.

Print Assumptions C09_table_special_forms.
Print Assumptions C09_table_builders.
Print Assumptions C09_table_shapes.
Print Assumptions C09_destructure_sound.
Print Assumptions C09_destructure_sound_alias_ok.
Print Assumptions C09_distinct_binders_meet_guard.
Print Assumptions C09_let_sound.
Print Assumptions C09_fn_loop_block_sound.
Print Assumptions C09_destructure_binds_only_pattern_names.
Print Assumptions C09_or_default_iff_absent.
Print Assumptions C09_or_default_any_value.
Print Assumptions C09_or_falsey_defaults.
Print Assumptions C09_dup_binders_later_wins.
Print Assumptions C09_dup_alias_outside_guard.
Print Assumptions C09_or_quoted_key_old_shape_refuted.
Print Assumptions C09_nested_reemit_old_shape_refuted.
Print Assumptions C09_reemit_exponential_old_shape.
Print Assumptions C09_loop_init_scope_refuted.
Print Assumptions C09_fn_rest_default_scope_refuted.
Print Assumptions C09_guards_nonvacuous.
Print Assumptions C09_sq_eval_seq.
Print Assumptions C09_sq_eval_partial.
Print Assumptions C09_sq_empty_list_refuted.
Print Assumptions C09_sq_holes_once_in_order.
Print Assumptions C09_sq_resolves.
Print Assumptions C09_sq_special_bare.
Print Assumptions C09_sq_alias.
Print Assumptions C09_sq_hygienic.
Print Assumptions C09_gensym_one_per_template.
Print Assumptions C09_gensym_fresh_across.
Print Assumptions C09_sq_nonvacuous.
