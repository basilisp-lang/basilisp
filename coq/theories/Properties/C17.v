(** C17 -- compare is a consistent total order; sort returns the ordered permutation.
    This file contains only statements, each closed by [exact], and Print Assumptions. *)
From Coq Require Import List Bool ZArith QArith NArith Permutation Sorted.
Import ListNotations.
From Verif Require Import Common.ListX Common.Order Common.Sort Gen.Tables C17.Model C17.Spec C17.Proofs C17.SpecProofs C17.Idem.

(** Obligations on the definitions regenerated from keyword.py / symbol.py / vector.py *)
Theorem C17_table_kw_lt : forall a b, kw_lt (fst a) (snd a) (fst b) (snd b) = Spec.name_lt_ref a b.
Proof. exact Proofs.kw_lt_ref. Qed.
Theorem C17_table_sym_lt : forall a b, sym_lt (fst a) (snd a) (fst b) (snd b) = Spec.name_lt_ref a b.
Proof. exact Proofs.sym_lt_ref. Qed.
Theorem C17_table_vector_shape : vector_lt_shape = 1%N.
Proof. exact Proofs.vector_shape_ok. Qed.

(** For every family t (numbers, strings, keywords, symbols, vectors of any nesting over
    them) extended with nil, and all values of it: *)
Theorem C17_antisym : forall t x y, compare t x y = (- compare t y x)%Z.
Proof. exact Proofs.compare_antisym. Qed.
Theorem C17_range : forall t x y, (compare t x y = -1 \/ compare t x y = 0 \/ compare t x y = 1)%Z.
Proof. exact Proofs.compare_range. Qed.
Theorem C17_trans : forall t x y z, (compare t x y <= 0 -> compare t y z <= 0 -> compare t x z <= 0)%Z.
Proof. exact Proofs.compare_trans. Qed.
Theorem C17_trans_strict : forall t x y z, (compare t x y < 0 -> compare t y z < 0 -> compare t x z < 0)%Z.
Proof. exact Proofs.compare_trans_strict. Qed.
Theorem C17_zero_iff_eq : forall t x y, compare t x y = 0%Z <-> Proofs.oeqb t x y = true.
Proof. exact Proofs.compare_zero_iff_eq. Qed.
Theorem C17_nil_least : forall t (v : val t),
  compare t None (Some v) = (-1)%Z /\ compare t (Some v) None = 1%Z /\ compare t None None = 0%Z.
Proof. exact Proofs.nil_least. Qed.
Theorem C17_kw_ns_then_name : forall n1 n2 s1 s2,
  compare TKw (Some (Some n1, s1)) (Some (Some n2, s2)) =
    if str_ltb n1 n2 then (-1)%Z else if str_ltb n2 n1 then 1%Z
    else if str_ltb s1 s2 then (-1)%Z else if str_ltb s2 s1 then 1%Z else 0%Z.
Proof. exact Proofs.kw_ns_then_name. Qed.
Theorem C17_sym_ns_then_name : forall n1 n2 s1 s2,
  compare TSym (Some (Some n1, s1)) (Some (Some n2, s2)) =
    if str_ltb n1 n2 then (-1)%Z else if str_ltb n2 n1 then 1%Z
    else if str_ltb s1 s2 then (-1)%Z else if str_ltb s2 s1 then 1%Z else 0%Z.
Proof. exact Proofs.sym_ns_then_name. Qed.
(** the model of the code computes exactly the reference comparison of the specification *)
Theorem C17_compare_is_reference : forall t x y, compare t x y = Spec.ref_compare t x y.
Proof. exact SpecProofs.compare_is_ref. Qed.

Theorem C17_sort_perm : forall t l, Permutation (sort t l) l.
Proof. exact Proofs.sort_perm. Qed.
Theorem C17_sort_ordered : forall t l, StronglySorted (fun a b => (compare t a b <= 0)%Z) (sort t l).
Proof. exact Proofs.sort_ordered. Qed.
Theorem C17_sort_stable : forall t x l, filter (key_eqb t x) (sort t l) = filter (key_eqb t x) l.
Proof. exact Proofs.sort_stable. Qed.
Theorem C17_sort_input_order_independent : forall t l1 l2,
  ForallOrdPairs (fun a b => compare t a b <> 0%Z) l1 -> Permutation l1 l2 -> sort t l1 = sort t l2.
Proof. exact Proofs.sort_input_order_independent. Qed.
Theorem C17_sort_by_perm : forall t B (l : list (option (val t) * B)), Permutation (sort_by t l) l.
Proof. exact Proofs.sort_by_perm. Qed.
Theorem C17_sort_by_ordered : forall t B (l : list (option (val t) * B)),
  StronglySorted (fun a b => (compare t (fst a) (fst b) <= 0)%Z) (sort_by t l).
Proof. exact Proofs.sort_by_ordered. Qed.
Theorem C17_sort_by_stable : forall t B (x : option (val t) * B) (l : list (option (val t) * B)),
  filter (fun e => key_eqb t (fst x) (fst e)) (sort_by t l) = filter (fun e => key_eqb t (fst x) (fst e)) l.
Proof. exact Proofs.sort_by_stable. Qed.
(** the ordered sequence is a fixed point: an input already ordered by [compare] (ties allowed)
    is returned unchanged, so [sort] and [sort-by] are idempotent *)
Theorem C17_sort_of_ordered : forall t l,
  StronglySorted (fun a b => (compare t a b <= 0)%Z) l -> sort t l = l.
Proof. exact Idem.sort_of_ordered. Qed.
Theorem C17_sort_idempotent : forall t l, sort t (sort t l) = sort t l.
Proof. exact Idem.sort_idempotent. Qed.
Theorem C17_sort_by_idempotent : forall t B (l : list (option (val t) * B)),
  sort_by t (sort_by t l) = sort_by t l.
Proof. exact Idem.sort_by_idempotent. Qed.
(** on an input whose keys are pairwise distinct for [compare], any function that returns an
    ordered permutation (CPython's sorted() is assumed to) returns what the model's insertion
    sort returns: *)
Theorem C17_any_stable_sort_agrees : forall t l l',
  Permutation l' l -> StronglySorted (Sort.ord (key_lt t)) l' ->
  Sort.distinct (key_eqb t) l -> l' = sort t l.
Proof. exact SpecProofs.any_stable_sort_agrees. Qed.
(** a concrete run: [sort] on nil and three keywords (no namespace, two namespaces with the
    names in the opposite order) returns nil first, then the keywords by namespace *)
Example C17_nonvacuous :
  sort TKw [Some (Some [98%N], [97%N]); Some (Some [97%N], [98%N]); Some (None, [122%N]); None]
  = [None; Some (None, [122%N]); Some (Some [97%N], [98%N]); Some (Some [98%N], [97%N])].
Proof. exact SpecProofs.nonvacuous. Qed.

Print Assumptions C17_table_kw_lt.
Print Assumptions C17_table_sym_lt.
Print Assumptions C17_table_vector_shape.
Print Assumptions C17_antisym.
Print Assumptions C17_range.
Print Assumptions C17_trans.
Print Assumptions C17_trans_strict.
Print Assumptions C17_zero_iff_eq.
Print Assumptions C17_nil_least.
Print Assumptions C17_kw_ns_then_name.
Print Assumptions C17_sym_ns_then_name.
Print Assumptions C17_compare_is_reference.
Print Assumptions C17_sort_perm.
Print Assumptions C17_sort_ordered.
Print Assumptions C17_sort_stable.
Print Assumptions C17_sort_input_order_independent.
Print Assumptions C17_sort_by_perm.
Print Assumptions C17_sort_by_ordered.
Print Assumptions C17_sort_by_stable.
Print Assumptions C17_sort_of_ordered.
Print Assumptions C17_sort_idempotent.
Print Assumptions C17_sort_by_idempotent.
Print Assumptions C17_any_stable_sort_agrees.
Print Assumptions C17_nonvacuous.
