(** C14 -- Cached namespace bytecode is transparent and never used when invalid.
    Only statements, each closed by [exact], and Print Assumptions.

    [code] is the list of code objects of a namespace, [dumps]/[loads] are marshal, [src]
    the content of a source file, [compile] reader+compiler, [run c] what executing [c]
    raises (None: completes).  What the theorems need from marshal is stated as premises:
      H_marshal_roundtrip     loads (dumps c) = Ok c
      H_marshal_prefix_fails  a proper prefix of a dump raises EOFError
    (both are exercised on every prefix of real cache files by the correspondence run). *)
From Coq Require Import List Bool ZArith NArith.
Import ListNotations.
From Verif Require Import Common.ListX Gen.Tables C14.Cache C14.Spec C14.Corr C14.Proofs C14.KwProofs
  C14.NonVacuous C14.Reload C14.ReloadProofs C14.ReloadEx.

(** * Obligations on what is regenerated from importer.py on every check *)
Theorem C14_table_magic : length importer_magic = 4%nat /\ forallb (fun b => N.ltb b 256) importer_magic = true.
Proof. exact (conj Proofs.magic_len Proofs.magic_bytes). Qed.
(** the if/elif chain of _get_basilisp_bytecode, in source order with its exception classes,
    is the check list the model runs ... *)
Theorem C14_table_header_checks : importer_header_checks = encode_checks model_checks.
Proof. exact Proofs.table_checks. Qed.
(** ... and the model function is the interpreter of that list *)
Theorem C14_get_follows_table : forall code (loads : bytes -> res code) m s d,
  get_basilisp_bytecode code loads m s d =
    match run_checks model_checks m s d with Some e => Raise e | None => loads (skipn 12 d) end.
Proof. exact Proofs.get_is_run_checks. Qed.
Theorem C14_table_layout :
  importer_slices = [(0, 4); (4, 8); (8, 12); (12, 0)]%N
  /\ importer_write_layout = [1; 2; 3; 4]%N
  /\ importer_long_codec = [4294967295; 4; 1; 1]%N.
Proof. exact Proofs.table_layout. Qed.
(** every class the cache-reading stage raises on an unusable file is in the except tuple *)
Theorem C14_table_caught_covers : forallb caught [EOFError; ImportError; OSError] = true.
Proof. exact Proofs.table_caught_covers. Qed.
(** the cached code is executed outside the try whose handler falls back to the source *)
Theorem C14_table_exec_outside_try : importer_exec_in_try = false.
Proof. exact Proofs.table_exec_outside_try. Qed.

(** * The codec *)
Theorem C14_w_long_r_long : forall x,
  length (w_long x) = 4%nat /\ Z.of_N (r_long (w_long x)) = (x mod 4294967296)%Z.
Proof. exact (fun x => conj (Proofs.w_long_length x) (Proofs.r_w_long x)). Qed.
(** the writer's field encoding is the specification's reference encoding *)
Theorem C14_w_long_is_reference : forall x, in_range x = true -> w_long x = le32 (Z.to_N x).
Proof. exact Proofs.w_long_le32. Qed.

(** reading back what _basilisp_bytecode wrote, against the same stats: the payload -- for
    all stats; outside 32 bits the file is never accepted (always recompiled) *)
Theorem C14_roundtrip : forall code dumps (loads : bytes -> res code),
  (forall c, loads (dumps c) = Ok c) ->
  forall m s c,
  get_basilisp_bytecode code loads m s (basilisp_bytecode code dumps m s c) =
    if in_range m && in_range s then Ok c else Raise ImportError.
Proof. exact Proofs.roundtrip. Qed.

Theorem C14_bad_magic_rejected : forall code (loads : bytes -> res code) m s d,
  firstn 4 d <> importer_magic -> get_basilisp_bytecode code loads m s d = Raise ImportError.
Proof. exact Proofs.bad_magic_rejected. Qed.

(** stale: written for other stats.  Guard: the stats written are representable in 32 bits *)
Theorem C14_stale_rejected_partial : forall code dumps (loads : bytes -> res code) m s m' s' c,
  in_range m = true -> in_range s = true -> (m, s) <> (m', s') ->
  get_basilisp_bytecode code loads m' s' (basilisp_bytecode code dumps m s c) = Raise ImportError.
Proof. exact Proofs.stale_rejected. Qed.
(** without the guard: a size differing by 2^32 is accepted *)
Theorem C14_stale_wraps_refuted : forall code dumps (loads : bytes -> res code),
  (forall c, loads (dumps c) = Ok c) ->
  exists m s m' s', (m, s) <> (m', s') /\
    forall c, get_basilisp_bytecode code loads m' s' (basilisp_bytecode code dumps m s c) = Ok c.
Proof.
  exact (fun code dumps loads H =>
    ex_intro _ 0%Z (ex_intro _ 4294967301%Z (ex_intro _ 0%Z (ex_intro _ 5%Z
      (conj (fun E : (0%Z, 4294967301%Z) = (0%Z, 5%Z) => ltac:(discriminate E))
            (fun c => Proofs.stale_wraps code dumps loads H 0 4294967301 0 5 c eq_refl eq_refl)))))).
Qed.

(** a file shorter than the header, whatever its bytes *)
Theorem C14_short_file_rejected : forall code (loads : bytes -> res code) m s d,
  (length d < 12)%nat ->
  get_basilisp_bytecode code loads m s d = Raise ImportError
  \/ get_basilisp_bytecode code loads m s d = Raise EOFError.
Proof. exact Proofs.short_rejected. Qed.

(** every proper prefix of a written cache file, read against any stats, raises a class
    that the loader's fallback catches: it is never executed *)
Theorem C14_truncated_never_executes : forall code dumps (loads : bytes -> res code),
  (forall c n, (n < length (dumps c))%nat -> loads (firstn n (dumps c)) = Raise EOFError) ->
  forall m s c m' s' n,
  (n < length (basilisp_bytecode code dumps m s c))%nat ->
  exists e, get_basilisp_bytecode code loads m' s' (firstn n (basilisp_bytecode code dumps m s c)) = Raise e
            /\ caught e = true.
Proof. exact Proofs.truncated_caught. Qed.

(** * The loader *)
(** absent, shorter than the header, other magic, truncated anywhere, or made for other
    stats: reading the cache raises a caught class *)
Theorem C14_unusable_rejected : forall code dumps (loads : bytes -> res code),
  (forall c n, (n < length (dumps c))%nat -> loads (firstn n (dumps c)) = Raise EOFError) ->
  forall src (f : fs src),
  unusable code dumps src f ->
  exists e, get_cached_code code loads src f = Raise e /\ caught e = true.
Proof. exact Proofs.unusable_rejected. Qed.

(** ... and then the namespace is compiled from source and executed once, the valid file
    is written, and the next import takes it from the cache without compiling.  Holds for
    both placements of the execution relative to the try. *)
Theorem C14_fallback_recompiles_and_rewrites : forall code dumps (loads : bytes -> res code),
  (forall c, loads (dumps c) = Ok c) ->
  (forall c n, (n < length (dumps c))%nat -> loads (firstn n (dumps c)) = Raise EOFError) ->
  forall src compile run in_try (f : fs src),
  unusable code dumps src f -> run (compile (f_src f)) = None ->
  let c := compile (f_src f) in
  let r := exec_module_gen code dumps loads src compile run in_try false f in
  r_trace r = [EvRunSource c; EvWriteCache (written code dumps src compile f)]
  /\ r_raised r = None
  /\ r_fs r = set_cache f (Some (written code dumps src compile f))
  /\ (in_range (f_mtime f) = true -> in_range (f_size f) = true ->
      exec_module_gen code dumps loads src compile run in_try false (r_fs r)
      = mkres [EvRunCached c] None (r_fs r)).
Proof. exact Proofs.fallback_recompiles_and_rewrites. Qed.

(** a crash at any byte of the truncate-then-write of any cache file leaves such a state *)
Theorem C14_crashed_write_is_unusable : forall code dumps src (f : fs src) m s c k,
  (k < length (basilisp_bytecode code dumps m s c))%nat ->
  unusable code dumps src (crashed_write f (basilisp_bytecode code dumps m s c) k).
Proof. exact Proofs.crashed_write_unusable. Qed.

(** transparency: whatever the cache (unusable, or a complete file made for any stats, the
    premise [honest] being "mtime and size identify the content"), the import executes the
    code of the current source exactly once and raises what that code raises *)
Theorem C14_transparent : forall code dumps (loads : bytes -> res code),
  (forall c, loads (dumps c) = Ok c) ->
  (forall c n, (n < length (dumps c))%nat -> loads (firstn n (dumps c)) = Raise EOFError) ->
  forall src compile run dwb (f : fs src),
  (unusable code dumps src f \/ exists m s c, f_cache f = Some (basilisp_bytecode code dumps m s c)) ->
  honest code dumps src compile f ->
  let r := exec_module code dumps loads src compile run dwb f in
  executed code (r_trace r) = [compile (f_src f)] /\ r_raised r = run (compile (f_src f)).
Proof. exact Proofs.transparent. Qed.

(** an exception raised by valid cached code is the module's own: nothing runs twice
    (the repaired exec_module; finding F-14b) *)
Theorem C14_exec_error_not_retried : forall code dumps (loads : bytes -> res code) src compile run dwb (f : fs src) c,
  get_cached_code code loads src f = Ok c ->
  let r := exec_module code dumps loads src compile run dwb f in
  r_trace r = [EvRunCached c] /\ r_raised r = run c /\ r_fs r = f.
Proof. exact Proofs.not_retried. Qed.
(** the shape before the repair (execution inside the try) did run the module twice *)
Theorem C14_exec_error_retried_when_in_try : forall code dumps (loads : bytes -> res code) src compile run dwb (f : fs src) c e,
  get_cached_code code loads src f = Ok c -> run c = Some e -> caught e = true ->
  executed code (r_trace (exec_module_gen code dumps loads src compile run true dwb f)) = [c; compile (f_src f)].
Proof. exact Proofs.retried_when_in_try. Qed.

(** * One process, several loads: import, edit, reload, damage, invalidate_caches *)
(** Whatever the bytes of the cache file: the decoder returns code only when the file starts
    with the magic number and two complete fields holding exactly the stats it was asked
    about -- which exec_module takes from path_stats(filename) at every execution *)
Theorem C14_decoder_accepts_only_matching_header : forall code (loads : bytes -> res code) m s d c,
  get_basilisp_bytecode code loads m s d = Ok c -> header_matches importer_magic m s d.
Proof. exact Proofs.get_ok_header. Qed.

(** For ALL histories of one process over one namespace file (Reload.v: first import =
    find_spec, create_module, exec_module; reload = find_spec, exec_module with the spec the
    importer cached at the first import; import of a loaded module = nothing;
    invalidate_caches; sys.dont_write_bytecode switched on or off; edits of the source;
    changes of the cache file), started in a fresh process, in which mtime and size identify the content ([honest_history]: some assignment
    [reg] of code to 32-bit stats agrees with every source state, and every cache file put in
    place is absent, shorter than a header, of another magic, a proper prefix of a written
    file, or a complete file for registered content):
    every import or reload that executes anything
      - executes the code of the source as it is AT THAT MOMENT, exactly once, raises what it
        raises, and that code is what the namespace's Vars are left defined by;
      - takes it from the cache only if the cache file's header carries the magic number and
        the CURRENT mtime and size of the source;
      - does take it from the cache when the file is the one written for the current source;
      - (bytecode writing on at that moment, no exception) leaves behind exactly the cache file
        of the current source and stats; otherwise leaves the file system alone;
      - never touches the source. *)
Theorem C14_reload_sees_current_source : forall code dumps (loads : bytes -> res code),
  (forall c, loads (dumps c) = Ok c) ->
  (forall c n, (n < length (dumps c))%nat -> loads (firstn n (dumps c)) = Raise EOFError) ->
  forall src compile run (reg : Z -> Z -> code) (f0 : fs src) (steps : list (step src)),
  honest_history code dumps src compile reg f0 steps ->
  forall f r f' p',
  In (f, OLoad r, (f', p'))
     (run_hist code dumps loads src compile run false (f0, fresh) steps) ->
  let c := compile (f_src f) in
  executed code (r_trace r) = [c] /\ r_raised r = run c /\ p_vars p' = Some c
  /\ (forall c', In (EvRunCached c') (r_trace r) ->
        exists d, f_cache f = Some d /\ header_matches importer_magic (f_mtime f) (f_size f) d)
  /\ (f_cache f = Some (written code dumps src compile f) ->
      in_range (f_mtime f) = true -> in_range (f_size f) = true -> r_trace r = [EvRunCached c])
  /\ (r_raised r = None -> p_dwb p' = false -> f_cache f' = Some (written code dumps src compile f))
  /\ (r_raised r <> None \/ p_dwb p' = true -> f' = f)
  /\ f_src f' = f_src f /\ f_mtime f' = f_mtime f /\ f_size f' = f_size f.
Proof. exact ReloadProofs.reload_sees_current_source. Qed.

(** the kinds of damage the histories of the correspondence apply keep a cache file within
    the premise: cutting a benign file at any length, any other four bytes in front of
    anything, a crash at any byte of a write *)
Theorem C14_damage_stays_benign : forall code dumps (reg : Z -> Z -> code),
  (forall d n, benign code dumps reg (Some d) -> benign code dumps reg (Some (firstn n d)))
  /\ (forall b rest, length b = 4%nat -> b <> importer_magic -> benign code dumps reg (Some (b ++ rest)))
  /\ (forall src (f : fs src) m s c k, (k < length (basilisp_bytecode code dumps m s c))%nat ->
       benign code dumps reg (f_cache (crashed_write f (basilisp_bytecode code dumps m s c) k))).
Proof.
  exact (fun code dumps reg =>
    conj (ReloadProofs.benign_truncate code dumps reg)
      (conj (ReloadProofs.benign_other_magic code dumps reg)
            (fun src => ReloadProofs.benign_crashed_write code dumps src reg))).
Qed.

(** The other shape of the loader -- find_spec stats the source once and keeps the result in
    the spec's loader_state, exec_module reads it from there -- fails the property: in an
    honest history (import; edit with a later mtime; reload) the reload finds version 2 of
    the source, validates the cache against the stats of the first import, executes the code
    of version 1, leaves version 1's Vars and version 1's cache file in place *)
Theorem C14_reload_stale_when_stats_in_spec :
  honest_history tcode (t_dumps TL) N i_compile ex_reg ex_f0 ex_steps
  /\ exists f r f' p',
       In (f, OLoad r, (f', p'))
          (run_hist tcode (t_dumps TL) (t_loads TL) N i_compile (fun _ => None) true (ex_f0, fresh) ex_steps)
       /\ f_src f = 2%N
       /\ executed tcode (r_trace r) = [i_compile 1%N]
       /\ p_vars p' = Some (i_compile 1%N)
       /\ f_cache f' = Some (golden 1700000000 100).
Proof. exact ReloadEx.reload_stale_when_stats_in_spec. Qed.

(** * Keywords of cached code in a process with other string hashes *)
(** Whatever hashes the literals of a history carry: every request yields an object with
    the requested name and the running process's hash of it -- so [=], [hash], map and set
    lookup do not depend on the seed of the process that wrote the cache.  Guard
    (executable): no two requests use one table key for different names, i.e. no collision
    among the 64-bit hashes involved. *)
Theorem C14_kw_semantics_seed_independent : forall (hash_kw : kwname -> Z) ops,
  keys_consistentb hash_kw ops = true ->
  Forall2 (fun o k => k_name k = kwop_name o /\ k_hash k = hash_kw (kwop_name o))
          ops (fst (run_ops hash_kw [] ops)).
Proof. exact KwProofs.kw_semantics. Qed.
(** two requests yield the same object exactly when they present the same table key *)
Theorem C14_kw_identity_iff_same_key : forall (hash_kw : kwname -> Z) ops i j oi oj ki kj,
  nth_error ops i = Some oi -> nth_error ops j = Some oj ->
  nth_error (fst (run_ops hash_kw [] ops)) i = Some ki ->
  nth_error (fst (run_ops hash_kw [] ops)) j = Some kj ->
  (kw_identical ki kj = true <-> kwop_key hash_kw oi = kwop_key hash_kw oj).
Proof. exact KwProofs.kw_identity_iff. Qed.
(** hence a literal [:n] compiled with hash [h] is [identical?] to [(keyword "n")] iff
    [h] is the running process's hash -- while staying [=] to it, with the same hash *)
Theorem C14_kw_literal_vs_constructed : forall (hash_kw : kwname -> Z) h n a b,
  fst (run_ops hash_kw [] [KLit h n; KNew n]) = [a; b] ->
  (kw_identical a b = true <-> h = hash_kw n)
  /\ kw_eq a b = true /\ k_hash a = k_hash b /\ k_name a = n /\ k_hash a = hash_kw n.
Proof. exact KwProofs.literal_vs_constructed. Qed.
(** F-14: with the real hashes of ("kw", None) under PYTHONHASHSEED 1 (writer) and 2
    (reader) the two are different objects *)
Theorem C14_kw_identity_refuted :
  exists (hash_kw : kwname -> Z) (h : Z) (n : kwname) (a b : kwobj),
    fst (run_ops hash_kw [] [KLit h n; KNew n]) = [a; b]
    /\ kw_identical a b = false /\ kw_eq a b = true /\ k_hash a = k_hash b.
Proof. exact KwProofs.identity_refuted. Qed.

(** * Non-vacuity *)
Example C14_hypotheses_satisfiable :
  (forall c, t_loads TL (t_dumps TL c) = Ok c)
  /\ (forall c n, (n < length (t_dumps TL c))%nat -> t_loads TL (firstn n (t_dumps TL c)) = Raise EOFError).
Proof. exact NonVacuous.hypotheses_satisfiable. Qed.
Example C14_unusable_nonvacuous : unusable tcode (t_dumps TL) N ex_fs.
Proof. exact NonVacuous.ex_unusable. Qed.
Example C14_fallback_nonvacuous :
  let r := i_exec (fun _ => None) false ex_fs in
  r_trace r = [EvRunSource 1%N; EvWriteCache (golden 1700000000 321)]
  /\ r_raised r = None
  /\ r_trace (i_exec (fun _ => None) false (r_fs r)) = [EvRunCached 1%N].
Proof. exact NonVacuous.ex_fallback. Qed.
Example C14_kw_guard_nonvacuous :
  keys_consistentb (toy_hash 0)
    [KLit (toy_hash 1 (kwn 7)) (kwn 7); KNew (kwn 7); KLit (toy_hash 2 (kwn 7)) (kwn 7);
     KLit (toy_hash 0 (kwn 8)) (kwn 8); KNew (kwn 8)] = true.
Proof. exact NonVacuous.ex_keys_consistent. Qed.

(** a history with an edit, a damaged cache and invalidate_caches meets the premise of
    [C14_reload_sees_current_source]; per load: current version, code executed, from the
    cache?, version the Vars show *)
Example C14_reload_nonvacuous :
  honest_history tcode (t_dumps TL) N i_compile ex_reg ex_f0 ex_steps
  /\ summary (ex_run false)
     = [(1, [1], false, Some 1); (2, [2], false, Some 2); (2, [2], false, Some 2); (2, [2], true, Some 2)]%N
  /\ f_cache (fst (snd (last (ex_run false) (ex_f0, ONothing, (ex_f0, fresh))))) = Some ex_file2.
Proof. exact ReloadEx.ex_reload. Qed.

Print Assumptions C14_table_magic.
Print Assumptions C14_table_header_checks.
Print Assumptions C14_get_follows_table.
Print Assumptions C14_table_layout.
Print Assumptions C14_table_caught_covers.
Print Assumptions C14_table_exec_outside_try.
Print Assumptions C14_w_long_r_long.
Print Assumptions C14_w_long_is_reference.
Print Assumptions C14_roundtrip.
Print Assumptions C14_bad_magic_rejected.
Print Assumptions C14_stale_rejected_partial.
Print Assumptions C14_stale_wraps_refuted.
Print Assumptions C14_short_file_rejected.
Print Assumptions C14_truncated_never_executes.
Print Assumptions C14_unusable_rejected.
Print Assumptions C14_fallback_recompiles_and_rewrites.
Print Assumptions C14_crashed_write_is_unusable.
Print Assumptions C14_transparent.
Print Assumptions C14_exec_error_not_retried.
Print Assumptions C14_exec_error_retried_when_in_try.
Print Assumptions C14_decoder_accepts_only_matching_header.
Print Assumptions C14_reload_sees_current_source.
Print Assumptions C14_damage_stays_benign.
Print Assumptions C14_reload_stale_when_stats_in_spec.
Print Assumptions C14_kw_semantics_seed_independent.
Print Assumptions C14_kw_identity_iff_same_key.
Print Assumptions C14_kw_literal_vs_constructed.
Print Assumptions C14_kw_identity_refuted.
Print Assumptions C14_hypotheses_satisfiable.
Print Assumptions C14_unusable_nonvacuous.
Print Assumptions C14_fallback_nonvacuous.
Print Assumptions C14_kw_guard_nonvacuous.
Print Assumptions C14_reload_nonvacuous.
