(** C13 -- Delays run once, promises deliver once, futures yield their body's outcome.
    Only statements, each an instance of a theorem of C13/DelayProofs.v, PromiseProofs.v or
    Future.v for the values and shapes of C13/Corr.v and Final.v, and Print Assumptions.

    [dreach]/[preach] range over ALL interleavings of ANY number of threads running any
    lists of operations (for promises also over every placement of the timeouts of timed
    derefs).  The machines are C13/Delay.v and C13/Promise.v with the shapes regenerated
    from delay.py, promise.py, futures.py, atom.py (Gen.Tables). *)
From Coq Require Import List Bool Arith ZArith NArith Lia.
Import ListNotations.
From Verif Require Import Common.ListX Gen.Tables.
From Verif Require Import C13.Spec C13.Delay C13.Promise C13.Future C13.Corr.
From Verif Require Import C13.DelayProofs C13.PromiseProofs C13.Final.

Notation dreachZ body := (@dreach Z delay_deref_mode d_cas_ok body).
Notation dstepZ body := (@dstep Z delay_deref_mode d_cas_ok body).
Notation preachZ := (@preach pv None).

(** the shapes the models are built for: double-checked lock in Delay.deref; flag, value,
    notify_all under the condition in Promise; done-check in Future.deref; identity-first CAS *)
Theorem C13_table_modes :
  delay_deref_mode = 1%N /\ promise_shape = 1%N /\ future_deref_mode = 1%N /\ atom_cas_mode = 1%N.
Proof. exact Final.modes. Qed.

(** Delay.  Whatever the body does (any function of the run index: returns, or throws), a
    run of the body begins only when no run is in progress and none has ever returned. *)
Theorem C13_delay_once : forall body progs s t s',
  dreachZ body (dinit progs) s -> dstepZ body t s = Some s' ->
  dcur delay_deref_mode (dthr s t) = DBodyB ->
  inbody s = 0 /\ rets s = [].
Proof.
  intros body progs s t s' R _.
  exact (DelayProofs.delay_once delay_deref_mode d_cas_ok body delay_locked d_cas_refl progs s t R).
Qed.

(** ... hence the chronological body log is accepted by Spec.once_log, at most one run is
    in progress and at most one run has returned, in every reachable state *)
Theorem C13_delay_log_once : forall body progs s,
  dreachZ body (dinit progs) s ->
  once_log (map snd (rev (blog s))) = true /\ inbody s <= 1 /\ length (rets s) <= 1.
Proof. intros body. exact (DelayProofs.delay_log_once delay_deref_mode d_cas_ok body delay_locked d_cas_refl). Qed.

(** every deref that returned a value returned the value of that one run: all agree *)
Theorem C13_delay_value_stable : forall body progs s t1 o1 v1 t2 o2 v2,
  dreachZ body (dinit progs) s ->
  In (o1, DVal v1) (d_done (dthr s t1)) -> In (o2, DVal v2) (d_done (dthr s t2)) ->
  rets s = [v1] /\ v1 = v2.
Proof.
  intros body progs s t1 o1 v1 t2 o2 v2 R H1 H2.
  pose proof (DelayProofs.delay_value_stable delay_deref_mode d_cas_ok body delay_locked d_cas_refl progs s) as St.
  pose proof (St t1 o1 v1 R H1) as E1. pose proof (St t2 o2 v2 R H2) as E2. split; congruence.
Qed.

(** the defect this replaced (finding F-13, fixed): with the body inside swap's retry loop
    and no lock, two racing derefs both run the body *)
Theorem C13_delay_unlocked_runs_twice :
  exists s, drun 0%N d_cas_ok (script_body [Some 7%Z]) Final.unlocked_sched
                 (dinit (progs_of [[DDeref]; [DDeref]])) = Some s
            /\ @dreach Z 0%N d_cas_ok (script_body [Some 7%Z]) (dinit (progs_of [[DDeref]; [DDeref]])) s
            /\ rets s = [7%Z; 7%Z] /\ once_log (map snd (rev (blog s))) = false.
Proof. exact Final.delay_unlocked_runs_twice. Qed.

(** Promise.  The history of linearization events (oldest first) is a run of the
    reference promise of Spec.v ... *)
Theorem C13_promise_history_ok : forall progs s,
  preachZ (pinit None progs) s -> promise_log_ok pv_eqb (rev (phist s)) = true.
Proof. exact (PromiseProofs.promise_history_ok None pv_eqb pv_eqb_refl). Qed.

(** ... so: after the first deliver that took effect no other deliver does, and every
    value read is the one it delivered *)
Theorem C13_promise_first_wins : forall progs s l1 v l2,
  preachZ (pinit None progs) s -> rev (phist s) = l1 ++ EDeliver v :: l2 ->
  (forall u, ~ In (EDeliver u) l2) /\ (forall u, In (EValue u) l2 -> pv_eqb u v = true).
Proof.
  intros progs s l1 v l2 R E. apply (log_ok_first_wins pv_eqb l1 v l2).
  rewrite <- E. exact (C13_promise_history_ok progs s R).
Qed.

(** every deref that returned, returned the delivered value, or -- a timed deref -- its
    timeout value *)
Theorem C13_promise_deref_result : forall progs s t tm v,
  preachZ (pinit None progs) s -> In (PDeref tm, PRet v) (p_done (pthr s t)) ->
  (exists w, plog_run pv_eqb (rev (phist s)) = Some (Some w) /\ v = w) \/ tm = Some v.
Proof. exact (PromiseProofs.promise_deref_result None pv_eqb pv_eqb_refl). Qed.

(** once flag and value are stored and the lock is free, a deref by any thread returns the
    delivered value in four of its own steps, without waiting *)
Theorem C13_promise_deref_after_deliver : forall (s : pstate pv) t tm rest,
  delivered s = true -> plock s = None ->
  p_ops (pthr s t) = PDeref tm :: rest -> p_pc (pthr s t) = QIdle ->
  exists s1 s2 s3 s4,
    pstep None t ARun s = Some s1 /\ pstep None t ARun s1 = Some s2 /\ pstep None t ARun s2 = Some s3
    /\ pstep None t ARun s3 = Some s4
    /\ p_done (pthr s4 t) = (PDeref tm, PRet (pvalue s)) :: p_done (pthr s t)
    /\ p_ops (pthr s4 t) = rest /\ plock s4 = None.
Proof. exact (PromiseProofs.promise_deref_after_deliver None). Qed.

(** a timed deref returns its timeout value only while nothing has been delivered *)
Theorem C13_timeout_only_if_undelivered : forall progs s l1 v l2,
  preachZ (pinit None progs) s -> rev (phist s) = l1 ++ EDeliver v :: l2 -> ~ In ETimeout l2.
Proof.
  intros progs s l1 v l2 R E. apply (log_ok_timeout_only_if_undelivered pv_eqb l1 v l2).
  rewrite <- E. exact (C13_promise_history_ok progs s R).
Qed.

(** Future: for EVERY one-shot cell satisfying the stated hypotheses about
    concurrent.futures.Future (Section Future in C13/Future.v), once the cell is done a
    deref -- timed or not -- yields the body's outcome: its value, or the exception it
    raised, TimeoutError included; the three calls the wrapper makes may see the cell at
    different moments c1, c2, c3 *)
Theorem C13_future_outcome :
  forall (V Cell : Type) (outcome_of : Cell -> option (outcome V)) (cstep : Cell -> Cell -> Prop),
  (forall c c' o, cstep c c' -> outcome_of c = Some o -> outcome_of c' = Some o) ->
  forall c1 c2 c3 tv o, cstep c1 c2 -> cstep c2 c3 -> outcome_of c1 = Some o ->
  deref_timed outcome_of future_deref_mode c1 c2 c3 tv = Some (yield_of o)
  /\ deref_done outcome_of future_deref_mode c1 c2 c3 tv = Some (yield_of o).
Proof.
  intros V Cell outcome_of cstep H c1 c2 c3 tv o S12 S23 H1. split.
  - exact (future_outcome_timed outcome_of cstep H future_deref_mode Final.future_mode_nonzero c1 c2 c3 tv o S12 S23 H1).
  - exact (future_outcome_untimed outcome_of cstep H future_deref_mode Final.future_mode_nonzero c1 c2 c3 tv o S12 S23 H1).
Qed.

(** ... and a timed deref yields the timeout value only if the cell was not done *)
Theorem C13_future_timeout_only_if_pending :
  forall (V Cell : Type) (outcome_of : Cell -> option (outcome V)) (cstep : Cell -> Cell -> Prop),
  (forall c c' o, cstep c c' -> outcome_of c = Some o -> outcome_of c' = Some o) ->
  forall c1 c2 c3 tv r, cstep c1 c2 -> cstep c2 c3 ->
  deref_timed outcome_of future_deref_mode c1 c2 c3 tv = Some r ->
  (outcome_of c1 = None /\ r = YRet tv) \/ (exists o, outcome_of c3 = Some o /\ r = yield_of o).
Proof.
  intros V Cell outcome_of cstep H.
  exact (future_timeout_only_if_pending outcome_of cstep H future_deref_mode Final.future_mode_nonzero).
Qed.

(** the defect this replaced (finding F-13b, fixed): the wrapper turned a TimeoutError
    raised by the body into the timeout value *)
Theorem C13_future_mode0_swallows_timeouterror : forall (tv : nat),
  @deref_done nat (option (outcome nat)) (fun c => c) 0%N
      (Some (ORaise ETimeoutError)) (Some (ORaise ETimeoutError)) (Some (ORaise ETimeoutError)) tv
  = Some (YRet tv).
Proof. exact future_mode0_swallows. Qed.

(** realized? is monotone for all three *)
Theorem C13_realized_monotone :
  (forall body progs s, dreachZ body (dinit progs) s -> mono_bools (rev (rlog s)) = true)
  /\ (forall progs s, preachZ (pinit None progs) s -> mono_bools (reals (rev (phist s))) = true)
  /\ (forall (V Cell : Type) (outcome_of : Cell -> option (outcome V)) (cstep : Cell -> Cell -> Prop),
        (forall c c' o, cstep c c' -> outcome_of c = Some o -> outcome_of c' = Some o) ->
        forall c c', cstep c c' -> cf_done outcome_of c = true -> cf_done outcome_of c' = true).
Proof.
  split; [|split].
  - intros body. exact (DelayProofs.delay_realized_monotone delay_deref_mode d_cas_ok body delay_locked d_cas_refl).
  - intros progs s R. apply (log_ok_realized_monotone pv_eqb). exact (C13_promise_history_ok progs s R).
  - intros V Cell outcome_of cstep H. exact (future_realized_monotone outcome_of cstep H).
Qed.

Print Assumptions C13_table_modes.
Print Assumptions C13_delay_once.
Print Assumptions C13_delay_log_once.
Print Assumptions C13_delay_value_stable.
Print Assumptions C13_delay_unlocked_runs_twice.
Print Assumptions C13_promise_history_ok.
Print Assumptions C13_promise_first_wins.
Print Assumptions C13_promise_deref_result.
Print Assumptions C13_promise_deref_after_deliver.
Print Assumptions C13_timeout_only_if_undelivered.
Print Assumptions C13_future_outcome.
Print Assumptions C13_future_timeout_only_if_pending.
Print Assumptions C13_future_mode0_swallows_timeouterror.
Print Assumptions C13_realized_monotone.
