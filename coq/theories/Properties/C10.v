(** C10 -- A name denotes one binding, and reading it sees the value last given to it.
    Only statements, each closed by [exact], and Print Assumptions.

    Vocabulary (C10/Spec.v, C10/Names.v): a history [h] is a list of steps def / in-ns /
    require :as / refer :only / alter-var-root, run from a state with no Vars whose current
    namespace is [cur] and whose namespace cache holds [nss] ([after cur nss h]).
    [resolve locals st rns spl] is the Var the analyzer's rules make the symbol [spl] denote
    when compiled in namespace [rns] under the let*/fn locals [locals]; [read st md rq] is what
    evaluating the compiled reference yields in linking mode [md] (Direct / Indirect);
    [last_def] / [last_given] read the value last given to a Var (by def / by def or root
    mutation) off the history alone.  [no_collision] is the executable guard "no step stores a
    module global under a Python identifier by which another name of that namespace, or the
    module of any namespace, is looked up".

    Thread bindings (C10/BSpec.v, C10/BNames.v): an extended history is a list of [bstep]s:
    [B s] (a step as above), [BPush m n v] (enter `(binding [m/n v] ...)`), [BPop] (leave the
    innermost binding form); [xafter cur nss h] is the model of the code after it (the state
    above + one thread-local store per Var + the thread's frame stack), [xsafter] the reference
    semantics (the Var store + ONE stack of open frames), [xread] what evaluating a compiled
    reference yields.  [innermost cur h k = Some (v, i)] reads off the history alone that the
    innermost open binding of Var k gave it v, i = true iff no def changed k's dynamic marking
    since that binding was entered.  [base_steps h] = the def / in-ns / ... steps of h.
    [dyn_stable] is the executable guard "a redefinition of a Var that has open binding
    frames keeps its dynamic marking". *)
From Coq Require Import List NArith Bool.
Import ListNotations.
From Verif Require Import Common.ListX Gen.Tables C10.Munge C10.MungeProofs C10.Spec C10.Names
  C10.Proofs C10.Theorems C10.Refuted C10.BSpec C10.BNames C10.BProofs C10.BRefuted.
Local Open Scope N_scope.

(** ---- obligations on the table regenerated from util.py (_MUNGE_REPLACEMENTS) and on
         keyword.kwlist / dir(builtins) of the running Python ---- *)
Theorem C10_table_values_shape :
  forall c v, tr_lookup munge_replacements c = Some v ->
    (c = DASH /\ v = [US]) \/
    (c <> DASH /\ exists u, v = US :: US :: u ++ [US; US] /\ forallb is_upper u = true /\ u <> []).
Proof. exact lookup_shape. Qed.
Theorem C10_table_keys_distinct : distinctb N.eqb (map fst munge_replacements) = true.
Proof. exact table_keys_distinct_true. Qed.
Theorem C10_table_values_distinct :
  forall c d v, tr_lookup munge_replacements c = Some v -> tr_lookup munge_replacements d = Some v -> c = d.
Proof. exact lookup_value_inj. Qed.
Theorem C10_table_keys_ok :
  tr_lookup munge_replacements US = None /\ tr_lookup munge_replacements DOT = None /\
  tr_lookup munge_replacements DASH = Some [US].
Proof. exact (conj us_not_key (conj dot_not_key dash_is_key)). Qed.
Theorem C10_table_reserved_ok : table_reserved_ok = true.
Proof. exact table_reserved_ok_true. Qed.

(** ---- munge ---- *)
(** names over characters the table does not mention are munged to themselves, or get a
    trailing '_' (Python keywords, builtins unless allow_builtins); ".." is special *)
Theorem C10_munge_simple_names : forall f s, forallb nokey s = true ->
  munge_gen f s = s \/ munge_gen f s = s ++ [US] \/ (s = DOTDOT /\ munge_gen f s = DOTDOT_REPL).
Proof. exact munge_simple. Qed.
(** str.translate with the table is injective on strings without '_' and '-' *)
Theorem C10_translate_injective : forall a b, clean a = true -> clean b = true -> translate a = translate b -> a = b.
Proof. exact translate_inj. Qed.
(** munge -- with or without allow_builtins, in any combination, as __name_in_module probes --
    is injective on names that contain none of '_', '-', '.' *)
Theorem C10_munge_injective_on_plain_names : forall f1 f2 a b,
  plain_name a = true -> plain_name b = true -> munge_gen f1 a = munge_gen f2 b -> a = b.
Proof. exact munge_inj_plain. Qed.
(** and it is not injective beyond: *)
Theorem C10_munge_not_injective :
  munge s_a_dash_b = munge s_a_us_b /\ munge s_xq = munge s_x_Q /\ munge s_plus = munge s_dd_PLUS
  /\ munge s_print = munge s_print_us /\ munge s_class = munge s_class_us.
Proof. exact munge_collisions. Qed.

(** ---- which Var a symbol denotes: for ALL histories ---- *)
Theorem C10_spellings_agree : forall cur nss h m n,
  let st := sp (after cur nss h) in
  interned st (m, n) = true ->
  (forall locals, mem_str n locals = false -> resolve locals st m (Bare n) = RVar (m, n)) /\
  (forall locals, resolve locals st m (Qual m n) = RVar (m, n)) /\
  (forall locals rns, rns <> m -> is_private st (m, n) = false -> resolve locals st rns (Qual m n) = RVar (m, n)) /\
  (forall locals rns a,
      aget (rns, a) (s_aliases st) = Some m -> is_private st (m, n) = false -> has_dot n = false ->
      (if str_eqb a rns then find st rns n else None) = None ->
      (if mem_str a (s_nss st) then find st a n else None) = None ->
      resolve locals st rns (Qual a n) = RVar (m, n)) /\
  (forall locals rns,
      mem_str n locals = false -> interned st (rns, n) = false -> aget (rns, n) (s_refers st) = Some (m, n) ->
      resolve locals st rns (Bare n) = RVar (m, n)).
Proof.
  exact (fun cur nss h m n I =>
    let st := sp (after cur nss h) in
    conj (bare_own st m n I)
      (conj (qual_own st m n I)
        (conj (qual_other st (wf_after cur nss h) m n I)
          (conj (qual_alias st m n I) (bare_referred st m n))))).
Qed.

(** two different names never denote the same binding *)
Theorem C10_names_distinct : forall cur nss h locals rns n1 n2 k,
  let st := sp (after cur nss h) in
  resolve locals st rns (Bare n1) = RVar k -> resolve locals st rns (Bare n2) = RVar k -> n1 = n2.
Proof. exact names_distinct. Qed.

(** locals (let* / fn locals of the enclosing form; modelled: the locals of the form being
    compiled) shadow Vars of the same name, and nothing else *)
Theorem C10_locals_shadow : forall locals st rns,
  (forall n, mem_str n locals = true -> resolve locals st rns (Bare n) = RLocal) /\
  (forall n, mem_str n locals = false -> resolve locals st rns (Bare n) = resolve [] st rns (Bare n)) /\
  (forall q n, resolve locals st rns (Qual q n) = resolve [] st rns (Qual q n)).
Proof.
  exact (fun locals st rns =>
    conj (fun n => locals_shadow locals st rns n)
      (conj (fun n => locals_do_not_capture_others locals st rns n)
            (fun q n => locals_do_not_capture_qualified locals st rns q n))).
Qed.

(** a private Var of another namespace is reachable only through a refer entry of the namespace
    the symbol is compiled in (made while the Var was public) ... *)
Theorem C10_private_unreachable : forall cur nss h locals rns spl k,
  let st := sp (after cur nss h) in
  resolve locals st rns spl = RVar k -> is_private st k = true -> fst k <> rns ->
  aget (rns, spelled_name spl) (s_refers st) = Some k.
Proof. exact (fun cur nss h locals rns => private_only_via_refer locals (sp (after cur nss h)) rns). Qed.
(** ... hence not at all when redefinitions keep the :private flag (executable guard) ... *)
Theorem C10_private_unreachable_partial : forall cur nss h locals rns spl k,
  let st := sp (after cur nss h) in
  priv_stable (init cur nss) h = true ->
  resolve locals st rns spl = RVar k -> is_private st k = true -> fst k = rns.
Proof. exact private_unreachable_partial. Qed.
(** ... and without the guard it is reachable (finding F-10c) *)
Theorem C10_private_unreachable_refuted :
  exists cur nss h rns spl k,
    let st := sp (after cur nss h) in
    resolve [] st rns spl = RVar k /\ is_private st k = true /\ fst k <> rns.
Proof. exact private_unreachable_refuted. Qed.

(** ---- reading ---- *)
(** with var indirection (and for ^:dynamic / ^:redef Vars in either mode) a read yields the value
    most recently given to the denoted Var by def or root mutation: ALL histories, no guard *)
Theorem C10_read_indirect : forall cur nss h rns loc spl k,
  let st := after cur nss h in
  resolve (locals_of loc) (sp st) rns spl = RVar k ->
  exists v, last_given cur h k None = Some v /\ read st Indirect (RR rns loc spl) = OVal v.
Proof. exact read_indirect. Qed.
Theorem C10_read_root : forall cur nss h md rns loc spl k,
  let st := after cur nss h in
  resolve (locals_of loc) (sp st) rns spl = RVar k ->
  exists r, aget k (s_vars (sp st)) = Some r /\
            last_given cur h k None = Some (v_root r) /\
            (uses_root md (v_flags r) = true -> read st md (RR rns loc spl) = OVal (v_root r)).
Proof. exact read_root. Qed.

(** in both linking modes, under the guard: *)
Theorem C10_read_after_def_partial : forall cur nss h md rns loc spl k,
  let st := after cur nss h in
  no_collision (minit cur nss) h = true ->
  resolve (locals_of loc) (sp st) rns spl = RVar k ->
  exists r, aget k (s_vars (sp st)) = Some r /\
            last_def cur h k None = Some (v_lastdef r) /\
            last_given cur h k None = Some (v_root r) /\
            (if uses_root md (v_flags r)
             then read st md (RR rns loc spl) = OVal (v_root r)
             else read st md (RR rns loc spl) = OVal (v_lastdef r) \/
                  read st md (RR rns loc spl) = OVal (v_root r)).
Proof. exact read_after_def_partial. Qed.
Theorem C10_read_is_last_def_partial : forall cur nss h md rns loc spl k,
  let st := after cur nss h in
  no_collision (minit cur nss) h = true -> no_alter h = true ->
  resolve (locals_of loc) (sp st) rns spl = RVar k ->
  exists v, last_def cur h k None = Some v /\ read st md (RR rns loc spl) = OVal v.
Proof. exact read_is_last_def_partial. Qed.
(** a program that changes roots only through def behaves identically in both modes *)
Theorem C10_modes_agree_partial : forall cur nss h rq,
  let st := after cur nss h in
  no_collision (minit cur nss) h = true -> no_alter h = true ->
  read st Direct rq = read st Indirect rq.
Proof. exact modes_agree_partial. Qed.
(** the model's reads are accepted by the specification's predicate (what the correspondence
    run evaluates per case) under both guards *)
Theorem C10_model_meets_spec_partial : forall cur nss h md rq,
  let st := after cur nss h in
  no_collision (minit cur nss) h = true -> priv_stable (init cur nss) h = true ->
  read_ok (sp st) md rq (read st md rq) = true.
Proof. exact model_meets_spec_partial. Qed.

(** without the guard (findings F-10a, F-10b): a symbol denotes a Var whose last def -- there
    is no root mutation in the history -- gave v, var indirection reads v, direct linking
    does not *)
Theorem C10_munge_collision_refuted :
  exists cur nss h rns spl k v,
    let st := after cur nss h in
    no_alter h = true /\
    resolve [] (sp st) rns spl = RVar k /\ last_def cur h k None = Some v /\
    read st Indirect (RR rns None spl) = OVal v /\ read st Direct (RR rns None spl) <> OVal v /\
    (exists p q fl1 fl2 v1 v2, h = [SDef p fl1 v1; SDef q fl2 v2] /\ p <> q /\ munge p = munge q).
Proof. exact munge_collision_refuted. Qed.
Theorem C10_munge_collision_pairs :
  def_collision s_a_dash_b s_a_us_b /\ def_collision s_xq s_x_Q /\ def_collision s_plus s_dd_PLUS /\
  def_collision s_print s_print_us /\ def_collision s_class s_class_us.
Proof.
  exact (conj def_collision_a_b (conj def_collision_xq (conj def_collision_plus
          (conj def_collision_print def_collision_class)))).
Qed.
Theorem C10_ns_collision_refuted :
  exists cur nss h rns spl k v,
    let st := after cur nss h in
    no_alter h = true /\
    resolve [] (sp st) rns spl = RVar k /\ last_def cur h k None = Some v /\
    read st Indirect (RR rns None spl) = OVal v /\ read st Direct (RR rns None spl) <> OVal v /\
    (exists m1 m2, m1 <> m2 /\ mem_str m1 nss = true /\ mem_str m2 nss = true /\ var_ns_sym m1 = var_ns_sym m2).
Proof. exact ns_collision_refuted. Qed.
Theorem C10_ns_collision_attribute_error :
  let h := [SInNs X; SDef v plain 1; SInNs U; SRequire X (Some fb); SRequire Y (Some fd)] in
  let st := run (minit U NSS) h in
  resolve [] (sp st) U (Qual fb v) = RVar (X, v) /\
  read st Indirect (RR U None (Qual fb v)) = OVal 1 /\
  read st Direct (RR U None (Qual fb v)) = OErr E_ATTR.
Proof. exact ns_collision_attribute_error. Qed.

(** ---- the guards are met: by a concrete history with three namespaces, aliases, refers, all
         flag kinds and root mutations, and by EVERY history of defs / alter-var-roots of plain
         names in one namespace ---- *)
Example C10_guards_nonvacuous :
  no_collision (minit U [U; X]) h_good = true /\ priv_stable (init U [U; X]) h_good = true.
Proof. exact guards_nonvacuous. Qed.
Example C10_modes_agree_nonvacuous :
  no_collision (minit U [U; X]) h_good_defs_only = true /\ no_alter h_good_defs_only = true.
Proof. exact modes_agree_nonvacuous. Qed.
Theorem C10_guard_holds_for_plain_defs : forall cur h,
  forallb def_only h = true -> forallb (avoids_aliases [cur]) h = true ->
  no_collision (minit cur [cur]) h = true.
Proof. exact plain_defs_guard. Qed.

(** ---- thread bindings of dynamic Vars (one thread) ---- *)
(** entering and leaving bindings never changes a root, a flag, a refer, an alias or a module
    global: the base state after an extended history is the state after its base steps *)
Theorem C10_bindings_do_not_touch_roots : forall cur nss h,
  base (xafter cur nss h) = after cur nss (base_steps h).
Proof. exact base_xafter. Qed.

(** the reference semantics' open frames are the ones read off the history, ALL histories *)
Theorem C10_thread_view_is_innermost : forall cur nss h k,
  thread_view (xsafter cur nss h) k =
  if is_dynamic (xs_base (xsafter cur nss h)) k then option_map fst (innermost cur h k) else None.
Proof. exact thread_view_is_innermost. Qed.

(** ALL histories, both linking modes, every spelling, no guard: a read of a Var inside a
    binding of it -- the Var having kept its dynamic marking since the binding was entered --
    yields the value of the INNERMOST open binding, whatever defs / redefinitions / root
    mutations / bindings of other Vars / namespace steps happened before or since *)
Theorem C10_read_sees_innermost_binding : forall cur nss h md rns loc spl k v,
  let st := xafter cur nss h in
  resolve (locals_of loc) (sp (base st)) rns spl = RVar k ->
  innermost cur h k = Some (v, true) ->
  xread st md (RR rns loc spl) = OVal v.
Proof. exact read_sees_innermost_binding. Qed.
(** (only a Var marked dynamic has such a binding) *)
Theorem C10_innermost_binding_is_of_dynamic_var : forall cur nss h k v,
  innermost cur h k = Some (v, true) -> is_dynamic (sp (base (xafter cur nss h))) k = true.
Proof. exact innermost_is_dynamic. Qed.

(** ALL histories: a Var without an open binding, and every Var not marked dynamic (they ignore
    bindings), reads as in the binding-free theorems above, applied to the defs / root
    mutations of the history: [C10_read_root], [C10_read_after_def_partial], ... *)
Theorem C10_read_without_binding : forall cur nss h md rq k,
  let st := xafter cur nss h in
  (let '(RR rns loc spl) := rq in resolve (locals_of loc) (sp (base st)) rns spl = RVar k) ->
  innermost cur h k = None \/ is_dynamic (sp (base st)) k = false ->
  xread st md rq = read (after cur nss (base_steps h)) md rq.
Proof. exact read_without_binding. Qed.

(** ALL histories [h] before and [s] after: entering a binding of a dynamic Var, running any
    defs / redefinitions (with or without ^:dynamic) / root mutations / namespace steps [t]
    and leaving it, every later read is what it would be had the binding never been entered,
    root changes made by [t] included.  Nested and enclosing bindings: [h] and [s] are
    arbitrary, remove the innermost pair first. *)
Theorem C10_binding_balanced : forall cur nss h m n v t s md rq,
  is_dynamic (sp (base (xafter cur nss h))) (m, n) = true ->
  forallb is_base t = true ->
  xread (xafter cur nss (h ++ BPush m n v :: t ++ BPop :: s)) md rq
  = xread (xafter cur nss (h ++ t ++ s)) md rq.
Proof. exact binding_balanced. Qed.
(** the whole state is restored: same base state, same frame stack, same store for every Var *)
Theorem C10_binding_balanced_state : forall cur nss h m n v t,
  is_dynamic (sp (base (xafter cur nss h))) (m, n) = true ->
  forallb is_base t = true ->
  let a := xafter cur nss (h ++ BPush m n v :: t ++ [BPop]) in
  let b := xafter cur nss (h ++ t) in
  base a = base b /\ mframes (bs a) = mframes (bs b) /\ forall k, stack_of (bs a) k = stack_of (bs b) k.
Proof. exact binding_balanced_state. Qed.

(** under the guards the model of the code meets the reference semantics: every read is
    accepted by [bread_ok] (innermost open frame of a dynamic Var, else [read_ok]), and every
    step -- entering and leaving bindings included -- succeeds in the one iff in the other *)
Theorem C10_model_meets_spec_bind_partial : forall cur nss h md rq,
  no_collision (minit cur nss) (base_steps h) = true ->
  priv_stable (init cur nss) (base_steps h) = true ->
  dyn_stable (xsinit cur nss) h = true ->
  bread_ok (xsafter cur nss h) md rq (xread (xafter cur nss h) md rq) = true.
Proof. exact model_meets_spec_bind_partial. Qed.
Theorem C10_steps_agree_partial : forall cur nss h s,
  dyn_stable (xsinit cur nss) h = true ->
  snd (xexec (xafter cur nss h) s) = snd (xsexec (xsafter cur nss h) s).
Proof. exact steps_agree_partial. Qed.

(** without [dyn_stable] (finding F-10e): once a def has changed the dynamic marking of a bound
    Var, its open bindings are not seen any more -- ALL histories -- ... *)
Theorem C10_read_after_marking_change : forall cur nss h md rq k v,
  let st := xafter cur nss h in
  (let '(RR rns loc spl) := rq in resolve (locals_of loc) (sp (base st)) rns spl = RVar k) ->
  innermost cur h k = Some (v, false) ->
  xread st md rq = read (after cur nss (base_steps h)) md rq.
Proof. exact read_after_marking_change. Qed.
(** ... although the Var may be dynamic again and still inside its binding form: the read
    yields the root, and leaving the form raises.  The other two guards hold. *)
Theorem C10_binding_survives_marking_change_refuted :
  exists cur nss h md rns spl k v,
    let st := xafter cur nss h in
    let xs := xsafter cur nss h in
    resolve [] (sp (base st)) rns spl = RVar k /\ is_dynamic (sp (base st)) k = true /\
    thread_view xs k = Some v /\
    xread st md (RR rns None spl) <> OVal v /\
    bread_ok xs md (RR rns None spl) (xread st md (RR rns None spl)) = false /\
    snd (xexec st BPop) <> snd (xsexec xs BPop) /\
    no_collision (minit cur nss) (base_steps h) = true /\ priv_stable (init cur nss) (base_steps h) = true.
Proof. exact binding_survives_marking_change_refuted. Qed.

(** the guards and premises are met: nested bindings of two Vars, redefinition and root mutation
    inside, reads from two namespaces; then the forms are left one by one *)
Example C10_bind_guards_nonvacuous :
  no_collision (minit U [U; X]) (base_steps h_out) = true /\
  priv_stable (init U [U; X]) (base_steps h_out) = true /\
  dyn_stable (xsinit U [U; X]) h_out = true.
Proof. exact bind_guards_nonvacuous. Qed.
Example C10_bind_reads_inside :
  let st := xafter U [U; X] h_in in
  innermost U h_in (U, dv) = Some (6, true) /\ innermost U h_in (U, dw) = Some (70, true) /\
  innermost U h_in (U, Refuted.v) = None /\
  last_given U (base_steps h_in) (U, dv) None = Some 4 /\
  xread st Direct (RR U None (Bare dv)) = OVal 6 /\ xread st Indirect (RR U None (Bare dv)) = OVal 6 /\
  xread st Direct (RR X None (Qual U dv)) = OVal 6 /\
  xread st Direct (RR U None (Bare dw)) = OVal 70 /\
  xread st Direct (RR U None (Bare Refuted.v)) = OVal 8 /\
  xread st Direct (RR U (Some (dv, 77)) (Bare dv)) = OVal 77.
Proof. exact bind_reads_inside. Qed.
Example C10_bind_reads_after :
  let st1 := xafter U [U; X] (h_in ++ [BPop]) in
  let st2 := xafter U [U; X] (h_in ++ [BPop; BPop]) in
  let st := xafter U [U; X] h_out in
  xread st1 Direct (RR U None (Bare dv)) = OVal 5 /\
  xread st2 Direct (RR U None (Bare dw)) = OVal 7 /\
  innermost U h_out (U, dv) = None /\
  xread st Direct (RR X None (Qual uu dv)) = OVal 9 /\
  xread st Indirect (RR X None (Qual U dv)) = OVal 9 /\
  snd (xexec st BPop) = false.
Proof. exact bind_reads_after. Qed.

Print Assumptions C10_table_values_shape.
Print Assumptions C10_table_keys_distinct.
Print Assumptions C10_table_values_distinct.
Print Assumptions C10_table_keys_ok.
Print Assumptions C10_table_reserved_ok.
Print Assumptions C10_munge_simple_names.
Print Assumptions C10_translate_injective.
Print Assumptions C10_munge_injective_on_plain_names.
Print Assumptions C10_munge_not_injective.
Print Assumptions C10_spellings_agree.
Print Assumptions C10_names_distinct.
Print Assumptions C10_locals_shadow.
Print Assumptions C10_private_unreachable.
Print Assumptions C10_private_unreachable_partial.
Print Assumptions C10_private_unreachable_refuted.
Print Assumptions C10_read_indirect.
Print Assumptions C10_read_root.
Print Assumptions C10_read_after_def_partial.
Print Assumptions C10_read_is_last_def_partial.
Print Assumptions C10_modes_agree_partial.
Print Assumptions C10_model_meets_spec_partial.
Print Assumptions C10_munge_collision_refuted.
Print Assumptions C10_munge_collision_pairs.
Print Assumptions C10_ns_collision_refuted.
Print Assumptions C10_ns_collision_attribute_error.
Print Assumptions C10_guards_nonvacuous.
Print Assumptions C10_modes_agree_nonvacuous.
Print Assumptions C10_guard_holds_for_plain_defs.
Print Assumptions C10_bindings_do_not_touch_roots.
Print Assumptions C10_thread_view_is_innermost.
Print Assumptions C10_read_sees_innermost_binding.
Print Assumptions C10_innermost_binding_is_of_dynamic_var.
Print Assumptions C10_read_without_binding.
Print Assumptions C10_binding_balanced.
Print Assumptions C10_binding_balanced_state.
Print Assumptions C10_model_meets_spec_bind_partial.
Print Assumptions C10_steps_agree_partial.
Print Assumptions C10_read_after_marking_change.
Print Assumptions C10_binding_survives_marking_change_refuted.
Print Assumptions C10_bind_guards_nonvacuous.
Print Assumptions C10_bind_reads_inside.
Print Assumptions C10_bind_reads_after.
