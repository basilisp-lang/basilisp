(** C18 -- multimethod dispatch depends only on the current methods, preferences, hierarchy.
    This file contains only statements, each closed by [exact], and Print Assumptions.

    Model of the code: C18/Hierarchy.v (core.lpy hierarchies), C18/MultiFn.v (multifn.py),
    C18/Model.v (one multimethod over a private hierarchy reference, histories).
    Specification: C18/Spec.v.  [supers]/[sub] are Python's class relation (parameters). *)
From Coq Require Import List Bool NArith Relations Permutation.
Import ListNotations.
From Verif Require Import C18.Base C18.Hierarchy C18.HierarchyProofs C18.MultiFn C18.MultiFnProofs
     C18.Spec C18.SpecProofs C18.IsaProofs C18.Model C18.Proofs C18.Corr C18.Concrete.

(** * the hierarchy *)

(** After ANY history of derive/underive (failed ones raise and change nothing) the three maps
    are mutually consistent: :ancestors is the transitive closure of :parents, :descendants
    its converse, and there is no cycle. *)
Theorem C18_hierarchy_closed : forall ops : list hop,
  let h := fold_left hstep ops make_hierarchy in
  (forall x y, In (x, y) (ha h) <-> clos_trans tag (fun a b => In (a, b) (hp h)) x y) /\
  (forall x y, In (x, y) (hd h) <-> In (y, x) (ha h)) /\
  (forall x, ~ In (x, x) (ha h)).
Proof. exact hierarchy_closed_explicit. Qed.

(** underive never fails on such a hierarchy; it removes exactly the one parent pair and the
    transitive entries are recomputed from what is left (whatever order the re-derivation
    takes: [rebuild] is proved for every list). *)
Theorem C18_underive_recomputes : forall h t p,
  closed h ->
  exists h', underive h t p = Some h' /\ closed h' /\
             (forall x y, In (x, y) (hp h') <-> In (x, y) (hp h) /\ (x, y) <> (t, p)).
Proof. exact underive_closed. Qed.

(** derive adds exactly the pair, or refuses (equal tags, wrong kinds, cycle) *)
Theorem C18_derive_adds : forall h t p h',
  closed h -> derive h t p = Some h' ->
  closed h' /\ (forall x y, In (x, y) (hp h') <-> In (x, y) (hp h) \/ (x = t /\ y = p)).
Proof. exact derive_closed. Qed.

(** isa? is the reflexive-transitive closure of (parent pairs + class inheritance) on
    keywords/symbols/classes, and pointwise on vectors of EQUAL length (finding F-18a, F-18c
    repaired). *)
Theorem C18_isa_is_closure : forall (supers : N -> list N) (sub : N -> N -> bool),
  (forall a b, sub a b = true <-> a = b \/ In b (supers a)) ->
  (forall a s s', In s (supers a) -> In s' (supers s) -> In s' (supers a)) ->
  forall h, closed h ->
  forall x y, isa supers sub h x y = true <-> isa_ref supers (hp h) x y.
Proof. exact isa_is_closure. Qed.

Theorem C18_isa_vector_length : forall (supers : N -> list N) (sub : N -> N -> bool),
  (forall a b, sub a b = true <-> a = b \/ In b (supers a)) ->
  (forall a s s', In s (supers a) -> In s' (supers s) -> In s' (supers a)) ->
  forall h, closed h ->
  forall xs ys, isa supers sub h (V xs) (V ys) = true <->
                Forall2 (fun a b => isa supers sub h a b = true) xs ys.
Proof. exact (fun supers sub _ _ => isa_vector_pointwise supers sub). Qed.

(** the executable references used by the correspondence check are the declarative ones *)
Theorem C18_isa_ref_decided : forall (supers : N -> list N),
  (forall a s s', In s (supers a) -> In s' (supers s) -> In s' (supers a)) ->
  forall P, wf_pairs P -> forall x y, isa_ref_b supers P x y = true <-> isa_ref supers P x y.
Proof. exact isa_ref_b_spec. Qed.

Theorem C18_tc_decided : forall P x y, tc_dec P x y = true <-> clos_trans tag (fun a b => In (a, b) P) x y.
Proof. exact tc_dec_spec. Qed.

(** the hypotheses on the class relation are met by the harness's classes *)
Example C18_class_env_ok :
  (forall a b, c_sub a b = true <-> a = b \/ In b (c_supers a)) /\
  (forall a s s', In s (c_supers a) -> In s' (c_supers s) -> In s' (c_supers a)).
Proof. exact (conj c_sub_spec c_supers_trans). Qed.

(** * the dispatch cache *)

(** After ANY history (every re-arrangement [sh] of the method table, even a non-permuting
    one) every cache entry is what a from-scratch search under the snapshot hierarchy
    returns, and a call returns what a from-scratch search under the CURRENT tables and
    hierarchy returns. *)
Theorem C18_cache_transparent : forall supers sub sh ops d,
  let w := snd (run supers sub sh (init d) ops) in
  (forall k v, lookup tag tag_eqb k (cache (mf w)) = Some v ->
               fresh tag hier tag_eqb (m_isa supers sub) (cached_h (mf w)) (mf w) k = RMethod v) /\
  (forall k, fst (call tag hier tag_eqb (m_isa supers sub) hier_eqb k w)
             = fresh tag hier tag_eqb (m_isa supers sub) (w_hier w) (mf w) k).
Proof. exact cache_transparent_explicit. Qed.

(** so what a call does never depends on earlier calls *)
Theorem C18_calls_do_not_matter : forall supers sub sh ops d k,
  fst (call tag hier tag_eqb (m_isa supers sub) hier_eqb k (snd (run supers sub sh (init d) ops)))
  = fst (call tag hier tag_eqb (m_isa supers sub) hier_eqb k
           (snd (run supers sub sh (init d) (filter (fun o => negb (is_call o)) ops)))).
Proof. exact calls_do_not_matter. Qed.

(** * the choice *)

(** every step of every history has the same outcome for every iteration order of the method
    table (finding F-18b repaired) *)
Theorem C18_order_independent : forall supers sub sh1 sh2 ops d,
  perm_fn sh1 -> perm_fn sh2 ->
  fst (run supers sub sh1 (init d) ops) = fst (run supers sub sh2 (init d) ops).
Proof. exact order_independent. Qed.

(** the search of _find_and_cache_method IS the reference resolution *)
Theorem C18_search_is_reference : forall (key H : Type) (key_eqb : key -> key -> bool)
    (isa : H -> key -> key -> bool),
  (forall a b, key_eqb a b = true <-> a = b) -> (forall h x, isa h x x = true) ->
  forall h (m : mfn key H) k,
  NoDup (map fst (methods m)) ->
  find key H key_eqb isa h m k = resolve_ref key key_eqb (isa h) (methods m) (prefs m) (dflt m) k.
Proof. exact find_is_resolve_ref. Qed.

(** and the reference resolution meets the prescription, which is deterministic *)
Theorem C18_reference_meets_prescription : forall (key : Type) (key_eqb : key -> key -> bool),
  (forall a b, key_eqb a b = true <-> a = b) ->
  forall isa M Pf d k, NoDup (map fst M) ->
  resolves key isa M Pf d k (resolve_ref key key_eqb isa M Pf d k).
Proof. exact resolve_ref_correct. Qed.

Theorem C18_prescription_deterministic : forall (key : Type) isa (M : list (key * N)) Pf d k r1 r2,
  (forall c m m', In (c, m) M -> In (c, m') M -> m = m') ->
  resolves key isa M Pf d k r1 -> resolves key isa M Pf d k r2 -> r1 = r2.
Proof. exact resolves_functional. Qed.

(** the reference resolution reads the method table and the preferences only as sets: the
    order in which methods were added / preferences declared is immaterial *)
Theorem C18_insertion_order_irrelevant : forall (key : Type) (key_eqb : key -> key -> bool),
  (forall a b, key_eqb a b = true <-> a = b) ->
  forall isa (M1 M2 : list (key * N)) (Pf1 Pf2 : list (key * key)) d,
  (forall e, In e M1 <-> In e M2) -> (forall e, In e Pf1 <-> In e Pf2) ->
  forall k, NoDup (map fst M1) -> NoDup (map fst M2) ->
  resolve_ref key key_eqb isa M1 Pf1 d k = resolve_ref key key_eqb isa M2 Pf2 d k.
Proof. exact resolve_ref_sets. Qed.

(** every step and every call of every history does what the specification's machine does --
    for every iteration order -- provided no call is made with a dispatch value that has a
    method of its own while another matching key dominates it ([s_guard], executable). *)
Theorem C18_choice_partial : forall (supers : N -> list N) (sub : N -> N -> bool),
  (forall a b, sub a b = true <-> a = b \/ In b (supers a)) ->
  forall sh ops d,
  perm_fn sh -> s_guard_run supers (s_init d) ops = true ->
  fst (run supers sub sh (init d) ops) = fst (s_run supers (s_init d) ops).
Proof. exact choice_partial. Qed.

Example C18_choice_guard_nontrivial :
  s_guard_run c_supers (s_init (K 0)) ops_guarded = true
  /\ fst (s_run c_supers (s_init (K 0)) ops_guarded)
     = [SOk; SOk; SOk; SOk; SRes RAmbiguous; SOk; SRes (RMethod 1); SOk; SOk; SRes (RMethod 3);
        SOk; SRes (RMethod 2); SRes RNoMethod]%N.
Proof. exact choice_guard_nontrivial. Qed.

(** without the guard the clause fails (finding F-18d, open): the exact key's method runs
    although a preference for one of its ancestors makes the choice ambiguous *)
Theorem C18_choice_refuted :
  exists ops d, fst (run c_supers c_sub id_shuffle (init d) ops) <> fst (s_run c_supers (s_init d) ops).
Proof. exact choice_refuted. Qed.

(** * the three repaired findings, on the functions of the pinned tree (kept in the model
      files as [find_legacy], [isa_legacy]) *)
Example C18_legacy_single_pass_order_dependent :
  Permutation [(kc, 3); (kb, 2); (ka, 1)]%N [(ka, 1); (kb, 2); (kc, 3)]%N
  /\ find_legacy tag hier tag_eqb (isa c_supers c_sub) h_f18b
       (mk_mfn h_f18b [(kc, 3); (kb, 2); (ka, 1)]%N pf_f18b) kx = RMethod 1
  /\ find_legacy tag hier tag_eqb (isa c_supers c_sub) h_f18b
       (mk_mfn h_f18b [(ka, 1); (kb, 2); (kc, 3)]%N pf_f18b) kx = RAmbiguous
  /\ find tag hier tag_eqb (isa c_supers c_sub) h_f18b
       (mk_mfn h_f18b [(kc, 3); (kb, 2); (ka, 1)]%N pf_f18b) kx = RAmbiguous
  /\ find tag hier tag_eqb (isa c_supers c_sub) h_f18b
       (mk_mfn h_f18b [(ka, 1); (kb, 2); (kc, 3)]%N pf_f18b) kx = RAmbiguous.
Proof. exact legacy_single_pass_order_dependent. Qed.

Example C18_legacy_single_pass_diamond :
  find_legacy tag hier tag_eqb (isa c_supers c_sub) h_diamond
    (mk_mfn h_diamond [(kd, 3); (kb, 1); (kc, 2)]%N []) kx = RMethod 3
  /\ find_legacy tag hier tag_eqb (isa c_supers c_sub) h_diamond
       (mk_mfn h_diamond [(kb, 1); (kc, 2); (kd, 3)]%N []) kx = RAmbiguous
  /\ find tag hier tag_eqb (isa c_supers c_sub) h_diamond
       (mk_mfn h_diamond [(kb, 1); (kc, 2); (kd, 3)]%N []) kx = RMethod 3.
Proof. exact legacy_single_pass_diamond. Qed.

Example C18_legacy_isa_vector_truncates :
  isa_legacy c_supers c_sub make_hierarchy (V [ka]) (V [ka; kb]) = true
  /\ isa_legacy c_supers c_sub make_hierarchy (V []) (V [ka]) = true
  /\ isa c_supers c_sub make_hierarchy (V [ka]) (V [ka; kb]) = false
  /\ isa c_supers c_sub make_hierarchy (V []) (V [ka]) = false.
Proof. exact legacy_isa_vector_truncates. Qed.

Example C18_legacy_class_isa_not_transitive :
  isa_legacy c_supers c_sub h_f18c (C 2) (C 1) = true
  /\ isa_legacy c_supers c_sub h_f18c (C 1) ka = true
  /\ isa_legacy c_supers c_sub h_f18c (C 2) ka = false
  /\ isa c_supers c_sub h_f18c (C 2) ka = true.
Proof. exact legacy_class_isa_not_transitive. Qed.

Print Assumptions C18_hierarchy_closed.
Print Assumptions C18_underive_recomputes.
Print Assumptions C18_derive_adds.
Print Assumptions C18_isa_is_closure.
Print Assumptions C18_isa_vector_length.
Print Assumptions C18_isa_ref_decided.
Print Assumptions C18_tc_decided.
Print Assumptions C18_class_env_ok.
Print Assumptions C18_cache_transparent.
Print Assumptions C18_calls_do_not_matter.
Print Assumptions C18_order_independent.
Print Assumptions C18_search_is_reference.
Print Assumptions C18_reference_meets_prescription.
Print Assumptions C18_prescription_deterministic.
Print Assumptions C18_insertion_order_irrelevant.
Print Assumptions C18_choice_partial.
Print Assumptions C18_choice_guard_nontrivial.
Print Assumptions C18_choice_refuted.
Print Assumptions C18_legacy_single_pass_order_dependent.
Print Assumptions C18_legacy_single_pass_diamond.
Print Assumptions C18_legacy_isa_vector_truncates.
Print Assumptions C18_legacy_class_isa_not_transitive.
