(** C01 -- compiled programs compute the values their source denotes.
    Only statements, each closed by [exact], and Print Assumptions. *)
From Coq Require Import List ZArith NArith Bool.
Import ListNotations.
From Verif Require Import C01.Lisp C01.Py C01.Gen C01.Sim C01.Top.
From Verif Require C01.FLisp C01.FCorr C01.FRefuted.
From Verif Require C01L.LLisp C01L.LPy C01L.LGen C01L.LSim C01L.LTop.
From Verif Require C01X.XLisp C01X.XPy C01X.XGen C01X.XSim C01X.XTop.
From Verif Require C01C.CLisp C01C.CPy C01C.CGen C01C.CSim C01C.CTop.

(** First-order core (constants, locals with shadowing, if, do, let*, calls of primitives
    with any number of arguments, nested to any depth).  PARTIAL: guarded by the executable
    predicate [hazard_free] (no hoisting hazard, see C02), and this fragment does not
    contain fn/closures, loop/recur, try/throw (added by the theorems further down) nor def
    (covered by the executable model and the correspondence run only). *)
Theorem C01_compile_correct_partial : forall e v tr,
  eval (fun _ => None) e = Some (v, tr) -> hazard_free e = true -> run e = Some (v, tr).
Proof. exact Top.compile_correct. Qed.

(** the instance of the theorem above at a program sitting in any syntactic position, at any depth *)
Theorem C01_context_independent_partial : forall c p v tr,
  eval (fun _ => None) (plug c p) = Some (v, tr) -> hazard_free (plug c p) = true ->
  run (plug c p) = Some (v, tr).
Proof. exact (fun c p => Top.compile_correct (plug c p)). Qed.

(** only nil and false are falsey in compiled code *)
Theorem C01_truthiness : forall v a b,
  run (EIf (EConst v) (EConst a) (EConst b)) = Some (if falsey v then b else a, []).
Proof. exact Top.truthiness. Qed.

(** the general simulation invariant (open terms, any environment related to the frame) *)
Theorem C01_simulation : forall e, Sim.sim e.
Proof. exact Sim.sim_all. Qed.

Example C01_nonvacuous :
  hazard_free Top.sample = true /\
  eval (fun _ => None) Top.sample = Some (VVec [VInt 1; VInt 2], [VInt 1; VVec [VInt 1; VInt 2]]).
Proof. exact Top.sample_ok. Qed.

(** First-order core extended with loop*/recur (C01L): for every closed program whose
    evaluation yields a value, without a hoisting hazard and with pairwise distinct binders in
    each loop*, the compiled code yields the same value and trace for every sufficiently large
    fuel: one `while True` iteration per source iteration, recur rebinding all loop locals
    simultaneously.  PARTIAL: same guard as above; fn*/try/def are not in this fragment. *)
Theorem C01_compile_correct_loops_partial : forall fuel e v tr,
  LLisp.leval fuel (fun _ => None) e = Some (LLisp.OVal v, tr) -> LGen.hazard_free e = true ->
  exists m, forall m', (m <= m')%nat -> LGen.lrun m' e = Some (v, tr).
Proof. exact LTop.lcompile_correct. Qed.
Theorem C01_loop_simulation : forall fuel, LSim.lsim fuel.
Proof. exact LSim.lsim_all. Qed.
Example C01_recur_simultaneous :
  LGen.hazard_free LTop.swap_loop = true /\
  LLisp.leval 20 (fun _ => None) LTop.swap_loop = Some (LLisp.OVal (VVec [VInt 2; VInt 1]), []) /\
  LGen.lrun 20 LTop.swap_loop = Some (VVec [VInt 2; VInt 1], []).
Proof. exact LTop.swap_loop_ok. Qed.
Example C01_counting_loop :
  LGen.hazard_free LTop.count_loop = true /\
  LLisp.leval 40 (fun _ => None) LTop.count_loop = Some (LLisp.OVal (VVec [VInt 0; VInt 1; VInt 2]), [VInt 0; VInt 1; VInt 2]) /\
  LGen.lrun 40 LTop.count_loop = Some (VVec [VInt 0; VInt 1; VInt 2], [VInt 0; VInt 1; VInt 2]).
Proof. exact LTop.count_loop_ok. Qed.

(** The same core further extended with throw and try/catch/finally (C01X): every outcome of a
    closed program -- a value, or an exception that leaves it -- is reproduced by the compiled
    code with the same trace: raising skips to the nearest matching catch, the handler's local
    is bound to the exception and unbound afterwards, finally runs exactly once on every way
    out and its own exception replaces the pending outcome, exceptions leave enclosing loops.
    PARTIAL: guard [hazard_free] (no hoisting hazard, distinct loop binders, no recur in tail
    position of a try, which the source semantics excludes too: finding F-02c); fn*/def are
    not in this fragment. *)
Theorem C01_compile_correct_exceptions_partial : forall fuel e o tr,
  XLisp.xeval fuel (fun _ => None) e = Some (o, tr) -> XGen.hazard_free e = true ->
  match o with
  | XLisp.OVal v => exists m, forall m', (m <= m')%nat -> XGen.xrun m' e = Some (XGen.XRVal v tr)
  | XLisp.OExc c _ => exists m, forall m', (m <= m')%nat -> XGen.xrun m' e = Some (XGen.XRExc c tr)
  | XLisp.ORec _ => True
  end.
Proof. exact XTop.xcompile_correct. Qed.
Theorem C01_exception_simulation : forall fuel, XSim.xsim fuel.
Proof. exact XSim.xsim_all. Qed.
Example C01_catch_finally :
  XGen.hazard_free XTop.caught = true /\
  XLisp.xeval 30 (fun _ => None) XTop.caught = Some (XLisp.OVal (VExc 1 (VInt 7)), [VInt 1; VInt 3; VInt 4]) /\
  XGen.xrun 30 XTop.caught = Some (XGen.XRVal (VExc 1 (VInt 7)) [VInt 1; VInt 3; VInt 4]).
Proof. exact XTop.caught_ok. Qed.
Example C01_exception_leaves_loop :
  XGen.hazard_free XTop.escaping = true /\
  XLisp.xeval 60 (fun _ => None) XTop.escaping = Some (XLisp.OExc 2 (VInt 2), [VInt 0; VInt 1; VInt 2]) /\
  XGen.xrun 60 XTop.escaping = Some (XGen.XRExc 2 [VInt 0; VInt 1; VInt 2]).
Proof. exact XTop.escaping_ok. Qed.

(** Closures (C01C): the first-order core extended with fn* (one arity, any number of
    parameters, optionally named so that the body can call the function itself, shadowing of captured names by parameters and by inner let-bindings) and the invocation of
    function values.  Python function values refer to their defining frame BY REFERENCE (it is
    read when the function is called); the theorem shows that for every closed program of the
    fragment -- closures returned, stored, passed around and called any number of times -- the
    compiled code yields the same observable value and trace, i.e. every closure sees the
    bindings in effect when it was created.  The invariant that makes this true is that a frame
    only ever gains fresh names; loop*/recur (where generated code re-assigns a name) is exactly
    where it fails, which is finding F-01a.  PARTIAL: guard [hazard_free] (no hoisting hazard:
    here, a non-atomic argument may not be followed by an argument that needs statements;
    distinct parameters); loops, try and def are not in this fragment. *)
Theorem C01_compile_correct_closures_partial : forall fuel e v tr,
  CLisp.ceval fuel [] e = Some (v, tr) -> CGen.hazard_free e = true ->
  exists m, forall m', (m <= m')%nat -> CGen.crun m' e = Some (CLisp.obs_of v, tr).
Proof. exact CTop.ccompile_correct. Qed.
Theorem C01_closure_simulation : forall fuel, CSim.csim fuel.
Proof. exact CSim.csim_all. Qed.
Example C01_closures_keep_their_bindings :
  CGen.hazard_free CTop.counters = true /\
  CGen.ceval_obs 40 CTop.counters = Some (FLisp.OVec [FLisp.OInt 1; FLisp.OInt 2], []) /\
  CGen.crun 40 CTop.counters = CGen.ceval_obs 40 CTop.counters.
Proof. exact CTop.counters_ok. Qed.
Example C01_named_fn_recursion :
  CGen.hazard_free CTop.recursive = true /\
  CGen.ceval_obs 60 CTop.recursive =
    Some (FLisp.OVec [FLisp.OInt 0; FLisp.OInt 1; FLisp.OInt 2], [FLisp.OInt 0; FLisp.OInt 1; FLisp.OInt 2]) /\
  CGen.crun 60 CTop.recursive = CGen.ceval_obs 60 CTop.recursive.
Proof. exact CTop.recursive_ok. Qed.
Example C01_rebinding_does_not_reach_closure :
  CGen.hazard_free CTop.rebind = true /\
  CGen.ceval_obs 40 CTop.rebind = Some (FLisp.OVec [FLisp.OInt 1; FLisp.OInt 2], []) /\
  CGen.crun 40 CTop.rebind = CGen.ceval_obs 40 CTop.rebind.
Proof. exact CTop.rebind_ok. Qed.

(** Full fragment (fn*/closures, loop*/recur, try/catch/finally, throw, def, literals):
    executable model (FLisp/FPy/FGen) tied to the compiler by the correspondence run.  The
    full statement "model e = spec e for every program" is REFUTED by these witnesses, each
    with the hazard tag that delimits the corresponding finding: *)
Theorem C01_loop_capture_refuted :
  exists e, FCorr.spec e = FLisp.RVal (FLisp.OInt 0) [] /\ FCorr.model e = FLisp.RVal (FLisp.OInt 2) [] /\ FCorr.tag e = 2%N.
Proof. exact FRefuted.loop_capture_refuted. Qed.
Theorem C01_let_in_loop_capture_refuted :
  exists e, FCorr.spec e = FLisp.RVal (FLisp.OInt 0) [] /\ FCorr.model e = FLisp.RVal (FLisp.OInt 2) [] /\ FCorr.tag e = 2%N.
Proof. exact FRefuted.let_in_loop_capture_refuted. Qed.
Theorem C01_param_munge_shadow_refuted :
  exists e, FCorr.spec e = FLisp.RVal (FLisp.OInt 1) [] /\ FCorr.model e = FLisp.RVal (FLisp.OInt 2) [] /\ FCorr.tag e = 4%N.
Proof. exact FRefuted.param_munge_shadow_refuted. Qed.
Theorem C01_param_munge_duplicate_refuted :
  exists e, FCorr.spec e = FLisp.RVal (FLisp.OInt 1) [] /\ FCorr.model e = FLisp.RExc FGen.CLS_SYNTAX [] /\ FCorr.tag e = 4%N.
Proof. exact FRefuted.param_munge_duplicate_refuted. Qed.
Theorem C01_catch_var_capture_refuted :
  exists e, FCorr.spec e = FLisp.RVal (FLisp.OExc 1 (FLisp.OInt 7)) [] /\ FCorr.model e = FLisp.RExc FLisp.CLS_NAME [] /\ FCorr.tag e = 8%N.
Proof. exact FRefuted.catch_var_capture_refuted. Qed.
Example C01_full_model_agrees_sample :
  FCorr.spec FRefuted.w_ok = FLisp.RVal (FLisp.OVec [FLisp.OInt 0; FLisp.OInt 1; FLisp.OInt 2]) [FLisp.OInt 0; FLisp.OInt 1; FLisp.OInt 2; FLisp.OInt 99]
  /\ FCorr.model FRefuted.w_ok = FCorr.spec FRefuted.w_ok /\ FCorr.tag FRefuted.w_ok = 0%N.
Proof. exact FRefuted.full_model_agrees_sample. Qed.

Print Assumptions C01_compile_correct_partial.
Print Assumptions C01_compile_correct_loops_partial.
Print Assumptions C01_loop_simulation.
Print Assumptions C01_recur_simultaneous.
Print Assumptions C01_counting_loop.
Print Assumptions C01_loop_capture_refuted.
Print Assumptions C01_let_in_loop_capture_refuted.
Print Assumptions C01_param_munge_shadow_refuted.
Print Assumptions C01_param_munge_duplicate_refuted.
Print Assumptions C01_catch_var_capture_refuted.
Print Assumptions C01_full_model_agrees_sample.
Print Assumptions C01_context_independent_partial.
Print Assumptions C01_truthiness.
Print Assumptions C01_simulation.
Print Assumptions C01_nonvacuous.
Print Assumptions C01_compile_correct_exceptions_partial.
Print Assumptions C01_exception_simulation.
Print Assumptions C01_catch_finally.
Print Assumptions C01_exception_leaves_loop.
Print Assumptions C01_compile_correct_closures_partial.
Print Assumptions C01_closure_simulation.
Print Assumptions C01_closures_keep_their_bindings.
Print Assumptions C01_rebinding_does_not_reach_closure.
Print Assumptions C01_named_fn_recursion.
