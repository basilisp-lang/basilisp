(** C20 -- integer and ratio arithmetic is exact and quot/rem/mod obey their identities.
    This file contains only statements, each closed by [exact], and Print Assumptions.

    [arith], [divop], [unop], [cmpop] are the model of basilisp.core's [+ - * /],
    [quot rem mod], [inc dec inc' dec' - abs / zero?], [< <= > >= =]: the bodies of the defns
    of core.lpy and the handlers of lang/numbers.py as re-translated from the source on every
    check (Gen/Tables.v), instantiated with the model of CPython's int / Fraction / Decimal /
    float tower of C20/Model.v.  [den v] is the rational number an int or Fraction denotes;
    [normal v] says v is an int or a reduced Fraction with denominator <> 1. *)
From Coq Require Import List Bool ZArith NArith QArith Qreduction Qround Qabs String.
Import ListNotations.
From Verif Require Import Common.ListX Gen.Tables C20.Model C20.Spec C20.SpecProofs C20.Proofs.
Open Scope Q_scope.

(** Obligations on the tables regenerated from optimizer.py: every operator the optimizer
    rewrites gets the Python operator and operand order the operator module documents, and
    the twelve arithmetic / comparison names of the model are among the rewritten ones. *)
Theorem C20_table_operator_rewrites : forallb opt_entry_ok c20_opt_ops = true.
Proof. exact Proofs.opt_table_ok. Qed.
Theorem C20_table_modelled_operators_rewritten :
  forallb (fun n => match lookup_op n c20_opt_ops with Some _ => true | None => false end)
    [s "add"; s "sub"; s "mul"; s "truediv"; s "floordiv"; s "mod";
     s "lt"; s "le"; s "eq"; s "ne"; s "gt"; s "ge"] = true.
Proof. exact Proofs.modelled_ops_rewritten. Qed.

(** + - * / on integers and ratios of any magnitude are exactly rational arithmetic, and the
    result is again in normal form *)
Theorem C20_ring_exact : forall o x y, normal x -> normal y -> (o = ODiv -> ~ den y == 0) ->
  exists v, arith o x y = Val v /\ normal v /\ den v == qop o (den x) (den y).
Proof. intros o x y Hx Hy. exact (Proofs.ring_exact o x y (normal_exact x Hx) (normal_exact y Hy)). Qed.
Theorem C20_int_closed : forall a b,
  arith OAdd (PInt a) (PInt b) = Val (PInt (a + b)) /\
  arith OSub (PInt a) (PInt b) = Val (PInt (a - b)) /\
  arith OMul (PInt a) (PInt b) = Val (PInt (a * b)).
Proof. exact Proofs.int_closed. Qed.
Theorem C20_zero_divisor : forall x y, normal x -> normal y -> den y == 0 ->
  arith ODiv x y = Exc EZeroDiv /\ forall o, divop o x y = Exc EZeroDiv.
Proof. intros x y Hx Hy. exact (Proofs.zero_divisor x y (normal_exact x Hx) (normal_exact y Hy)). Qed.

(** an integral ratio is an integer: no operation returns a Fraction that denotes an integer *)
Theorem C20_integral_ratio_is_int : forall o x y v z, normal x -> normal y ->
  arith o x y = Val v -> den v == inject_Z z -> v = PInt z.
Proof. intros o x y v z Hx Hy. exact (Proofs.integral_ratio_is_int_arith o x y v z (normal_exact x Hx) (normal_exact y Hy)). Qed.
Theorem C20_integral_ratio_is_int_quot_rem_mod : forall o x y v z, normal x -> normal y ->
  divop o x y = Val v -> den v == inject_Z z -> v = PInt z.
Proof. intros o x y v z Hx Hy. exact (Proofs.integral_ratio_is_int_divop o x y v z (normal_exact x Hx) (normal_exact y Hy)). Qed.

(** for every non-zero divisor: x = y * quot + rem, quot is an integer, rem has the sign of
    x (or is zero) and is smaller in magnitude than y -- integers and ratios alike *)
Theorem C20_quot_rem : forall x y, normal x -> normal y -> ~ den y == 0 ->
  exists q r, divop OQuot x y = Val (PInt q) /\ divop ORem x y = Val r /\ normal r /\
              den x == den y * inject_Z q + den r /\
              (0 <= den x -> 0 <= den r) /\ (den x <= 0 -> den r <= 0) /\
              Qabs (den r) < Qabs (den y).
Proof. intros x y Hx Hy. exact (Proofs.quot_rem_identity x y (normal_exact x Hx) (normal_exact y Hy)). Qed.
(** mod is congruent to x modulo y, has the sign of y (or is zero), magnitude below |y| *)
Theorem C20_mod_sign : forall x y, normal x -> normal y -> ~ den y == 0 ->
  exists m k, divop OMod x y = Val m /\ normal m /\
              den x == den y * inject_Z k + den m /\
              (0 < den y -> 0 <= den m /\ den m < den y) /\
              (den y < 0 -> den y < den m /\ den m <= 0).
Proof. intros x y Hx Hy. exact (Proofs.mod_law x y (normal_exact x Hx) (normal_exact y Hy)). Qed.
(** mod and rem of the same operands differ by nothing or by the divisor: mod is rem when the
    remainder is zero or has the divisor's sign, and rem + y otherwise *)
Theorem C20_mod_is_rem_or_rem_plus_divisor : forall x y, normal x -> normal y -> ~ den y == 0 ->
  exists r m, divop ORem x y = Val r /\ divop OMod x y = Val m /\
              (den m == den r \/ den m == den r + den y) /\
              (den m == den r <->
               den r == 0 \/ (0 < den y /\ 0 < den r) \/ (den y < 0 /\ den r < 0)).
Proof. intros x y Hx Hy. exact (Proofs.mod_is_rem_or_rem_plus_divisor x y (normal_exact x Hx) (normal_exact y Hy)). Qed.
(** on integers they are Coq's Z.quot, Z.rem and Z.modulo *)
Theorem C20_int_quot_rem_mod : forall a b, b <> 0%Z ->
  divop OQuot (PInt a) (PInt b) = Val (PInt (Z.quot a b)) /\
  divop ORem (PInt a) (PInt b) = Val (PInt (Z.rem a b)) /\
  divop OMod (PInt a) (PInt b) = Val (PInt (a mod b)).
Proof. exact Proofs.int_quot_rem_mod. Qed.

(** the model of the code computes the reference semantics of Spec.v *)
Theorem C20_arith_is_reference : forall o x y, exactv x -> exactv y ->
  arith o x y = ref_arith o (den x) (den y).
Proof. exact Proofs.arith_is_ref. Qed.
Theorem C20_quot_rem_mod_is_reference : forall o x y, exactv x -> exactv y ->
  divop o x y = ref_divop o (den x) (den y).
Proof. exact Proofs.divop_is_ref. Qed.
Theorem C20_unary_is_reference : forall o x, normal x -> unop o x = ref_unop o (den x).
Proof. exact Proofs.unop_is_ref. Qed.
Theorem C20_compare_is_reference : forall o x y, exactv x -> exactv y ->
  cmpop o x y = ref_cmp o (den x) (den y).
Proof. exact Proofs.cmpop_is_ref. Qed.

(** result types over int, ratio, Decimal, float: the type of x (op) y is the larger of the
    operand types (exact < Decimal < float), so it depends only on the operand types and not
    on their order for + and *; no combination raises TypeError *)
Theorem C20_result_type_table : forall o x y, numeric x -> numeric y -> type_ok o x y (arith o x y).
Proof. exact Proofs.arith_type_table. Qed.
Theorem C20_result_type_commutes : forall o x y, numeric x -> numeric y -> o = OAdd \/ o = OMul ->
  res_kind (arith o x y) = res_kind (arith o y x) /\ res_kind (arith o x y) <> None.
Proof. exact Proofs.type_commutes. Qed.
Theorem C20_no_type_error : forall o x y, numeric x -> numeric y -> arith o x y <> Exc EType.
Proof. exact Proofs.no_type_error. Qed.

(** inlined call = call of the function object, for every expression over the modelled
    functions (whichever of them carry ^:inline), and rewritten operator = operator function *)
Theorem C20_inline_equals_apply : forall e, eval_inline e = eval_apply e.
Proof. exact Proofs.inline_equals_apply. Qed.
Theorem C20_operator_rewrite_sound : forall name a b, lookup_op name c20_opt_ops <> None ->
  rewritten name a b = operator_call name a b.
Proof. exact Proofs.rewrite_sound. Qed.

(** non-vacuity: operands beyond 2^53, ratios, and premises that are met *)
Example C20_nonvacuous_big :
  arith OAdd (PInt (2 ^ 53)) (PInt 1) = Val (PInt 9007199254740993) /\
  arith OMul (PInt (10 ^ 30 + 1)) (PInt (10 ^ 30 - 1)) = Val (PInt (10 ^ 60 - 1)) /\
  arith ODiv (PInt (2 ^ 64)) (PInt (2 ^ 62)) = Val (PInt 4) /\
  arith ODiv (PInt (2 ^ 64 + 1)) (PInt 3) = Val (PFrac (18446744073709551617 # 3)) /\
  divop OQuot (PInt (- (10 ^ 30) - 1)) (PInt 7) = Val (PInt (-142857142857142857142857142857)) /\
  divop ORem (PInt (- (10 ^ 30) - 1)) (PInt 7) = Val (PInt (-2)) /\
  divop OMod (PInt (- (10 ^ 30) - 1)) (PInt 7) = Val (PInt 5) /\
  divop OQuot (PFrac (7 # 2)) (PFrac (1 # 3)) = Val (PInt 10) /\
  divop ORem (PFrac (-7 # 2)) (PFrac (1 # 3)) = Val (PFrac (-1 # 6)) /\
  divop OMod (PFrac (-7 # 2)) (PFrac (1 # 3)) = Val (PFrac (1 # 6)) /\
  arith OAdd (PFrac (1 # 2)) (PFrac (1 # 2)) = Val (PInt 1) /\
  normal (PFrac (7 # 2)) /\ normal (PFrac (1 # 3)) /\ ~ den (PFrac (1 # 3)) == 0.
Proof. exact Proofs.big_ints. Qed.
Example C20_nonvacuous_inline :
  existsb inlined [UInc; UDec; UIncq; UDecq; UNeg; UAbs; UInv; UZerop] = true /\
  eval_inline (XUn UInc (XArith ODiv (XLit (PInt 1)) (XLit (PInt 2)))) = Val (PFrac (3 # 2)) /\
  eval_inline (XUn UInc (XArith ODiv (XLit (PInt 1)) (XLit (PInt 0)))) = Exc EZeroDiv.
Proof. exact Proofs.inline_example. Qed.

Print Assumptions C20_table_operator_rewrites.
Print Assumptions C20_table_modelled_operators_rewritten.
Print Assumptions C20_ring_exact.
Print Assumptions C20_int_closed.
Print Assumptions C20_zero_divisor.
Print Assumptions C20_integral_ratio_is_int.
Print Assumptions C20_integral_ratio_is_int_quot_rem_mod.
Print Assumptions C20_quot_rem.
Print Assumptions C20_mod_sign.
Print Assumptions C20_mod_is_rem_or_rem_plus_divisor.
Print Assumptions C20_int_quot_rem_mod.
Print Assumptions C20_arith_is_reference.
Print Assumptions C20_quot_rem_mod_is_reference.
Print Assumptions C20_unary_is_reference.
Print Assumptions C20_compare_is_reference.
Print Assumptions C20_result_type_table.
Print Assumptions C20_result_type_commutes.
Print Assumptions C20_no_type_error.
Print Assumptions C20_inline_equals_apply.
Print Assumptions C20_operator_rewrite_sound.
Print Assumptions C20_nonvacuous_big.
Print Assumptions C20_nonvacuous_inline.
