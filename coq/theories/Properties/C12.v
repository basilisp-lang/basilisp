(** C12 -- Atom updates are atomic under every thread schedule and always terminate.
    This file contains only statements, each an instance of a theorem that C12/ proves for
    any value universe (or a closed computation for witnesses), and Print Assumptions.

    The machine ([Model.step]) is the model of atom.py / reference.py / the core.lpy retry
    loops with the lock explicit; [reach (init v0 progs) s] ranges over ALL interleavings of
    ANY number of threads running ANY operation lists.  [cas_ok] is the compare-and-set
    test regenerated from atom.py ([Gen.Tables.atom_cas_mode]); [apply], [valid] are the
    update functions / validator of the test universe (the abstract lemmas behind these
    statements are proved for arbitrary ones). *)
From Coq Require Import List Bool Arith ZArith NArith Lia.
Import ListNotations.
From Verif Require Import Common.ListX Gen.Tables.
From Verif Require Import C12.Spec C12.Model C12.Corr.
From Verif Require Import C12.Proofs C12.ProofsHist C12.ProofsLin C12.ProofsTerm C12.ProofsConc C12.Witness.

Notation mstep vld nw := (@step val fn cas_ok apply (valid vld) nw).
Notation mreach vld nw := (@reach val fn cas_ok apply (valid vld) nw).

(** Obligation on the regenerated table: the test in _compare_and_set is
    `self._state is not old and self._state != old` (identity first). *)
Theorem C12_table_cas_mode : atom_cas_mode = 1%N.
Proof. exact ProofsConc.cas_mode_is_1. Qed.

(** Mutual exclusion: at most one thread is between taking and releasing the lock. *)
Theorem C12_mutual_exclusion : forall vld nw v0 progs s t u,
  mreach vld nw (init v0 progs) s ->
  in_cs (t_pc (thr s t)) = true -> in_cs (t_pc (thr s u)) = true -> t = u.
Proof. intros vld nw. exact (Proofs.mutual_exclusion cas_ok apply (valid vld) nw). Qed.

(** Linearizability, for all interleavings, when every value in play is [plain] (its ==
    is identity: no 1/1.0, no pathological __eq__): the ghost history read in commit order
    is a sequential execution of the specification that ends in the current cell and
    produces, for every thread, exactly the results its calls returned, in program order;
    and every install compared against the very object then in the cell. *)
Theorem C12_linearizable_partial : forall vld nw v0 progs s,
  plain v0 = true -> (forall t, forallb (opP plain fn_plain) (progs t) = true) ->
  mreach vld nw (init v0 progs) s ->
  let lin := rev (hist s) in
  seq_run cas_ok apply (valid vld) v0 (map (@e_op val fn) lin) = (cell s, map (@e_res val fn) lin)
  /\ (forall t, evs t (hist s) = pend apply (valid vld) (thr s t) ++ dones (thr s t)
                /\ progs t = rev (map fst (dones (thr s t))) ++ t_ops (thr s t))
  /\ (forall e, In e (hist s) -> installs (e_op e) (e_res e) = true -> e_read e = e_before e).
Proof.
  intros vld nw v0 progs.
  exact (ProofsLin.linearizable cas_ok apply (valid vld) nw v0 progs plain fn_plain plain_apply plain_id).
Qed.

(** the guard is satisfiable on a non-trivial execution: two racing swap! inc, one retry *)
Example C12_linearizable_guard_inhabited :
  exists s, mreach (c_vld inc_inc_case) (c_nwatch inc_inc_case) (init_state inc_inc_case) s
            /\ cell s = VInt 2 /\ length (hist s) = 2
            /\ (exists d, t_done (thr s 0) = [d] /\ snd d = 1)      (* thread 0 retried once *)
            /\ plain (c_init inc_inc_case) = true
            /\ forallb (forallb (opP plain fn_plain)) (c_threads inc_inc_case) = true.
Proof. exact Witness.guard_inhabited. Qed.

(** Without the guard the clause is false for the code as it is: 1 and 1.0.  Thread 0 runs
    (swap! a str), thread 1 (reset! a 1.0) on an atom holding 1; thread 0 reads 1, thread 1
    installs 1.0, thread 0's compare-and-set succeeds because 1.0 == 1 and installs "1":
    neither order of the two calls gives "1" as the final value. *)
Theorem C12_eq_aba_refuted :
  exists c s, run_case c = Some s
    /\ mreach (c_vld c) (c_nwatch c) (init_state c) s
    /\ (forall t, t < length (c_threads c) -> t_ops (thr s t) = [])   (* every call has returned *)
    /\ cell s = VStr [49%N]                                           (* final value "1" *)
    /\ (exists e, In e (hist s) /\ e_read e <> e_before e /\ installs (e_op e) (e_res e) = true)
    /\ spec_ok c (model c) = false.                       (* no sequential order explains it *)
Proof. exact Witness.eq_aba_refuted. Qed.

(** A value rejected by the validator is never in the cell: for all interleavings, if the
    initial value is valid then so is every value the cell ever holds (hence every value
    any deref/read returns and every value passed to a watch). *)
Theorem C12_validator_never_visible : forall vld nw v0 progs s,
  valid vld v0 = true -> mreach vld nw (init v0 progs) s ->
  valid vld (cell s) = true
  /\ (forall e, In e (hist s) -> valid vld (e_before e) = true /\ valid vld (e_after e) = true)
  /\ (forall k o n, In (k, o, n) (wlog s) -> valid vld n = true).
Proof. intros vld nw v0 progs. exact (ProofsHist.validator_never_visible cas_ok apply (valid vld) nw v0 progs). Qed.

(** Every watch notification (k, old, new), under every interleaving, is the notification
    of a committed install: some event of the history installed [new] over a cell value
    [before] that passed the compare-and-set test against [old] ... *)
Theorem C12_watch_pairs_are_commits : forall vld nw v0 progs s k o n,
  mreach vld nw (init v0 progs) s -> In (k, o, n) (wlog s) ->
  k < nw /\ exists e, In e (hist s) /\ e_read e = o /\ e_after e = n
                      /\ cas_ok (e_before e) o = true.
Proof. intros vld nw v0 progs. exact (ProofsHist.watch_pairs_are_commits cas_ok apply (valid vld) nw v0 progs). Qed.

(** ... and for plain values it is exactly a transition the cell made: old -> new. *)
Theorem C12_watch_pairs_are_transitions_partial : forall vld nw v0 progs s k o n,
  plain v0 = true -> (forall t, forallb (opP plain fn_plain) (progs t) = true) ->
  mreach vld nw (init v0 progs) s -> In (k, o, n) (wlog s) ->
  exists e, In e (hist s) /\ e_before e = o /\ e_after e = n.
Proof.
  intros vld nw v0 progs s k o n.
  exact (ProofsLin.watch_pairs_are_transitions cas_ok apply (valid vld) nw v0 progs plain fn_plain plain_apply plain_id s k o n).
Qed.

(** Termination without interference, whatever the atom holds (NaN, objects with any
    __eq__): started with the lock free and left alone, every operation finishes within
    9 + #watches of its own steps, with NO retry (the retry counter recorded with the result
    is the one it started with), returns what the sequential specification prescribes and
    leaves the prescribed value in the cell.  [Fin] is defined in C12/ProofsTerm.v. *)
Theorem C12_terminates_solo : forall vld nw s t o rest,
  t_ops (thr s t) = o :: rest -> t_pc (thr s t) = PIdle -> lock s = None ->
  Fin cas_ok apply (valid vld) nw s t rest o
      (snd (seq_step cas_ok apply (valid vld) o (cell s)))
      (fst (seq_step cas_ok apply (valid vld) o (cell s))) (9 + nw).
Proof. intros vld nw. exact (ProofsTerm.terminates_solo cas_ok apply (valid vld) nw cas_ok_refl). Qed.

Example C12_terminates_solo_on_nan :
  exists n s', n <= 9
    /\ solo cas_ok apply (valid None) 0 0 n (init (VNaN 0) (progs_of [[OReset Py (VInt 1) false]])) = Some s'
    /\ cell s' = VInt 1 /\ t_ops (thr s' 0) = [].
Proof.
  destruct (C12_terminates_solo None 0 (init (VNaN 0) (progs_of [[OReset Py (VInt 1) false]])) 0
              (OReset Py (VInt 1) false) [] eq_refl eq_refl eq_refl)
    as (n & s' & Hn & Hs & H1 & H2 & H3 & H4 & H5).
  exists n, s'. repeat split; auto.
Qed.

(** The defect this replaced (finding F-12a, fixed): with the former test `self._state !=
    old` a reset on an atom holding NaN, running alone, never finishes. *)
Theorem C12_eq_only_cas_spins : forall k w vals rest t nw (s : state val fn),
  cell s = VNaN k -> t_ops (thr s t) = OReset Py w vals :: rest -> t_pc (thr s t) = PIdle ->
  lock s = None ->
  forall n, exists s', solo (cas_test 0) apply (valid None) nw t n s = Some s'
                       /\ t_ops (thr s' t) = OReset Py w vals :: rest.
Proof.
  intros k w vals rest t nw s.
  exact (reset_never_finishes (cas_test 0) apply (valid None) nw t (VNaN k) w vals rest
           (eq_only_not_refl k) eq_refl s).
Qed.

Print Assumptions C12_table_cas_mode.
Print Assumptions C12_mutual_exclusion.
Print Assumptions C12_linearizable_partial.
Print Assumptions C12_linearizable_guard_inhabited.
Print Assumptions C12_eq_aba_refuted.
Print Assumptions C12_validator_never_visible.
Print Assumptions C12_watch_pairs_are_commits.
Print Assumptions C12_watch_pairs_are_transitions_partial.
Print Assumptions C12_terminates_solo.
Print Assumptions C12_terminates_solo_on_nan.
Print Assumptions C12_eq_only_cas_spins.
