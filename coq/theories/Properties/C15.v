(** C15 -- the Python-AST optimization pass never changes what generated code does.
    Only statements, each closed by [exact] (the table obligations by evaluation), and Print Assumptions. *)
From Coq Require Import List ZArith NArith Bool.
Import ListNotations.
From Verif Require Import C15.Tree C15.Opt C15.Allowed C15.Corr C15.Sound C15.Refuted Gen.Tables.
From Verif Require C01.Lisp C01.Gen C15.Sem C15.SemL C01L.LLisp C01L.LPy C01L.LGen C01L.LTop.
From Verif Require C15.SemX C01X.XLisp C01X.XPy C01X.XGen C01X.XTop.
From Verif Require C15.SemC C01C.CLisp C01C.CPy C01C.CGen C01C.CTop.
Local Open Scope N_scope.

(** Obligations on the tables regenerated from optimizer.py on every run: each operator
    dictionary entry maps an operator-module function to the native operator with the
    reference meaning; the statement kinds that end a block and the droppable expression
    kinds are exactly those the specification allows.  There is none for the `is`/`is not`
    dictionary and the operand order of `contains`: what the pass does with them is the subject
    of the REFUTED clauses below (F-15a, F-15b). *)
Theorem C15_table_binops : forallb (fun p => ref_is ref_binops (fst p) (snd p)) opt_binops = true.
Proof. vm_compute. reflexivity. Qed.
Theorem C15_table_unaryops : forallb (fun p => ref_is ref_unaryops (fst p) (snd p)) opt_unaryops = true.
Proof. vm_compute. reflexivity. Qed.
Theorem C15_table_compareops : forallb (fun p => ref_is ref_compareops (fst p) (snd p)) opt_compareops = true.
Proof. vm_compute. reflexivity. Qed.
Theorem C15_table_terminators :
  forallb (fun tg => is_term_ref (Nd tg [])) opt_terminators = true.
Proof. vm_compute. reflexivity. Qed.
Theorem C15_table_expr_droppable :
  forallb (fun tg => is_bare (Nd T_Expr [Nd tg []])) opt_expr_droppable = true.
Proof. vm_compute. reflexivity. Qed.

(** Verified translation validation: every (before, after) pair the checker accepts is in
    the [allowed] relation (the six permitted kinds of change, closed under contexts,
    with the `global` scoping discipline) -- for all trees. *)
Theorem C15_check_sound : forall b a, check b a = true -> allowed b a.
Proof. exact Sound.check_sound. Qed.

(** ... and the full acceptance test additionally guarantees that a well-formed statement tree
    (no compound statement with an empty body, no `try` with neither handlers nor `finally`)
    stays well-formed *)
Theorem C15_accept_sound : forall b a, accept b a = true -> acceptable b a.
Proof. exact Sound.accept_sound. Qed.

(** Semantic preservation on the first-order Python subset the generator emits for the C01
    core: the optimised statements yield the same frame and effect trace whenever the
    unoptimised ones run, so C01's compile-correctness holds for optimised code. *)
Theorem C15_stmt_rewrites_preserve : forall l F F' t,
  Verif.C01.Py.exec F l = Some (F', t) -> Verif.C01.Py.exec F (Sem.opt_stmts l) = Some (F', t).
Proof. exact Sem.opt_stmts_preserves. Qed.
Theorem C15_optimized_compile_correct_partial : forall e v tr,
  Verif.C01.Lisp.eval (fun _ => None) e = Some (v, tr) -> Verif.C01.Gen.hazard_free e = true ->
  Sem.run_opt e = Some (v, tr).
Proof. exact Sem.optimized_compile_correct. Qed.

(** the same on the subset with `while True` / break / continue (dead code after a jump is
    dropped too), for every fuel; composed with the loop simulation theorem of C01L *)
Theorem C15_stmt_rewrites_preserve_loops : forall m F l r,
  LPy.lexec m F l = Some r -> LPy.lexec m F (SemL.lopt l) = Some r.
Proof. exact SemL.lopt_stmts_preserves. Qed.
Theorem C15_optimized_compile_correct_loops_partial : forall fuel e v tr,
  LLisp.leval fuel (fun _ => None) e = Some (LLisp.OVal v, tr) -> LGen.hazard_free e = true ->
  exists m, forall m', (m <= m')%nat -> SemL.lrun_opt m' e = Some (v, tr).
Proof. exact SemL.optimized_loops_compile_correct. Qed.
Example C15_dead_code_rule_fires :
  let '(d, _, _, _) := LGen.lgen (fun _ => None) [] 0 LTop.count_loop in SemL.lopt d <> d.
Proof. exact SemL.lopt_nonvacuous. Qed.

(** the same on the subset with raise and try/except/finally (dead code after `raise`, in try
    bodies, handlers and finally clauses; a `finally` clause emptied by the pass), for every
    fuel and every outcome, including an exception that leaves the program; composed with the
    simulation theorem of C01X *)
Theorem C15_stmt_rewrites_preserve_exceptions : forall m F l r,
  XPy.xexec m F l = Some r -> XPy.xexec m F (SemX.xopt l) = Some r.
Proof. exact SemX.xopt_stmts_preserves. Qed.
Theorem C15_optimized_compile_correct_exceptions_partial : forall fuel e o tr,
  XLisp.xeval fuel (fun _ => None) e = Some (o, tr) -> XGen.hazard_free e = true ->
  match o with
  | XLisp.OVal v => exists m, forall m', (m <= m')%nat -> SemX.xrun_opt m' e = Some (XGen.XRVal v tr)
  | XLisp.OExc c _ => exists m, forall m', (m <= m')%nat -> SemX.xrun_opt m' e = Some (XGen.XRExc c tr)
  | XLisp.ORec _ => True
  end.
Proof. exact SemX.optimized_exceptions_compile_correct. Qed.
Example C15_exception_rules_fire :
  (let '(d, _, _, _) := XGen.xgen (fun _ => None) [] 0 XTop.caught in SemX.xopt d <> d) /\
  (let '(d, _, _, _) := XGen.xgen (fun _ => None) [] 0
        (XLisp.XTry (XTop.tr1 1) None (XLisp.XConst Verif.C01.Lisp.VNil) true (XLisp.XConst (Verif.C01.Lisp.VInt 5))) in
   SemX.xopt d <> d).
Proof. exact SemX.xopt_nonvacuous. Qed.

(** the same on the subset with function definitions and calls: statements are also dropped
    inside function bodies, so the optimised run builds different function values; the two runs
    are related heap by heap (SemC.OH) and yield the same trace and observable value; composed
    with the simulation theorem of C01C *)
Theorem C15_stmt_rewrites_preserve_closures : forall m fid l H H1 t H',
  CPy.cexec m fid H l = Some (H1, t) -> SemC.OH H H' ->
  exists H1', CPy.cexec m fid H' (SemC.copt l) = Some (H1', t) /\ SemC.OH H1 H1'.
Proof. exact SemC.copt_stmts_preserve. Qed.
Theorem C15_optimized_compile_correct_closures_partial : forall fuel e v tr,
  CLisp.ceval fuel [] e = Some (v, tr) -> CGen.hazard_free e = true ->
  exists m, forall m', (m <= m')%nat -> SemC.crun_opt m' e = Some (CLisp.obs_of v, tr).
Proof. exact SemC.optimized_closures_compile_correct. Qed.

(** REFUTED clauses: the model of the pass (tied to the code by the correspondence run)
    performs rewrites that are not allowed. *)
Theorem C15_is_to_eq_not_allowed : ~ allowed Refuted.w_is (Opt.opt Refuted.w_is).
Proof. exact Refuted.is_to_eq_not_allowed. Qed.
Theorem C15_contains_swap_not_allowed : ~ allowed Refuted.w_contains (Opt.opt Refuted.w_contains).
Proof. exact Refuted.contains_swap_not_allowed. Qed.
Theorem C15_async_global_not_allowed : check Refuted.w_async (Opt.opt Refuted.w_async) = false /\ tag1 Refuted.w_async = 4.
Proof. exact Refuted.async_global_rejected. Qed.
Theorem C15_dead_global_not_allowed : check Refuted.w_dead (Opt.opt Refuted.w_dead) = false /\ tag1 Refuted.w_dead = 8.
Proof. exact Refuted.dead_global_rejected. Qed.
(** F-15e (repaired): a finally clause of which nothing is left.  The emptied statement is
    rejected by the acceptance test; the pass now leaves `finally: pass` (this obligation
    breaks if visit_Try goes back to producing the emptied statement). *)
Theorem C15_try_without_finally_rejected :
  accept Refuted.w_try (Refuted.w_try_with []) = false /\
  accept Refuted.w_try (Refuted.w_try_with [Nd T_Pass []]) = true /\
  Opt.opt Refuted.w_try = Refuted.w_try_with [Nd T_Pass []].
Proof. exact Refuted.try_without_finally_rejected. Qed.
Example C15_accepted_sample : check Refuted.w_ok (Opt.opt Refuted.w_ok) = true /\ tree_eqb Refuted.w_ok (Opt.opt Refuted.w_ok) = false.
Proof. exact Refuted.accepted_sample. Qed.

Print Assumptions C15_table_binops.
Print Assumptions C15_table_unaryops.
Print Assumptions C15_table_compareops.
Print Assumptions C15_table_terminators.
Print Assumptions C15_table_expr_droppable.
Print Assumptions C15_check_sound.
Print Assumptions C15_stmt_rewrites_preserve.
Print Assumptions C15_optimized_compile_correct_partial.
Print Assumptions C15_stmt_rewrites_preserve_loops.
Print Assumptions C15_optimized_compile_correct_loops_partial.
Print Assumptions C15_dead_code_rule_fires.
Print Assumptions C15_is_to_eq_not_allowed.
Print Assumptions C15_contains_swap_not_allowed.
Print Assumptions C15_async_global_not_allowed.
Print Assumptions C15_dead_global_not_allowed.
Print Assumptions C15_accepted_sample.
Print Assumptions C15_accept_sound.
Print Assumptions C15_try_without_finally_rejected.
Print Assumptions C15_stmt_rewrites_preserve_exceptions.
Print Assumptions C15_optimized_compile_correct_exceptions_partial.
Print Assumptions C15_exception_rules_fire.
Print Assumptions C15_stmt_rewrites_preserve_closures.
Print Assumptions C15_optimized_compile_correct_closures_partial.
