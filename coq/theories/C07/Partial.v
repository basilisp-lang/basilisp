(** C07: the three guarded denotation theorems with executable guards. *)
From Coq Require Import List Bool.
Import ListNotations.
From Verif Require Import C07.Model C07.Spec C07.Mach C07.Sem2.

Section Guards.
  Context {A K : Type}.

  Definition partition_by_guard (eqb : K -> K -> bool) (f : A -> K) (sentinel : K) (l : list A) : bool :=
    forallb (fun x => negb (eqb (f x) sentinel)) l.
  Definition dedupe_guard (eqb : A -> A -> bool) (sentinel : A) (l : list A) : bool :=
    match l with [] => true | x :: _ => negb (eqb sentinel x) end.
  Definition distinct_guard (eqb heqb : A -> A -> bool) (l : list A) : bool :=
    forallb (fun x => forallb (fun y => Bool.eqb (heqb x y) (eqb x y)) l) l.

  Lemma partition_by_partial (eqb : K -> K -> bool) :
    (forall a, eqb a a = true) -> (forall a b, eqb a b = eqb b a) ->
    (forall a b c, eqb a b = true -> eqb b c = true -> eqb a c = true) ->
    forall (f : A -> K) (sentinel : K),
    denotes_on (fun l => partition_by_guard eqb f sentinel l = true)
               (partition_by_xf eqb f sentinel) (sem_partition_by eqb f).
  Proof.
    intros R S T f sentinel.
    apply (denotes_on_weaken (fun l => forall x, In x l -> eqb (f x) sentinel = false)).
    - intros l H x Hx. unfold partition_by_guard in H. rewrite forallb_forall in H.
      apply negb_true_iff. apply H. exact Hx.
    - apply partition_by_denotes_on; assumption.
  Qed.

  Lemma dedupe_partial (eqb : A -> A -> bool) (sentinel : A) :
    denotes_on (fun l => dedupe_guard eqb sentinel l = true) (dedupe_xf eqb sentinel) (sem_dedupe eqb).
  Proof.
    apply (denotes_on_weaken (fun l => match l with [] => True | x :: _ => eqb sentinel x = false end)).
    - intros [|x t] H; [exact I|]. simpl in H. apply negb_true_iff. exact H.
    - apply dedupe_denotes_on.
  Qed.

  Lemma distinct_partial (eqb heqb : A -> A -> bool) :
    denotes_on (fun l => distinct_guard eqb heqb l = true) (distinct_xf (mem_of heqb)) (sem_distinct eqb).
  Proof.
    apply (denotes_on_weaken (fun l => forall x y, In x l -> In y l -> heqb x y = eqb x y)).
    - intros l H x y Hx Hy. unfold distinct_guard in H. rewrite forallb_forall in H.
      specialize (H x Hx). rewrite forallb_forall in H. specialize (H y Hy).
      apply Bool.eqb_prop. exact H.
    - apply distinct_denotes_on.
  Qed.
End Guards.
