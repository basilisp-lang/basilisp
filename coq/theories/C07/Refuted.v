(** C07: witnesses, on the concrete value universe of the correspondence (Corr.v), of the three
    places where the transcribed code departs from the reference. *)
From Coq Require Import List ZArith.
Import ListNotations.
From Verif Require Import C07.Corr.

Local Open Scope N_scope.

(** dedupe's keyword sentinel: an input starting with it loses its first element *)
Lemma dedupe_refuted :
  exists l : list val,
    fst (fst (into (dedupe_xf meqb kw_dedupe_sentinel) l)) <> ref_dedupe val_eqb l.
Proof. exists [VKw 2; VInt 1]. vm_compute. discriminate. Qed.

(** partition-by's keyword sentinel: a key equal to it never closes a partition *)
Lemma partition_by_refuted :
  exists l : list val,
    fst (fst (into (partition_by_xf meqb (fn1 0) kw_partition_by_sentinel) l))
    <> ref_partition_by val_eqb (fn1 0) l.
Proof. exists [VKw 3; VInt 1]. vm_compute. discriminate. Qed.

(** distinct: set membership is Python [==], under which false = 0 *)
Lemma distinct_refuted :
  exists l : list val,
    fst (fst (into (distinct_xf hmem) l)) <> ref_distinct val_eqb l.
Proof. exists [VInt 0; VBool false]. vm_compute. discriminate. Qed.

(** dedupe and partition-by on collections: basilisp's [=] on vectors is element-wise Python [==] *)
Lemma dedupe_collections_refuted :
  exists l : list val,
    fst (fst (into (dedupe_xf meqb kw_dedupe_sentinel) l)) <> ref_dedupe val_eqb l.
Proof. exists [VVec [VInt 0]; VVec [VBool false]]. vm_compute. discriminate. Qed.

(** the lazy arity of distinct shares it *)
Lemma lazy_distinct_refuted :
  exists l : list val, lazy_distinct hmem l <> ref_distinct val_eqb l.
Proof. exists [VInt 0; VBool false]. vm_compute. discriminate. Qed.
