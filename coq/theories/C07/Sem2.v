(** C07: partition-all, partition-by, distinct, dedupe, mapcat denote their reference functions;
    the plain lazy-seq arities compute the reference functions. *)
From Coq Require Import List ZArith Lia.
Import ListNotations.
From Verif Require Import Common.ListX C07.Model C07.Spec C07.Mach C07.Sem.

Lemma denotes_on_ext {A B} (G : list A -> Prop) (x : xform A B) (m m' : sem A B) :
  (forall l, sF m l = sF m' l) -> (forall l, sE m l = sE m' l) -> (forall l, sD m l = sD m' l) ->
  denotes_on G x m -> denotes_on G x m'.
Proof.
  intros HF HE HD (E & H & N). split; [|split]; [| |exact N].
  - intros. rewrite <- HF. auto.
  - intros. rewrite <- HE, <- HD. auto.
Qed.

Theorem mapcat_denotes {A B} (f : A -> list B) : denotes (mapcat_xf f) (sem_mapcat f).
Proof.
  apply (denotes_on_ext _ _ (sem_comp (sem_map f) sem_cat)).
  1-2: intro l; simpl; unfold ref_cat, ref_map, ref_mapcat; symmetry; apply flat_map_concat_map.
  - reflexivity.
  - apply comp_denotes; [apply map_denotes|apply cat_denotes].
Qed.

Section PartitionAll.
  Context {A : Type}.

  Lemma chunks_nil k n : @chunks A k n [] = [].
  Proof. destruct k; reflexivity. Qed.

  Lemma chunks_fuel n : 1 <= n -> forall k1 k2 (l : list A),
    length l <= k1 -> length l <= k2 -> chunks k1 n l = chunks k2 n l.
  Proof.
    intro Hn. induction k1 as [|k1 IH]; intros k2 l H1 H2.
    - destruct l; [|simpl in H1; lia]. rewrite !chunks_nil. reflexivity.
    - destruct l as [|x t]; [rewrite !chunks_nil; reflexivity|].
      destruct k2 as [|k2]; [simpl in H2; lia|]. simpl chunks. f_equal.
      assert (length (skipn n (x :: t)) <= length t).
      { rewrite skipn_length. simpl length. lia. }
      simpl in H1, H2. apply IH; lia.
  Qed.

  (** the reference, by what it does to a first full chunk and to a last short one *)
  Lemma ref_partition_all_full n (c l : list A) : 1 <= n -> length c = n ->
    ref_partition_all n (c ++ l) = c :: ref_partition_all n l.
  Proof.
    intros Hn Hc. unfold ref_partition_all. destruct (c ++ l) as [|x r] eqn:E.
    - destruct c; [simpl in Hc; lia|discriminate].
    - simpl length. cbn [chunks]. rewrite <- E, <- Hc, firstn_length_app, skipn_length_app. f_equal.
      apply chunks_fuel; [lia| |lia]. apply (f_equal (@length A)) in E. rewrite app_length in E. simpl in E. lia.
  Qed.

  Lemma ref_partition_all_short n (c : list A) : c <> [] -> length c <= n -> ref_partition_all n c = [c].
  Proof.
    intros Hne Hc. unfold ref_partition_all. destruct c as [|x r]; [congruence|]. simpl length. cbn [chunks].
    rewrite firstn_all2, skipn_all2 by exact Hc. rewrite chunks_nil. reflexivity.
  Qed.

  Lemma m_partition_all_run (n : nat) : 1 <= n -> forall (l buf : list A), length buf < n ->
    mF (m_partition_all (Z.of_nat n)) buf l = ref_partition_all n (buf ++ l) /\
    mE (m_partition_all (Z.of_nat n)) buf l = full_chunks n (buf ++ l).
  Proof.
    intro Hn. unfold full_chunks. induction l as [|x t IH]; intros buf Hb.
    - rewrite app_nil_r, mF_nil, mE_nil. simpl mflush. destruct buf as [|b bs]; [split; reflexivity|].
      rewrite ref_partition_all_short by (simpl in *; (congruence || lia)). split; [reflexivity|].
      cbn [filter]. destruct (Nat.eqb_spec (length (b :: bs)) n); [lia|reflexivity].
    - rewrite mF_step, mE_step. simpl mstep.
      replace (buf ++ x :: t) with ((buf ++ [x]) ++ t) by (rewrite <- app_assoc; reflexivity).
      destruct (Z.of_nat (length (buf ++ [x])) <? Z.of_nat n)%Z eqn:E.
      + apply Z.ltb_lt in E. simpl app. apply IH. lia.
      + apply Z.ltb_ge in E. assert (length (buf ++ [x]) = n) as Hl by (rewrite app_length in *; simpl in *; lia).
        destruct (IH [] ltac:(simpl; lia)) as [-> ->]. simpl app.
        rewrite (ref_partition_all_full n _ t Hn Hl). split; [reflexivity|].
        cbn [filter]. rewrite Hl, Nat.eqb_refl. reflexivity.
  Qed.

  Lemma m_partition_all_wf n : mach_wf (@m_partition_all A n).
  Proof.
    intros ms x. simpl. destruct (Z.of_nat (length (ms ++ [x])) <? n)%Z; simpl; [congruence|reflexivity].
  Qed.

  Lemma m_partition_all_D n (l : list A) buf : mD (m_partition_all n) buf l = false.
  Proof. apply mD_false. intros ms x. simpl. destruct (Z.of_nat (length (ms ++ [x])) <? n)%Z; reflexivity. Qed.

  Theorem partition_all_denotes (n : nat) : 1 <= n ->
    denotes (@partition_all_xf A (Z.of_nat n)) (sem_partition_all n).
  Proof.
    intro Hn. apply (machine_denotes _ _ (m_partition_all (Z.of_nat n))); [apply partition_all_impl| |].
    - apply m_partition_all_wf.
    - intros l _. destruct (m_partition_all_run n Hn l [] ltac:(simpl; lia)) as [F E].
      simpl m0. rewrite F, E, m_partition_all_D. auto.
  Qed.
End PartitionAll.


Section Distinct.
  Context {A : Type}.
  Variables eqb heqb : A -> A -> bool.

  (** [(contains? seen x)] on a set whose membership test is [h] *)
  Definition mem_of (h : A -> A -> bool) (x : A) (seen : list A) : bool := existsb (h x) seen.

  (** the transducer's machine emits what the loop of the lazy arity returns *)
  Lemma m_distinct_E (hmem : A -> list A -> bool) l : forall seen,
    mE (m_distinct hmem) seen l = lazy_distinct_go hmem seen l.
  Proof.
    induction l as [|x t IH]; intro seen; [reflexivity|].
    rewrite mE_step. simpl. destruct (hmem x seen); simpl; rewrite IH; reflexivity.
  Qed.

  (** and that is the reference as long as membership and the reference equality agree on what is met *)
  Lemma lazy_distinct_go_ref (P : A -> Prop) : (forall x y, P x -> P y -> heqb x y = eqb x y) ->
    forall l found, Forall P l -> Forall P found ->
    lazy_distinct_go (mem_of heqb) found l = ref_distinct_go eqb found l.
  Proof.
    intros HP. induction l as [|x t IH]; intros found Hl Hs; [reflexivity|].
    inversion Hl as [|? ? Px Pt]; subst. simpl. unfold mem_of.
    assert (existsb (heqb x) found = existsb (eqb x) found) as ->.
    { clear -HP Px Hs. induction Hs as [|y s Py _ IHs]; simpl; [reflexivity|]. rewrite IHs, HP; auto. }
    destruct (existsb (eqb x) found); simpl; [apply IH; assumption|].
    f_equal. apply IH; [assumption|constructor; assumption].
  Qed.

  Theorem distinct_denotes_on :
    denotes_on (fun l => forall x y, In x l -> In y l -> heqb x y = eqb x y)
               (distinct_xf (mem_of heqb)) (sem_distinct eqb).
  Proof.
    apply (simple_denotes _ _ (m_distinct (mem_of heqb))); auto using distinct_impl.
    - intros ms x. simpl. destruct (mem_of heqb x ms); reflexivity.
    - intros l Hl. rewrite m_distinct_E. apply (lazy_distinct_go_ref (fun x => In x l)); [auto|apply Forall_forall; auto|constructor].
  Qed.

  Lemma lazy_distinct_ref_on l : (forall x y, In x l -> In y l -> heqb x y = eqb x y) ->
    lazy_distinct (mem_of heqb) l = ref_distinct eqb l.
  Proof.
    intro H. apply (lazy_distinct_go_ref (fun x => In x l)); [auto|apply Forall_forall; auto|constructor].
  Qed.

  Lemma m_dedupe_E sentinel l : forall prev, mE (m_dedupe eqb sentinel) prev l = ref_dedupe_go eqb prev l.
  Proof.
    induction l as [|x t IH]; intro prev; [reflexivity|].
    rewrite mE_step. simpl. destruct (eqb prev x); simpl; rewrite IH; reflexivity.
  Qed.

  Theorem dedupe_denotes_on (sentinel : A) :
    denotes_on (fun l => match l with [] => True | x :: _ => eqb sentinel x = false end)
               (dedupe_xf eqb sentinel) (sem_dedupe eqb).
  Proof.
    apply (simple_denotes _ _ (m_dedupe eqb sentinel)); auto using dedupe_impl.
    - intros ms x. simpl. destruct (eqb ms x); reflexivity.
    - intros [|x t] Hl; [reflexivity|]. rewrite mE_step. simpl m0. simpl mstep. rewrite Hl.
      rewrite m_dedupe_E. reflexivity.
  Qed.
End Distinct.

Theorem distinct_denotes {A} (eqb : A -> A -> bool) :
  denotes (distinct_xf (mem_of eqb)) (sem_distinct eqb).
Proof.
  apply (denotes_on_weaken _ _ _ _ (fun l _ => (fun x y _ _ => eq_refl) : forall x y, In x l -> In y l -> eqb x y = eqb x y)).
  apply distinct_denotes_on.
Qed.


Section LazyForms.
  Context {A B : Type}.

  Lemma lazy_map_ref (f : A -> B) l : lazy_map f l = ref_map f l.
  Proof. induction l; simpl; congruence. Qed.
  Lemma lazy_filter_ref (p : A -> bool) l : lazy_filter p l = ref_filter p l.
  Proof. induction l as [|x t IH]; simpl; [reflexivity|]. destruct (p x); congruence. Qed.
  Lemma lazy_remove_ref (p : A -> bool) l : lazy_remove p l = ref_remove p l.
  Proof. apply lazy_filter_ref. Qed.
  Lemma lazy_keep_ref (f : A -> option B) l : lazy_keep f l = ref_keep f l.
  Proof. induction l as [|x t IH]; simpl; [reflexivity|]. destruct (f x); congruence. Qed.

  Lemma lazy_map_indexed_ref (f : Z -> A -> B) l :
    lazy_map_indexed f l = ref_map_indexed (fun i => f (Z.of_nat i)) l.
  Proof. apply (lazy_map_indexed_from_ref f l 0). Qed.

  Lemma lazy_keep_indexed_ref (f : Z -> A -> option B) l :
    lazy_keep_indexed f l = ref_keep_indexed (fun i => f (Z.of_nat i)) l.
  Proof. apply (lazy_keep_indexed_from_ref f l 0). Qed.
End LazyForms.

Lemma lazy_mapcat_ref {A B} (f : A -> list B) l : lazy_mapcat f l = ref_mapcat f l.
Proof. unfold lazy_mapcat, ref_mapcat. rewrite lazy_map_ref. symmetry. apply flat_map_concat_map. Qed.

Section LazyFormsA.
  Context {A : Type}.

  (** the counts may be any integers: at or below 0 nothing is taken, nothing dropped *)
  Lemma lazy_take_Z (l : list A) : forall z, lazy_take z l = ref_take (Z.to_nat z) l.
  Proof.
    induction l as [|x t IH]; intro z; simpl; destruct (0 <? z)%Z eqn:E.
    - now destruct (Z.to_nat z).
    - now destruct (Z.to_nat z).
    - apply Z.ltb_lt in E. rewrite IH. replace (Z.to_nat z) with (S (Z.to_nat (z - 1))) by lia. reflexivity.
    - apply Z.ltb_ge in E. replace (Z.to_nat z) with 0 by lia. reflexivity.
  Qed.

  Lemma lazy_take_ref (l : list A) : forall n, lazy_take (Z.of_nat n) l = ref_take n l.
  Proof. intro n. rewrite lazy_take_Z, Nat2Z.id. reflexivity. Qed.

  Lemma lazy_take_while_ref (p : A -> bool) l : lazy_take_while p l = ref_take_while p l.
  Proof. induction l as [|x t IH]; simpl; [reflexivity|]. destruct (p x); congruence. Qed.

  Lemma lazy_drop_Z (l : list A) : forall z, lazy_drop z l = ref_drop (Z.to_nat z) l.
  Proof.
    induction l as [|x t IH]; intro z; simpl.
    - now destruct (Z.to_nat z).
    - destruct (0 <? z)%Z eqn:E.
      + apply Z.ltb_lt in E. rewrite IH. replace (Z.to_nat z) with (S (Z.to_nat (z - 1))) by lia. reflexivity.
      + apply Z.ltb_ge in E. replace (Z.to_nat z) with 0 by lia. reflexivity.
  Qed.

  Lemma lazy_drop_ref (l : list A) : forall n, lazy_drop (Z.of_nat n) l = ref_drop n l.
  Proof. intro n. rewrite lazy_drop_Z, Nat2Z.id. reflexivity. Qed.

  Lemma lazy_drop_while_ref (p : A -> bool) l : lazy_drop_while p l = ref_drop_while p l.
  Proof. induction l as [|x t IH]; simpl; [reflexivity|]. destruct (p x); congruence. Qed.

  Lemma lazy_interpose_ref (sep : A) l : lazy_interpose sep l = ref_interpose sep l.
  Proof.
    assert (H : forall t y, sep :: lazy_interpose sep (y :: t) = flat_map (fun z => [sep; z]) (y :: t)).
    { induction t as [|z t' IH]; intro y; [reflexivity|].
      change (lazy_interpose sep (y :: z :: t')) with (y :: sep :: lazy_interpose sep (z :: t')).
      rewrite IH. reflexivity. }
    destruct l as [|x [|y t]]; [reflexivity|reflexivity|].
    change (lazy_interpose sep (x :: y :: t)) with (x :: sep :: lazy_interpose sep (y :: t)).
    rewrite H. reflexivity.
  Qed.

  Lemma nth_from_skip n : forall j (l : list A) k,
    (forall i, i < j -> (k + i) mod n <> 0) -> nth_from n k l = nth_from n (k + j) (skipn j l).
  Proof.
    induction j as [|j IH]; intros l k Hk.
    - rewrite Nat.add_0_r. reflexivity.
    - destruct l as [|x t]; [reflexivity|]. unfold nth_from. simpl.
      pose proof (Hk 0 ltac:(lia)) as H0. rewrite Nat.add_0_r in H0.
      destruct (Nat.eqb (k mod n) 0) eqn:E; [apply Nat.eqb_eq in E; congruence|].
      replace (k + S j) with (S k + j) by lia. apply (IH t (S k)).
      intros i Hi. replace (S k + i) with (k + S i) by lia. apply Hk. lia.
  Qed.

  Lemma lazy_take_nth_fuel_ref (n : nat) : 1 <= n -> forall fuel (l : list A) k,
    length l <= fuel -> k mod n = 0 ->
    lazy_take_nth_fuel fuel (Z.of_nat n) l = nth_from n k l.
  Proof.
    intro Hn. induction fuel as [|fuel IH]; intros l k Hl Hk.
    - destruct l; [reflexivity|simpl in Hl; lia].
    - destruct l as [|x t]; [reflexivity|]. simpl lazy_take_nth_fuel.
      unfold nth_from at 1. simpl. rewrite Hk. simpl. f_equal.
      rewrite lazy_drop_Z. replace (Z.to_nat (Z.of_nat n - 1)) with (n - 1) by lia.
      fold (nth_from n (S k) t).
      rewrite (nth_from_skip n (n - 1) t (S k)).
      + apply IH.
        * unfold ref_drop. rewrite skipn_length. simpl in Hl. lia.
        * replace (S k + (n - 1)) with (k + 1 * n) by lia. rewrite Nat.mod_add by lia. exact Hk.
      + intros i Hi. replace (S k + i) with (S i + k) by lia.
        rewrite <- Nat.add_mod_idemp_r by lia. rewrite Hk, Nat.add_0_r.
        rewrite Nat.mod_small by lia. lia.
  Qed.

  Lemma lazy_take_nth_ref (n : nat) (l : list A) : 1 <= n ->
    lazy_take_nth (Z.of_nat n) l = ref_take_nth n l.
  Proof.
    intro Hn. unfold lazy_take_nth. apply (lazy_take_nth_fuel_ref n Hn (length l) l 0); [lia|].
    apply Nat.mod_0_l. lia.
  Qed.

  Lemma lazy_partition_all_ref (n : nat) (l : list A) :
    lazy_partition_all (Z.of_nat n) l = ref_partition_all n l.
  Proof.
    unfold lazy_partition_all, ref_partition_all. generalize (length l) as fuel. intro fuel. revert l.
    induction fuel as [|fuel IH]; intro l; [reflexivity|].
    destruct l as [|x t]; [reflexivity|].
    cbn [lazy_partition_all_fuel chunks].
    rewrite lazy_take_ref, lazy_drop_ref. unfold ref_take, ref_drop. rewrite IH. reflexivity.
  Qed.
End LazyFormsA.

Section PartitionBy.
  Context {A K : Type}.
  Variable eqb : K -> K -> bool.
  Hypothesis eqb_refl : forall a, eqb a a = true.
  Hypothesis eqb_sym : forall a b, eqb a b = eqb b a.
  Hypothesis eqb_trans : forall a b c, eqb a b = true -> eqb b c = true -> eqb a c = true.
  Variable f : A -> K.
  Let R := ref_partition_by eqb f.

  Lemma R_cons c l :
    R (c :: l) = match R l with
                 | (y :: g) :: gs => if eqb (f c) (f y) then (c :: y :: g) :: gs else [c] :: (y :: g) :: gs
                 | _ => [[c]]
                 end.
  Proof. reflexivity. Qed.

  Lemma R_head x t : exists g gs, R (x :: t) = (x :: g) :: gs.
  Proof.
    rewrite R_cons. destruct (R t) as [|[|y g] gs]; eauto.
    destruct (eqb (f x) (f y)); eauto.
  Qed.

  Lemma R_prefix k : forall cur, cur <> [] -> (forall y, In y cur -> eqb k (f y) = true) ->
    forall rest, (match rest with [] => True | x :: _ => eqb k (f x) = false end) ->
    R (cur ++ rest) = cur :: R rest.
  Proof.
    induction cur as [|c cs IH]; [congruence|]. intros _ Hc rest Hr.
    destruct cs as [|c2 cs'].
    - simpl app. destruct rest as [|x t]; [reflexivity|].
      destruct (R_head x t) as (g & gs & E). rewrite R_cons, E.
      destruct (eqb (f c) (f x)) eqn:Ec; [|reflexivity].
      exfalso. rewrite (eqb_trans k (f c) (f x)) in Hr; [discriminate|apply Hc; left; reflexivity|exact Ec].
    - assert (IH' : R ((c2 :: cs') ++ rest) = (c2 :: cs') :: R rest).
      { apply IH; [congruence|intros y Hy; apply Hc; right; exact Hy|exact Hr]. }
      simpl app in *. rewrite R_cons, IH'.
      assert (eqb (f c) (f c2) = true) as ->; [|reflexivity].
      apply (eqb_trans _ k); [rewrite eqb_sym; apply Hc; left; reflexivity|apply Hc; right; left; reflexivity].
  Qed.

  Variable sentinel : K.
  Let m := m_partition_by eqb f sentinel.

  (** the machine with the run [cur] (all of key [k]) open: it will emit the runs of [cur ++ l],
      the last one by its flush *)
  Lemma m_partition_by_run l : forall k cur, cur <> [] -> (forall y, In y cur -> eqb k (f y) = true) ->
    eqb k sentinel = false -> (forall x, In x l -> eqb (f x) sentinel = false) ->
    mF m (k, cur) l = R (cur ++ l) /\ mE m (k, cur) l = removelast (R (cur ++ l)).
  Proof.
    induction l as [|x t IH]; intros k cur Hne Hc Hk Hl.
    - rewrite mF_nil, mE_nil, (R_prefix k cur Hne Hc [] I). simpl. destruct cur; [congruence|auto].
    - rewrite mF_step, mE_step. simpl mstep. rewrite Hk.
      destruct (eqb k (f x)) eqn:E.
      + simpl app. replace (cur ++ x :: t) with ((cur ++ [x]) ++ t) by (rewrite <- app_assoc; reflexivity).
        apply IH; [destruct cur; simpl; congruence| |exact Hk|intros; apply Hl; right; assumption].
        intros y Hy. apply in_app_or in Hy. destruct Hy as [Hy|[<-|[]]]; auto.
      + rewrite (R_prefix k cur Hne Hc (x :: t) E).
        destruct (IH (f x) [x]) as (IF & IE);
          [congruence|intros y [<-|[]]; apply eqb_refl|apply Hl; left; reflexivity|intros; apply Hl; right; assumption|].
        simpl app in IF, IE. rewrite IF, IE. split; [reflexivity|].
        destruct (R_head x t) as (g & gs & ->). reflexivity.
  Qed.

  Lemma m_partition_by_wf : mach_wf m.
  Proof.
    intros [k cur] x. simpl. destruct (eqb k sentinel); simpl; [congruence|].
    destruct (eqb k (f x)); simpl; [congruence|reflexivity].
  Qed.

  Theorem partition_by_denotes_on :
    denotes_on (fun l => forall x, In x l -> eqb (f x) sentinel = false)
               (partition_by_xf eqb f sentinel) (sem_partition_by eqb f).
  Proof.
    apply (machine_denotes _ _ m); [apply partition_by_impl| |].
    - apply m_partition_by_wf.
    - intros l Hl.
      assert (D : mD m (m0 m) l = false).
      { apply mD_false. intros [k cur] y. simpl. destruct (eqb k sentinel); [|destruct (eqb k (f y))]; reflexivity. }
      rewrite D. destruct l as [|x t]; [auto|].
      rewrite mF_step, mE_step. simpl m0. simpl mstep. rewrite eqb_refl. simpl app.
      destruct (m_partition_by_run t (f x) [x]) as (F & E);
        [congruence|intros y [<-|[]]; apply eqb_refl|apply Hl; left; reflexivity|intros; apply Hl; right; assumption|].
      rewrite F, E. auto.
  Qed.

  Lemma take_drop_while (p : A -> bool) l :
    l = lazy_take_while p l ++ lazy_drop_while p l /\
    (forall y, In y (lazy_take_while p l) -> p y = true) /\
    match lazy_drop_while p l with [] => True | y :: _ => p y = false end.
  Proof.
    induction l as [|x t (I1 & I2 & I3)]; [repeat split; intros y []|].
    simpl. destruct (p x) eqn:E; simpl; [|repeat split; [intros y []|exact E]].
    split; [congruence|]. split; [|exact I3]. intros y [<-|Hy]; auto.
  Qed.

  Lemma lazy_partition_by_fuel_ref : forall fuel l, length l <= fuel ->
    lazy_partition_by_fuel eqb fuel f l = ref_partition_by eqb f l.
  Proof.
    induction fuel as [|fuel IH]; intros l Hl.
    - destruct l; [reflexivity|simpl in Hl; lia].
    - destruct l as [|x t]; [reflexivity|]. cbn [lazy_partition_by_fuel].
      set (p := fun y => eqb (f x) (f y)).
      destruct (take_drop_while p t) as (H1 & H2 & H3).
      assert (D : x :: t = (x :: lazy_take_while p t) ++ lazy_drop_while p t) by (simpl; congruence).
      assert (S : lazy_drop (Z.of_nat (length (x :: lazy_take_while p t))) (x :: t) = lazy_drop_while p t).
      { rewrite lazy_drop_ref. unfold ref_drop. rewrite D. apply skipn_length_app. }
      rewrite S, IH.
      + rewrite D, (R_prefix (f x)); [reflexivity|congruence| |exact H3].
        intros y [<-|Hy]; [apply eqb_refl|exact (H2 y Hy)].
      + apply (f_equal (@length A)) in D. rewrite app_length in D. simpl in D, Hl. lia.
  Qed.

  Lemma lazy_partition_by_ref l : lazy_partition_by eqb f l = ref_partition_by eqb f l.
  Proof. apply lazy_partition_by_fuel_ref. lia. Qed.
End PartitionBy.

Section LazyDedupe.
  Context {A : Type}.
  Variable eqb : A -> A -> bool.
  Hypothesis eqb_sym : forall a b, eqb a b = eqb b a.

  Lemma lazy_dedupe_go_ref l : forall prev, lazy_dedupe_go eqb prev l = ref_dedupe_go eqb prev l.
  Proof.
    induction l as [|x t IH]; intro prev; simpl; [reflexivity|].
    rewrite (eqb_sym x prev). destruct (eqb prev x); simpl; rewrite IH; reflexivity.
  Qed.
  Lemma lazy_dedupe_ref l : lazy_dedupe eqb l = ref_dedupe eqb l.
  Proof. destruct l; simpl; [reflexivity|]. rewrite lazy_dedupe_go_ref. reflexivity. Qed.

End LazyDedupe.

Lemma iterate_take_ref {A} n (g : A -> A) : forall x, iterate_take n g x = ref_iterate n g x.
Proof. induction n as [|n IH]; intro x; simpl; [reflexivity|]. rewrite IH. reflexivity. Qed.
