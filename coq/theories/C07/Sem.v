(** C07: the list machine of every transducer arity; the arity is that machine lifted (hence
    accumulator-natural); the list semantics of the machine is the reference triple of Spec.v;
    hence every transducer arity denotes its reference function. *)
From Coq Require Import List ZArith Lia.
Import ListNotations.
From Verif Require Import C07.Model C07.Spec C07.Mach.

(** One step of the case analysis of a goal that equates two step functions.  The order
    matters: first a test that both sides make on the input or the state (so that both then
    call downstream on the same arguments), then a result of a downstream call (with its flag,
    which [feed] tests again), last whatever else is matched on. *)
Ltac split_test :=
  let plain e := lazymatch e with context [match _ with _ => _ end] => fail | _ => idtac end in
  first
  [ match goal with
    | |- context [if ?e then _ else _] => plain e; destruct e
    | |- context [match ?e with Some _ => _ | None => _ end] => plain e; destruct e
    | |- context [match ?e with [] => _ | _ :: _ => _ end] => is_var e; destruct e
    end
  | progress repeat match goal with
    | |- context [rstep ?r ?s ?a ?x] => destruct (rstep r s a x) as [[? ?] []]; simpl
    | |- context [rdone ?r ?s ?a] => destruct (rdone r s a) as [? ?]; simpl
    | |- context [feed ?r ?s ?a ?l] => is_var l; destruct (feed r s a l) as [[? ?] []]; simpl
    end
  | match goal with |- context [match ?e with _ => _ end] => destruct e end ];
  simpl.

(** [implements] with the renaming [g] (the identity, or pairing with the machine's unit
    state): [g] is injective, and the two step functions and the two completions are equal
    once both sides are split on everything they test. *)
Tactic Notation "impl_by" uconstr(g) :=
  intros Acc r; refine (ex_intro _ g _); split; [intros ? ? E; inversion E; reflexivity|];
  split; [reflexivity|split; intros; simpl in *;
    repeat match goal with s : (_ * _)%type |- _ => destruct s end; simpl;
    repeat split_test; reflexivity].

Section Machines.
  Context {A B : Type}.

  (** stateless machines given by what each input emits *)
  Definition m_each (g : A -> list B) : mach A B :=
    mkMach tt (fun _ x => (g x, false, tt)) (fun s => s) (fun _ => []).

  Definition m_map (f : A -> B) := m_each (fun x => [f x]).
  Definition m_keep (f : A -> option B) := m_each (fun x => match f x with None => [] | Some v => [v] end).

  Definition m_map_indexed (f : Z -> A -> B) : mach A B :=
    mkMach (-1)%Z (fun i x => ([f (i + 1)%Z x], false, (i + 1)%Z)) (fun s => s) (fun _ => []).
  Definition m_keep_indexed (f : Z -> A -> option B) : mach A B :=
    mkMach (-1)%Z (fun i x => (match f (i + 1)%Z x with None => [] | Some v => [v] end, false, (i + 1)%Z))
           (fun s => s) (fun _ => []).
End Machines.

Section MachinesA.
  Context {A : Type}.
  Definition m_filter (p : A -> bool) : mach A A := m_each (fun x => if p x then [x] else []).
  Definition m_cat : mach (list A) A := m_each (fun xs => xs).

  Definition m_take (n : Z) : mach A A :=
    mkMach n (fun cur x => (if (0 <? cur)%Z then [x] else [], negb (0 <? cur - 1)%Z, (cur - 1)%Z))
           (fun s => s) (fun _ => []).
  Definition m_take_while (p : A -> bool) : mach A A :=
    mkMach tt (fun _ x => (if p x then [x] else [], negb (p x), tt)) (fun s => s) (fun _ => []).
  Definition m_drop (n : Z) : mach A A :=
    mkMach (n + 1)%Z (fun i x => (if (0 <? i - 1)%Z then [] else [x], false, (i - 1)%Z))
           (fun s => s) (fun _ => []).
  Definition m_drop_while (p : A -> bool) : mach A A :=
    mkMach false (fun v x => if v then ([x], false, true)
                             else if negb (p x) then ([x], false, true) else ([], false, false))
           (fun s => s) (fun _ => []).
  Definition m_take_nth (n : Z) : mach A A :=
    mkMach (-1)%Z (fun v x => (if (Z.rem (v + 1) n =? 0)%Z then [x] else [], false, (v + 1)%Z))
           (fun s => s) (fun _ => []).
  Definition m_interpose (sep : A) : mach A A :=
    mkMach 1%Z (fun v x => (if (v - 1 =? 0)%Z then [x] else [sep; x], false, (v - 1)%Z))
           (fun s => s) (fun _ => []).
  Definition flush_buf (lst : list A) : list (list A) := match lst with [] => [] | _ => [lst] end.
  Definition m_partition_all (n : Z) : mach A (list A) :=
    mkMach (@nil A)
           (fun lst x => let lst' := lst ++ [x] in
                         if (Z.of_nat (length lst') <? n)%Z then ([], false, lst') else ([lst'], false, []))
           (fun s => s) flush_buf.
  Definition m_partition_by {K} (eqb : K -> K -> bool) (f : A -> K) (sentinel : K) : mach A (list A) :=
    mkMach (sentinel, @nil A)
           (fun st x => let '(prev, lst) := st in
              let v := f x in
              if eqb prev sentinel then ([], false, (v, lst ++ [x]))
              else if eqb prev v then ([], false, (prev, lst ++ [x]))
              else ([lst], false, (v, [x])))
           (fun st => (fst st, []))
           (fun st => flush_buf (snd st)).
  Definition m_distinct (hmem : A -> list A -> bool) : mach A A :=
    mkMach (@nil A) (fun seen x => if hmem x seen then ([], false, seen) else ([x], false, x :: seen))
           (fun s => s) (fun _ => []).
  Definition m_dedupe (eqb : A -> A -> bool) (sentinel : A) : mach A A :=
    mkMach sentinel (fun prev x => if eqb prev x then ([], false, prev) else ([x], false, x))
           (fun s => s) (fun _ => []).
End MachinesA.

Section Impl.
  Context {A B : Type}.
  Lemma map_impl (f : A -> B) : implements (map_xf f) (m_map f).
  Proof. impl_by (fun s => (tt, s)). Qed.
  Lemma keep_impl (f : A -> option B) : implements (keep_xf f) (m_keep f).
  Proof. impl_by (fun s => (tt, s)). Qed.
  Lemma map_indexed_impl (f : Z -> A -> B) : implements (map_indexed_xf f) (m_map_indexed f).
  Proof. impl_by (fun s => s). Qed.
  Lemma keep_indexed_impl (f : Z -> A -> option B) : implements (keep_indexed_xf f) (m_keep_indexed f).
  Proof. impl_by (fun s => s). Qed.
  Lemma filter_impl (p : A -> bool) : implements (filter_xf p) (m_filter p).
  Proof. impl_by (fun s => (tt, s)). Qed.
  Lemma cat_impl : implements (@cat_xf A) m_cat.
  Proof. impl_by (fun s => (tt, s)). Qed.
  Lemma take_impl (n : Z) : implements (@take_xf A n) (m_take n).
  Proof. impl_by (fun s => s). Qed.
  Lemma take_while_impl (p : A -> bool) : implements (take_while_xf p) (m_take_while p).
  Proof. impl_by (fun s => (tt, s)). Qed.
  Lemma drop_impl (n : Z) : implements (@drop_xf A n) (m_drop n).
  Proof. impl_by (fun s => s). Qed.
  Lemma drop_while_impl (p : A -> bool) : implements (drop_while_xf p) (m_drop_while p).
  Proof. impl_by (fun s => s). Qed.
  Lemma take_nth_impl (n : Z) : implements (@take_nth_xf A n) (m_take_nth n).
  Proof. impl_by (fun s => s). Qed.
  Lemma interpose_impl (sep : A) : implements (interpose_xf sep) (m_interpose sep).
  Proof. impl_by (fun s => s). Qed.
  Lemma partition_all_impl (n : Z) : implements (@partition_all_xf A n) (m_partition_all n).
  Proof. impl_by (fun s => s). Qed.
  Lemma partition_by_impl {K} (eqb : K -> K -> bool) (f : A -> K) (sentinel : K) :
    implements (partition_by_xf eqb f sentinel) (m_partition_by eqb f sentinel).
  Proof. impl_by (fun s => s). Qed.
  Lemma distinct_impl (hmem : A -> list A -> bool) : implements (distinct_xf hmem) (m_distinct hmem).
  Proof. impl_by (fun s => s). Qed.
  Lemma dedupe_impl (eqb : A -> A -> bool) (sentinel : A) : implements (dedupe_xf eqb sentinel) (m_dedupe eqb sentinel).
  Proof. impl_by (fun s => s). Qed.
End Impl.

Section Unfold.
  Context {A B : Type} (m : mach A B).
  Lemma mE_step ms x t :
    mE m ms (x :: t) = let '(o, d, ms') := mstep m ms x in if d then o else o ++ mE m ms' t.
  Proof.
    unfold mE. simpl. destruct (mstep m ms x) as [[o d] ms']. destruct d; [reflexivity|].
    destruct (mrun m ms' t) as [[o2 d2] ms2]. reflexivity.
  Qed.
  Lemma mD_step ms x t :
    mD m ms (x :: t) = let '(o, d, ms') := mstep m ms x in if d then true else mD m ms' t.
  Proof.
    unfold mD. simpl. destruct (mstep m ms x) as [[o d] ms']. destruct d; [reflexivity|].
    destruct (mrun m ms' t) as [[o2 d2] ms2]. reflexivity.
  Qed.
  Lemma mF_step ms x t :
    mF m ms (x :: t) =
      let '(o, d, ms') := mstep m ms x in if d then o ++ mflush m ms' else o ++ mF m ms' t.
  Proof.
    unfold mF, mE. simpl. destruct (mstep m ms x) as [[o d] ms']. destruct d; [reflexivity|].
    destruct (mrun m ms' t) as [[o2 d2] ms2]. simpl. rewrite app_assoc. reflexivity.
  Qed.
  Lemma mF_nil ms : mF m ms [] = mflush m ms. Proof. reflexivity. Qed.
  Lemma mE_nil ms : mE m ms [] = []. Proof. reflexivity. Qed.

End Unfold.

(** a machine that flushes nothing: what it has emitted is all there is *)
Lemma noflush_denotes {A B} (G : list A -> Prop) (x : xform A B) (m : mach A B) f D :
  implements x m -> (forall ms, mflush m ms = []) ->
  (forall l, G l -> mE m (m0 m) l = f l /\ mD m (m0 m) l = D l) ->
  denotes_on G x (mkSem f f D).
Proof.
  intros I Hf H. apply (machine_denotes G x m); [exact I| |].
  - intros ms y _. apply Hf.
  - intros l Gl. destruct (H l Gl) as [E Dl]. unfold mF. rewrite Hf, app_nil_r. auto.
Qed.

Lemma simple_denotes {A B} (G : list A -> Prop) (x : xform A B) (m : mach A B) (f : list A -> list B) :
  implements x m ->
  (forall ms x, snd (fst (mstep m ms x)) = false) -> (forall ms, mflush m ms = []) ->
  (forall l, G l -> mE m (m0 m) l = f l) ->
  denotes_on G x (sem_simple f).
Proof.
  intros I Hd Hf He. apply (noflush_denotes G x m); auto.
  intros l Gl. split; [auto|apply (mD_false m Hd)].
Qed.

Lemma m_each_E {A B} (g : A -> list B) l : forall ms, mE (m_each g) ms l = flat_map g l.
Proof.
  induction l as [|x t IH]; intro ms; [reflexivity|]. rewrite mE_step. simpl. rewrite IH. reflexivity.
Qed.

Lemma flat_map_map {A B} (f : A -> B) l : flat_map (fun x => [f x]) l = map f l.
Proof. induction l; simpl; congruence. Qed.
Lemma flat_map_filter {A} (p : A -> bool) l : flat_map (fun x => if p x then [x] else []) l = filter p l.
Proof. induction l as [|x t IH]; simpl; [reflexivity|]. destruct (p x); simpl; congruence. Qed.
Lemma flat_map_keep {A B} (f : A -> option B) l :
  flat_map (fun x => match f x with None => [] | Some v => [v] end) l = ref_keep f l.
Proof. induction l as [|x t IH]; simpl; [reflexivity|]. destruct (f x); simpl; congruence. Qed.

Section Denotes.
  Context {A B : Type}.

  Theorem map_denotes (f : A -> B) : denotes (map_xf f) (sem_map f).
  Proof.
    apply (simple_denotes _ _ (m_map f)); auto using map_impl.
    - intros l _. unfold m_map. rewrite m_each_E. apply flat_map_map.
  Qed.

  Theorem keep_denotes (f : A -> option B) : denotes (keep_xf f) (sem_keep f).
  Proof.
    apply (simple_denotes _ _ (m_keep f)); auto using keep_impl.
    - intros l _. unfold m_keep. rewrite m_each_E. apply flat_map_keep.
  Qed.

  Theorem filter_denotes (p : A -> bool) : denotes (filter_xf p) (sem_filter p).
  Proof.
    apply (simple_denotes _ _ (m_filter p)); auto using filter_impl.
    - intros l _. unfold m_filter. rewrite m_each_E. apply flat_map_filter.
  Qed.

  Theorem remove_denotes (p : A -> bool) : denotes (remove_xf p) (sem_remove p).
  Proof. apply filter_denotes. Qed.

  Theorem cat_denotes : denotes (@cat_xf A) sem_cat.
  Proof.
    apply (simple_denotes _ _ m_cat); auto using cat_impl.
    - intros l _. unfold m_cat. rewrite m_each_E, flat_map_concat_map, map_id. reflexivity.
  Qed.

  (** the counter of the indexed transducers runs beside the [(range)] of the lazy arities *)
  Lemma m_map_indexed_E (f : Z -> A -> B) l : forall i,
    mE (m_map_indexed f) (i - 1)%Z l = lazy_map_indexed_from i f l.
  Proof.
    induction l as [|x t IH]; intro i; [reflexivity|]. rewrite mE_step. simpl.
    replace (i - 1 + 1)%Z with i by lia. f_equal. rewrite <- IH. f_equal. lia.
  Qed.

  Lemma lazy_map_indexed_from_ref (f : Z -> A -> B) l : forall k,
    lazy_map_indexed_from (Z.of_nat k) f l =
      map (fun ix => f (Z.of_nat (fst ix)) (snd ix)) (combine (seq k (length l)) l).
  Proof.
    induction l as [|x t IH]; intro k; simpl; [reflexivity|]. f_equal.
    replace (Z.of_nat k + 1)%Z with (Z.of_nat (S k)) by lia. apply IH.
  Qed.
  Theorem map_indexed_denotes (f : Z -> A -> B) :
    denotes (map_indexed_xf f) (sem_map_indexed (fun i => f (Z.of_nat i))).
  Proof.
    apply (simple_denotes _ _ (m_map_indexed f)); auto using map_indexed_impl.
    - intros l _. exact (eq_trans (m_map_indexed_E f l 0) (lazy_map_indexed_from_ref f l 0)).
  Qed.

  Lemma m_keep_indexed_E (f : Z -> A -> option B) l : forall i,
    mE (m_keep_indexed f) (i - 1)%Z l = lazy_keep_indexed_from i f l.
  Proof.
    induction l as [|x t IH]; intro i; [reflexivity|]. rewrite mE_step. simpl.
    replace (i - 1 + 1)%Z with i by lia. rewrite <- IH. replace (i + 1 - 1)%Z with i by lia.
    destruct (f i x); reflexivity.
  Qed.

  Lemma lazy_keep_indexed_from_ref (f : Z -> A -> option B) l : forall k,
    lazy_keep_indexed_from (Z.of_nat k) f l =
      ref_keep (fun ix => f (Z.of_nat (fst ix)) (snd ix)) (combine (seq k (length l)) l).
  Proof.
    induction l as [|x t IH]; intro k; simpl; [reflexivity|].
    replace (Z.of_nat k + 1)%Z with (Z.of_nat (S k)) by lia. rewrite IH.
    destruct (f (Z.of_nat k) x); reflexivity.
  Qed.
  Theorem keep_indexed_denotes (f : Z -> A -> option B) :
    denotes (keep_indexed_xf f) (sem_keep_indexed (fun i => f (Z.of_nat i))).
  Proof.
    apply (simple_denotes _ _ (m_keep_indexed f)); auto using keep_indexed_impl.
    - intros l _. exact (eq_trans (m_keep_indexed_E f l 0) (lazy_keep_indexed_from_ref f l 0)).
  Qed.

  (** the counter may be any integer: at or below 0 nothing is let through, and the first input finishes *)
  Lemma m_take_run n (l : list A) : forall z,
    mE (m_take n) z l = firstn (Z.to_nat z) l /\
    mD (m_take n) z l = Nat.leb (Nat.max (Z.to_nat z) 1) (length l).
  Proof.
    induction l as [|x t IH]; intro z.
    - split; [now rewrite firstn_nil|now destruct (Z.to_nat z)].
    - rewrite mE_step, mD_step. simpl mstep. cbv iota beta. destruct (IH (z - 1)%Z) as [IE ID].
      destruct (0 <? z)%Z eqn:E1, (0 <? z - 1)%Z eqn:E2; simpl negb; cbv iota;
        try apply Z.ltb_lt in E1; try apply Z.ltb_lt in E2; try apply Z.ltb_ge in E1; try apply Z.ltb_ge in E2;
        try lia.
      + rewrite IE, ID. replace (Z.to_nat z) with (S (Z.to_nat (z - 1))) by lia. split; [reflexivity|].
        replace (Nat.max (Z.to_nat (z - 1)) 1) with (Z.to_nat (z - 1)) by lia.
        replace (Nat.max (S (Z.to_nat (z - 1))) 1) with (S (Z.to_nat (z - 1))) by lia. reflexivity.
      + replace (Z.to_nat z) with 1 by lia. split; reflexivity.
      + replace (Z.to_nat z) with 0 by lia. split; reflexivity.
  Qed.

  Theorem take_denotes_Z (z : Z) : denotes (@take_xf A z) (sem_take (Z.to_nat z)).
  Proof.
    apply (noflush_denotes _ _ (m_take z)); [apply take_impl|reflexivity|].
    intros l _. apply m_take_run.
  Qed.

  Theorem take_denotes (n : nat) : denotes (@take_xf A (Z.of_nat n)) (sem_take n).
  Proof. rewrite <- (Nat2Z.id n) at 2. apply take_denotes_Z. Qed.

  Lemma m_take_while_run (p : A -> bool) l :
    mE (m_take_while p) tt l = ref_take_while p l /\
    mD (m_take_while p) tt l = existsb (fun x => negb (p x)) l.
  Proof.
    induction l as [|x t [IE ID]]; [split; reflexivity|].
    rewrite mE_step, mD_step. simpl. destruct (p x); simpl; [|split; reflexivity].
    rewrite IE, ID. split; reflexivity.
  Qed.

  Theorem take_while_denotes (p : A -> bool) : denotes (take_while_xf p) (sem_take_while p).
  Proof.
    apply (noflush_denotes _ _ (m_take_while p)); [apply take_while_impl|reflexivity|].
    intros l _. apply m_take_while_run.
  Qed.

  Lemma m_drop_E n (l : list A) : forall z, mE (m_drop n) z l = skipn (Z.to_nat (z - 1)) l.
  Proof.
    induction l as [|x t IH]; intro z.
    - simpl. destruct (Z.to_nat (z - 1)); reflexivity.
    - rewrite mE_step. simpl. destruct (0 <? z - 1)%Z eqn:E.
      + apply Z.ltb_lt in E. rewrite IH. simpl.
        replace (Z.to_nat (z - 1)) with (S (Z.to_nat (z - 1 - 1))) by lia. reflexivity.
      + apply Z.ltb_ge in E. rewrite IH.
        replace (Z.to_nat (z - 1)) with 0 by lia. replace (Z.to_nat (z - 1 - 1)) with 0 by lia.
        reflexivity.
  Qed.

  Theorem drop_denotes_Z (z : Z) : denotes (@drop_xf A z) (sem_drop (Z.to_nat z)).
  Proof.
    apply (simple_denotes _ _ (m_drop z)); auto using drop_impl.
    intros l _. simpl m0. rewrite m_drop_E. unfold ref_drop. f_equal. lia.
  Qed.

  Theorem drop_denotes (n : nat) : denotes (@drop_xf A (Z.of_nat n)) (sem_drop n).
  Proof. rewrite <- (Nat2Z.id n) at 2. apply drop_denotes_Z. Qed.

  Lemma m_drop_while_E p (l : list A) :
    mE (m_drop_while p) true l = l /\ mE (m_drop_while p) false l = ref_drop_while p l.
  Proof.
    induction l as [|x t [IT IF]]; [split; reflexivity|].
    rewrite !mE_step. simpl. rewrite IT. split; [reflexivity|].
    destruct (p x); simpl; [exact IF|]. rewrite IT. reflexivity.
  Qed.

  Theorem drop_while_denotes (p : A -> bool) : denotes (drop_while_xf p) (sem_drop_while p).
  Proof.
    apply (simple_denotes _ _ (m_drop_while p)); auto using drop_while_impl.
    - intros ms x. simpl. destruct ms; [reflexivity|]. destruct (p x); reflexivity.
    - intros l _. apply m_drop_while_E.
  Qed.

  (** positions k, k+1, .. of [l] that are multiples of [n]; [ref_take_nth n l] is [nth_from n 0 l] *)
  Definition nth_from (n k : nat) (l : list A) : list A :=
    map snd (filter (fun ix => Nat.eqb (fst ix mod n) 0) (combine (seq k (length l)) l)).

  Lemma m_take_nth_E (n : nat) (l : list A) : n <> 0 -> forall k,
    mE (m_take_nth (Z.of_nat n)) (Z.of_nat k - 1)%Z l = nth_from n k l.
  Proof.
    unfold nth_from. intro Hn. induction l as [|x t IH]; intro k; [reflexivity|].
    rewrite mE_step. simpl.
    replace (Z.of_nat k - 1 + 1)%Z with (Z.of_nat k) by lia.
    replace (Z.of_nat k) with (Z.of_nat (S k) - 1)%Z at 2 by lia. rewrite IH.
    rewrite Z.rem_mod_nonneg by lia. rewrite <- Nat2Z.inj_mod.
    destruct (Nat.eqb (k mod n) 0) eqn:E.
    - apply Nat.eqb_eq in E. rewrite E. reflexivity.
    - apply Nat.eqb_neq in E. destruct (Z.of_nat (k mod n) =? 0)%Z eqn:E2; [|reflexivity].
      apply Z.eqb_eq in E2. lia.
  Qed.

  Theorem take_nth_denotes (n : nat) : 1 <= n -> denotes (@take_nth_xf A (Z.of_nat n)) (sem_take_nth n).
  Proof.
    intro Hn. apply (simple_denotes _ _ (m_take_nth (Z.of_nat n))); auto using take_nth_impl.
    - intros l _. apply (m_take_nth_E n l ltac:(lia) 0).
  Qed.

  Lemma m_interpose_E sep (l : list A) : forall z, (z <= 0)%Z ->
    mE (m_interpose sep) z l = flat_map (fun y => [sep; y]) l.
  Proof.
    induction l as [|x t IH]; intros z Hz; [reflexivity|].
    rewrite mE_step. simpl. destruct (z - 1 =? 0)%Z eqn:E; [apply Z.eqb_eq in E; lia|].
    rewrite IH by lia. reflexivity.
  Qed.

  Theorem interpose_denotes (sep : A) : denotes (interpose_xf sep) (sem_interpose sep).
  Proof.
    apply (simple_denotes _ _ (m_interpose sep)); auto using interpose_impl.
    - intros l _. destruct l as [|x t]; [reflexivity|].
      rewrite mE_step. simpl. rewrite m_interpose_E by lia. reflexivity.
  Qed.
End Denotes.
