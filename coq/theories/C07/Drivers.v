(** C07: the application forms.  Each of transduce / into / sequence / eduction returns what
    a complete process returns ([exec_acc]) and pulls what it consumes ([consumed]), whatever
    the transducer; for one that denotes [m] and feeds [conj] that is [sF m l], one call of the
    completion arity and [need (sD m) l] inputs. *)
From Coq Require Import List Bool ZArith Lia.
Import ListNotations.
From Verif Require Import C07.Model C07.Spec C07.Mach.

Lemma conj_feed {B} (L : list B) : forall s q c,
  feed (conj_rf B) s (q, c) L = (tt, (q ++ L, c), false).
Proof.
  induction L as [|x t IH]; intros [] q c; simpl.
  - rewrite app_nil_r. reflexivity.
  - rewrite IH, <- app_assoc. reflexivity.
Qed.

Lemma conj_exec {B} (L : list B) : exec_acc (conj_rf B) ([], 0) L = (L, 1).
Proof. unfold exec_acc, execF. simpl rs0. rewrite conj_feed. reflexivity. Qed.

Lemma conj_halted {B} (L : list B) a : halted (conj_rf B) a L = false.
Proof. unfold halted, haltF. destruct a as [q c]. simpl rs0. rewrite conj_feed. reflexivity. Qed.

Lemma firstn_length_all {A} (l : list A) : firstn (length l) l = l.
Proof. apply firstn_all. Qed.

Lemma transduce_eq {A B Acc} (x : xform A B) (f : rf Acc B) init l :
  transduce x f init l = (exec_acc (x Acc f) init l, consumed (x Acc f) init l).
Proof.
  unfold transduce, exec_acc, execF, consumed. rewrite <- run_feed.
  destruct (run _ _ init l) as [[[s a] h] n]. reflexivity.
Qed.

Lemma appending_execF {C E} (r : rf (list C * nat) E) : appending r ->
  forall l s q c, execF r s (q, c) l =
     (q ++ fst (execF r s ([], 0) l), c + snd (execF r s ([], 0) l)).
Proof.
  intros Hr l s q c. pose proof (appending_feed r Hr l s q c) as Hf. destruct Hr as [_ H2].
  unfold execF. rewrite Hf. destruct (feed r s ([], 0) l) as [[s1 [q1 c1]] h]. simpl.
  rewrite H2. destruct (rdone r s1 ([], 0)) as [s2 [q2 c2]] eqn:Hd. simpl.
  rewrite (H2 s1 q1 c1), Hd. simpl. rewrite app_assoc, Nat.add_assoc. reflexivity.
Qed.

Section Transduce.
  Context {A B : Type} (G : list A -> Prop) (x : xform A B) (m : sem A B).
  Hypothesis Hx : denotes_on G x m.

  (** with any downstream reducing function *)
  Theorem transduce_general {Acc} (f : rf Acc B) (init : Acc) (l : list A) :
    (forall k, G (firstn k l)) ->
    transduce x f init l =
      (exec_acc f init (sF m l), need (fun p => sD m p || halted f init (sE m p)) l).
  Proof.
    intro HG. destruct Hx as (E & H & _). rewrite transduce_eq. f_equal.
    - apply E. rewrite <- (firstn_all l). apply HG.
    - rewrite consumed_need. apply need_ext. intro k. apply H, HG.
  Qed.

  Theorem transduce_conj (l : list A) : (forall k, G (firstn k l)) ->
    transduce x (conj_rf B) ([], 0) l = ((sF m l, 1), need (sD m) l).
  Proof.
    intro HG. rewrite transduce_general by exact HG. rewrite conj_exec. f_equal.
    apply need_ext. intro k. rewrite conj_halted. apply orb_false_r.
  Qed.

  Theorem into_correct (l : list A) : (forall k, G (firstn k l)) ->
    into x l = ((sF m l, 1), need (sD m) l).
  Proof. apply transduce_conj. Qed.

  (** the same, read off the process itself: what [sequence] and [eduction] are stated in *)
  Lemma conj_run (l : list A) : (forall k, G (firstn k l)) ->
    execF (x _ (conj_rf B)) (rs0 (x _ (conj_rf B))) ([], 0) l = (sF m l, 1) /\
    snd (run (x _ (conj_rf B)) (rs0 (x _ (conj_rf B))) ([], 0) l) = need (sD m) l.
  Proof.
    intro HG. pose proof (transduce_conj l HG) as T. rewrite transduce_eq in T.
    injection T as T1 T2. split; assumption.
  Qed.

  Lemma sequence_go_spec (r : rf (list B * nat) A) : appending r -> forall l s,
    sequence_go r s l =
      (fst (execF r s ([], 0) l), snd (execF r s ([], 0) l), snd (run r s ([], 0) l)).
  Proof.
    intros Hr. induction l as [|y t IH]; intro s.
    - unfold execF. simpl. destruct (rdone r s ([], 0)) as [s' qc]. reflexivity.
    - rewrite execF_cons. simpl. destruct (rstep r s ([], 0) y) as [[s1 [q1 c1]] []].
      + destruct (rdone r s1 (q1, c1)) as [s' qc]. reflexivity.
      + rewrite IH, (appending_execF r Hr t s1 q1 c1), (appending_run r Hr t s1 q1 c1).
        destruct (run r s1 ([], 0) t) as [[[s2 [q2 c2]] h2] n]. reflexivity.
  Qed.

  Theorem sequence_correct (l : list A) : (forall k, G (firstn k l)) ->
    sequence x l = (sF m l, 1, need (sD m) l).
  Proof.
    intro HG. unfold sequence. rewrite sequence_go_spec by (apply Hx, conj_appending).
    destruct (conj_run l HG) as [-> ->]. reflexivity.
  Qed.

  Lemma skipn_pop (L M : list B) : forall cur, cur < length L ->
    firstn 1 (skipn cur L) ++ skipn (S cur) (L ++ M) = skipn cur (L ++ M).
  Proof.
    induction L as [|a L' IH]; intros cur H; [simpl in H; lia|].
    destruct cur as [|c]; [reflexivity|]. simpl in H.
    change (firstn 1 (skipn c L') ++ skipn (S c) (L' ++ M) = skipn c (L' ++ M)).
    apply IH. lia.
  Qed.

  Lemma eduction_go_spec (r : rf (list B * nat) A) : appending r -> forall l s q c cur,
    eduction_go r s (q, c) cur l =
      (skipn cur (fst (execF r s (q, c) l)), snd (execF r s (q, c) l), snd (run r s (q, c) l)).
  Proof.
    intros Hr. induction l as [|y t IH]; intros s q c cur.
    - unfold execF. simpl. destruct (rdone r s (q, c)) as [s' qc]. reflexivity.
    - rewrite execF_cons. simpl. rewrite (proj1 Hr).
      destruct (rstep r s ([], 0) y) as [[s1 [q1 c1]] []]; simpl.
      + destruct (rdone r s1 (q ++ q1, c + c1)) as [s' qc]. reflexivity.
      + rewrite !IH. destruct (run r s1 (q ++ q1, c + c1) t) as [[[s2 a2] h2] n]. cbn [fst snd].
        destruct (Nat.ltb cur (length (q ++ q1))) eqn:E; [|reflexivity].
        apply Nat.ltb_lt in E. rewrite (appending_execF r Hr t s1 (q ++ q1) (c + c1)). cbn [fst snd].
        change (match skipn cur (q ++ q1) with [] => [] | a :: _ => [a] end) with (firstn 1 (skipn cur (q ++ q1))).
        rewrite skipn_pop by exact E. reflexivity.
  Qed.

  Theorem eduction_correct (l : list A) : (forall k, G (firstn k l)) ->
    eduction x l = (sF m l, 1, need (sD m) l).
  Proof.
    intro HG. unfold eduction. rewrite eduction_go_spec by (apply Hx, conj_appending).
    destruct (conj_run l HG) as [-> ->]. reflexivity.
  Qed.
End Transduce.

Lemma transduce_stream_eq {A B Acc} (x : xform A B) (f : rf Acc B) init (src : nat -> A) fuel :
  transduce_stream x f init src fuel =
    if halted (x Acc f) init (prefix src fuel) then Some (transduce x f init (prefix src fuel)) else None.
Proof.
  unfold transduce_stream, transduce, halted, haltF. rewrite <- run_feed.
  destruct (run _ _ init (prefix src fuel)) as [[[s a] h] n]. destruct h; reflexivity.
Qed.

Lemma run_halted_app {Acc E} (r : rf Acc E) l1 l2 : forall s a s' a' n,
  run r s a l1 = (s', a', true, n) -> run r s a (l1 ++ l2) = (s', a', true, n).
Proof.
  induction l1 as [|y t IH]; intros s a s' a' n H; simpl in *; [congruence|].
  destruct (rstep r s a y) as [[s1 a1] h]. destruct h; [exact H|].
  destruct (run r s1 a1 t) as [[[s2 a2] h2] n2] eqn:Er. inversion H; subst.
  rewrite (IH _ _ _ _ _ Er). reflexivity.
Qed.

Lemma prefix_app {A} (src : nat -> A) a b : prefix src (a + b) = prefix src a ++ map src (seq a b).
Proof. unfold prefix. rewrite seq_app, map_app. reflexivity. Qed.

(** more fuel does not change a terminated result: for any transducer and any reducing function *)
Theorem transduce_stream_mono {A B} (x : xform A B) {Acc} (f : rf Acc B) init (src : nat -> A) fuel fuel' v :
  fuel <= fuel' ->
  transduce_stream x f init src fuel = Some v -> transduce_stream x f init src fuel' = Some v.
Proof.
  intros Hle. unfold transduce_stream.
  replace fuel' with (fuel + (fuel' - fuel)) by lia. rewrite prefix_app.
  destruct (run (x Acc f) (rs0 (x Acc f)) init (prefix src fuel)) as [[[s a] h] n] eqn:E.
  destruct h; [|discriminate]. intro Hv.
  rewrite (run_halted_app _ _ _ _ _ _ _ _ E). exact Hv.
Qed.

(** if the pipeline is finished on the first [fuel] elements of the stream, the process
    terminates, having pulled exactly the needed prefix *)
Theorem transduce_stream_correct_on {A B} (G : list A -> Prop) (x : xform A B) (m : sem A B) :
  denotes_on G x m -> forall (src : nat -> A) (fuel : nat),
  (forall k, G (firstn k (prefix src fuel))) -> sD m (prefix src fuel) = true ->
  transduce_stream x (conj_rf B) ([], 0) src fuel =
    Some ((sF m (prefix src fuel), 1), need (sD m) (prefix src fuel)).
Proof.
  intros Hx src fuel HG HD. rewrite transduce_stream_eq, (transduce_conj G x m Hx) by exact HG.
  destruct Hx as (_ & H & _). rewrite H, HD; [reflexivity|]. rewrite <- (firstn_all (prefix src fuel)). apply HG.
Qed.

Theorem transduce_stream_correct {A B} (x : xform A B) (m : sem A B) : denotes x m ->
  forall (src : nat -> A) (fuel : nat), sD m (prefix src fuel) = true ->
  transduce_stream x (conj_rf B) ([], 0) src fuel =
    Some ((sF m (prefix src fuel), 1), need (sD m) (prefix src fuel)).
Proof. intros Hx src fuel. apply (transduce_stream_correct_on _ x m Hx). intro; exact I. Qed.
