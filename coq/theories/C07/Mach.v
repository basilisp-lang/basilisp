(** C07 generic theory: what it means for a transducer to denote a reference function,
    closure under [comp], and the proof method (list machines, lifting, renaming of states). *)
From Coq Require Import List Bool ZArith.
Import ListNotations.
From Verif Require Import C07.Model C07.Spec.

Section FeedRun.
  Context {Acc E : Type} (r : rf Acc E).

  Lemma run_feed l : forall s a, fst (run r s a l) = feed r s a l.
  Proof.
    induction l as [|x t IH]; intros s a; simpl; [reflexivity|].
    destruct (rstep r s a x) as [[s1 a1] h]. destruct h; [reflexivity|].
    specialize (IH s1 a1). destruct (run r s1 a1 t) as [[[s2 a2] h2] n]. exact IH.
  Qed.

  Lemma feed_app l1 : forall l2 s a,
    feed r s a (l1 ++ l2) =
      let '(s1, a1, h) := feed r s a l1 in if h then (s1, a1, true) else feed r s1 a1 l2.
  Proof.
    induction l1 as [|x t IH]; intros l2 s a; simpl; [reflexivity|].
    destruct (rstep r s a x) as [[s1 a1] h]. destruct h; [reflexivity|]. apply IH.
  Qed.

  Lemma feed_halted_true l : forall s a s' a' h, feed r s a l = (s', a', h) -> l = [] -> h = false.
  Proof. intros; subst; simpl in *; congruence. Qed.
End FeedRun.

Definition execF {Acc E} (r : rf Acc E) (s : rS r) (a : Acc) (l : list E) : Acc :=
  let '(s', a', _) := feed r s a l in snd (rdone r s' a').
Definition haltF {Acc E} (r : rf Acc E) (s : rS r) (a : Acc) (l : list E) : bool :=
  snd (feed r s a l).
(** result of a complete transducing process started on a fresh [(xform rf)] *)
Definition exec_acc {Acc E} (r : rf Acc E) (a : Acc) (l : list E) : Acc := execF r (rs0 r) a l.
(** did the process stop (a [Reduced] came back) while consuming [l]? *)
Definition halted {Acc E} (r : rf Acc E) (a : Acc) (l : list E) : bool := haltF r (rs0 r) a l.
Definition consumed {Acc E} (r : rf Acc E) (a : Acc) (l : list E) : nat := snd (run r (rs0 r) a l).

Lemma run_count {Acc E} (r : rf Acc E) l : forall pre s0 a0 s a,
  feed r s0 a0 pre = (s, a, false) ->
  snd (run r s a l) = need_from (fun p => haltF r s0 a0 p) pre l.
Proof.
  induction l as [|x t IH]; intros pre s0 a0 s a Hp; simpl; [reflexivity|].
  unfold haltF at 1. rewrite feed_app, Hp. simpl.
  destruct (rstep r s a x) as [[s1 a1] h] eqn:Hs. destruct h; simpl; [reflexivity|].
  specialize (IH (pre ++ [x]) s0 a0 s1 a1).
  destruct (run r s1 a1 t) as [[[s2 a2] h2] n]. simpl in *. f_equal. apply IH.
  rewrite feed_app, Hp. simpl. rewrite Hs. reflexivity.
Qed.

Lemma consumed_need {Acc E} (r : rf Acc E) a l : consumed r a l = need (halted r a) l.
Proof. unfold consumed, need, halted. apply run_count. reflexivity. Qed.

Lemma need_from_ext {A} (P Q : list A -> bool) l : forall pre,
  (forall k, P (pre ++ firstn k l) = Q (pre ++ firstn k l)) ->
  need_from P pre l = need_from Q pre l.
Proof.
  induction l as [|x t IH]; intros pre H; simpl; [reflexivity|].
  pose proof (H 1) as H1. simpl in H1. rewrite H1.
  destruct (Q (pre ++ [x])); [reflexivity|]. f_equal. apply IH.
  intro k. specialize (H (S k)). simpl in H. rewrite <- !app_assoc. exact H.
Qed.

Lemma need_ext {A} (P Q : list A -> bool) l :
  (forall k, P (firstn k l) = Q (firstn k l)) -> need P l = need Q l.
Proof. intro H. apply need_from_ext. exact H. Qed.

(** Accumulator-naturality: a transducer only ever hands the accumulator to [rf].
    Needed for [sequence] (a fresh queue per input) and [eduction] (elements are popped
    while the process is still running). *)

Definition appending {C E} (r : rf (list C * nat) E) : Prop :=
  (forall s q c x, rstep r s (q, c) x =
     let '(s', qc, h) := rstep r s ([], 0) x in (s', (q ++ fst qc, c + snd qc), h)) /\
  (forall s q c, rdone r s (q, c) =
     let '(s', qc) := rdone r s ([], 0) in (s', (q ++ fst qc, c + snd qc))).

Definition natural {A B} (x : xform A B) : Prop :=
  forall C (r : rf (list C * nat) B), appending r -> appending (x _ r).

Lemma conj_appending B : appending (conj_rf B).
Proof. split; intros; simpl; rewrite ?app_nil_r, ?Nat.add_0_r, ?Nat.add_1_r; reflexivity. Qed.

Lemma appending_run {C E} (r : rf (list C * nat) E) : appending r ->
  forall l s q c, run r s (q, c) l =
     let '(s', qc, h, n) := run r s ([], 0) l in (s', (q ++ fst qc, c + snd qc), h, n).
Proof.
  intros [H1 H2] l. induction l as [|x t IH]; intros s q c; simpl.
  - rewrite app_nil_r, Nat.add_0_r. reflexivity.
  - rewrite H1. destruct (rstep r s ([], 0) x) as [[s1 [q1 c1]] h]. simpl.
    destruct h; [reflexivity|]. rewrite IH. rewrite (IH s1 q1 c1).
    destruct (run r s1 ([], 0) t) as [[[s2 [q2 c2]] h2] n]. simpl.
    rewrite app_assoc, Nat.add_assoc. reflexivity.
Qed.

Lemma appending_feed {C E} (r : rf (list C * nat) E) : appending r ->
  forall l s q c, feed r s (q, c) l =
     let '(s', qc, h) := feed r s ([], 0) l in (s', (q ++ fst qc, c + snd qc), h).
Proof.
  intros Hr l s q c. rewrite <- !run_feed, (appending_run r Hr).
  destruct (run r s ([], 0) l) as [[[s' qc] h] n]. reflexivity.
Qed.

(** [x] denotes [m] on the inputs satisfying [G]: for EVERY downstream reducing function,
    - a complete process over [l] (feed until [Reduced], then completion once) gives what
      the downstream process gives over [sF m l] -- same elements, downstream completion
      called exactly as often as in a single downstream process, i.e. once;
    - it stops while consuming [l] iff the function is finished on [l] or downstream
      stopped on what was handed to it;
    - [x] is accumulator-natural. *)
Definition denotes_on {A B} (G : list A -> Prop) (x : xform A B) (m : sem A B) : Prop :=
  (forall Acc (r : rf Acc B) a l, G l -> exec_acc (x Acc r) a l = exec_acc r a (sF m l)) /\
  (forall Acc (r : rf Acc B) a l, G l -> halted (x Acc r) a l = sD m l || halted r a (sE m l)) /\
  natural x.
Definition denotes {A B} (x : xform A B) (m : sem A B) : Prop := denotes_on (fun _ => True) x m.

Lemma comp_denotes_on {A B C} (G1 : list A -> Prop) (G2 : list B -> Prop)
      (x1 : xform A B) (x2 : xform B C) m1 m2 :
  denotes_on G1 x1 m1 -> denotes_on G2 x2 m2 ->
  denotes_on (fun l => G1 l /\ G2 (sF m1 l) /\ G2 (sE m1 l)) (comp x1 x2) (sem_comp m1 m2).
Proof.
  intros (E1 & H1 & N1) (E2 & H2 & N2). split; [|split].
  - intros Acc r a l (g1 & g2 & _). unfold comp. rewrite E1 by assumption. rewrite E2 by assumption. reflexivity.
  - intros Acc r a l (g1 & _ & g3). unfold comp. rewrite H1 by assumption. rewrite H2 by assumption.
    simpl. rewrite orb_assoc. reflexivity.
  - intros Cc r Hr. unfold comp. apply N1, N2, Hr.
Qed.

Lemma denotes_on_weaken {A B} (G G' : list A -> Prop) (x : xform A B) m :
  (forall l, G' l -> G l) -> denotes_on G x m -> denotes_on G' x m.
Proof. intros W (E & H & N). split; [|split]; auto. Qed.

Lemma comp_denotes {A B C} (x1 : xform A B) (x2 : xform B C) m1 m2 :
  denotes x1 m1 -> denotes x2 m2 -> denotes (comp x1 x2) (sem_comp m1 m2).
Proof.
  intros D1 D2. apply (denotes_on_weaken _ _ _ _ (fun _ _ => conj I (conj I I)) (comp_denotes_on _ _ _ _ _ _ D1 D2)).
Qed.

(** Reducing functions that differ by a renaming of their private state *)

Definition rf_iso {Acc E} (r1 r2 : rf Acc E) (g : rS r1 -> rS r2) : Prop :=
  g (rs0 r1) = rs0 r2 /\
  (forall s a x, rstep r2 (g s) a x = let '(s', a', h) := rstep r1 s a x in (g s', a', h)) /\
  (forall s a, rdone r2 (g s) a = let '(s', a') := rdone r1 s a in (g s', a')).

Lemma iso_feed {Acc E} (r1 r2 : rf Acc E) g : rf_iso r1 r2 g -> forall l s a,
  feed r2 (g s) a l = let '(s', a', h) := feed r1 s a l in (g s', a', h).
Proof.
  intros (_ & Hs & _) l. induction l as [|x t IH]; intros s a; simpl; [reflexivity|].
  rewrite Hs. destruct (rstep r1 s a x) as [[s1 a1] []]; [reflexivity|apply IH].
Qed.

Lemma iso_exec_acc {Acc E} (r1 r2 : rf Acc E) g : rf_iso r1 r2 g -> forall a l, exec_acc r1 a l = exec_acc r2 a l.
Proof.
  intros I a l. pose proof (iso_feed _ _ _ I l (rs0 r1) a) as F. destruct I as (H0 & _ & Hd).
  unfold exec_acc, execF. rewrite <- H0, F.
  destruct (feed r1 (rs0 r1) a l) as [[s1 a1] h]. rewrite Hd. destruct (rdone r1 s1 a1). reflexivity.
Qed.

Lemma iso_halted {Acc E} (r1 r2 : rf Acc E) g : rf_iso r1 r2 g -> forall a l, halted r1 a l = halted r2 a l.
Proof.
  intros I a l. pose proof (iso_feed _ _ _ I l (rs0 r1) a) as F. destruct I as (H0 & _ & _).
  unfold halted, haltF. rewrite <- H0, F. destruct (feed r1 (rs0 r1) a l) as [[s1 a1] h]. reflexivity.
Qed.

(** appending is a statement about states too, so it comes back only along an injective renaming *)
Lemma iso_appending {C E} (r1 r2 : rf (list C * nat) E) g :
  (forall s s', g s = g s' -> s = s') -> rf_iso r1 r2 g -> appending r2 -> appending r1.
Proof.
  intros Inj (_ & Hs & Hd) [H1 H2]. split.
  - intros s q c x. specialize (H1 (g s) q c x). rewrite !Hs in H1.
    destruct (rstep r1 s (q, c) x) as [[s1 a1] h1], (rstep r1 s ([], 0) x) as [[s2 a2] h2].
    injection H1 as Hg Ha Hh. apply Inj in Hg. congruence.
  - intros s q c. specialize (H2 (g s) q c). rewrite !Hd in H2.
    destruct (rdone r1 s (q, c)) as [s1 a1], (rdone r1 s ([], 0)) as [s2 a2].
    injection H2 as Hg Ha. apply Inj in Hg. congruence.
Qed.

(** List machines: the proof device.  A machine says, per input, what it emits, whether
    it is finished, and its next state; [mhalt] is applied to the state when downstream
    stopped in the middle of what was emitted; [mflush] is what completion emits. *)

Record mach (A B : Type) : Type := mkMach {
  mS : Type;
  m0 : mS;
  mstep : mS -> A -> list B * bool * mS;
  mhalt : mS -> mS;
  mflush : mS -> list B }.
Arguments mkMach {A B mS} _ _ _ _.
Arguments mS {A B} _.
Arguments m0 {A B} _.
Arguments mstep {A B} _ _ _.
Arguments mhalt {A B} _ _.
Arguments mflush {A B} _ _.

Definition mach_wf {A B} (m : mach A B) : Prop :=
  forall ms x, fst (fst (mstep m ms x)) <> [] -> mflush m (mhalt m (snd (mstep m ms x))) = [].

Definition lift {A B} (m : mach A B) : xform A B := fun Acc r =>
  mkRf (m0 m, rs0 r)
    (fun st a x => let '(ms, s) := st in
       let '(o, d, ms') := mstep m ms x in
       let '(s', a', h) := feed r s a o in
       ((if h then mhalt m ms' else ms', s'), a', h || d))
    (fun st a => let '(ms, s) := st in
       let '(s1, a1, _) := feed r s a (mflush m ms) in
       let '(s', a') := rdone r s1 a1 in ((ms, s'), a')).

Fixpoint mrun {A B} (m : mach A B) (ms : mS m) (l : list A) : list B * bool * mS m :=
  match l with
  | [] => ([], false, ms)
  | x :: t => let '(o, d, ms') := mstep m ms x in
              if d then (o, true, ms')
              else let '(o2, d2, ms2) := mrun m ms' t in (o ++ o2, d2, ms2)
  end.
Definition mE {A B} (m : mach A B) ms l : list B := fst (fst (mrun m ms l)).
Definition mD {A B} (m : mach A B) ms l : bool := snd (fst (mrun m ms l)).
Definition mF {A B} (m : mach A B) ms l : list B := mE m ms l ++ mflush m (snd (mrun m ms l)).

Section Lift.
  Context {A B : Type} (m : mach A B).
  Context {Acc : Type} (r : rf Acc B).

  Lemma execF_cons x t s a :
    execF r s a (x :: t) =
      let '(s1, a1, h) := rstep r s a x in if h then snd (rdone r s1 a1) else execF r s1 a1 t.
  Proof. unfold execF. simpl. destruct (rstep r s a x) as [[s1 a1] h]. destruct h; reflexivity. Qed.

  (** Everything about the lifted machine in one statement: its loop ends where the downstream
      loop over the machine's output ends, and (what [mach_wf] is for) a machine that was cut
      short has nothing left to flush. *)
  Lemma lift_feed l : forall ms s a,
    let '(o, d, ms') := mrun m ms l in
    let '(s1, a1, h) := feed r s a o in
    exists ms'', feed (lift m Acc r) (ms, s) a l = ((ms'', s1), a1, h || d) /\
                 (mach_wf m -> mflush m ms'' = if h then [] else mflush m ms').
  Proof.
    induction l as [|x t IH]; intros ms s a; simpl.
    - eexists; split; reflexivity.
    - destruct (mstep m ms x) as [[o d] ms1] eqn:Hm.
      destruct (feed r s a o) as [[s1 a1] h] eqn:Hf.
      assert (Hh : h = true -> mach_wf m -> mflush m (mhalt m ms1) = []).
      { intros -> WF. specialize (WF ms x). rewrite Hm in WF. simpl in WF. apply WF. intros ->. discriminate. }
      destruct d.
      + rewrite Hf. destruct h; eexists; split; simpl; auto.
      + specialize (IH ms1 s1 a1). destruct (mrun m ms1 t) as [[o2 d2] ms2].
        rewrite feed_app, Hf. destruct h; [eexists; split; simpl; auto|].
        simpl. destruct (feed r s1 a1 o2) as [[s2 a2] h2]. exact IH.
  Qed.

  Lemma lift_exec l ms s a : mach_wf m -> execF (lift m Acc r) (ms, s) a l = execF r s a (mF m ms l).
  Proof.
    intro WF. pose proof (lift_feed l ms s a) as H. unfold execF, mF, mE. destruct (mrun m ms l) as [[o d] ms'].
    rewrite feed_app. simpl fst; simpl snd. destruct (feed r s a o) as [[s1 a1] h].
    destruct H as (ms'' & -> & Hfl). simpl. rewrite (Hfl WF).
    destruct h; simpl; [destruct (rdone r s1 a1); reflexivity|].
    destruct (feed r s1 a1 (mflush m ms')) as [[s2 a2] h2]. destruct (rdone r s2 a2). reflexivity.
  Qed.

  (** when the lifted machine stops does not depend on its flushing *)
  Lemma lift_halt l ms s a : haltF (lift m Acc r) (ms, s) a l = mD m ms l || haltF r s a (mE m ms l).
  Proof.
    pose proof (lift_feed l ms s a) as H. unfold haltF, mD, mE. destruct (mrun m ms l) as [[o d] ms'].
    simpl. destruct (feed r s a o) as [[s1 a1] h]. destruct H as (ms'' & -> & _). apply orb_comm.
  Qed.
End Lift.

Lemma lift_natural {A B} (m : mach A B) : natural (lift m).
Proof.
  intros C r Hr. pose proof (appending_feed r Hr) as Hf. destruct Hr as [H1 H2]. split.
  - intros [ms s] q c x. simpl. destruct (mstep m ms x) as [[o d] ms'].
    rewrite Hf. destruct (feed r s ([], 0) o) as [[s1 [q1 c1]] h]. reflexivity.
  - intros [ms s] q c. simpl. rewrite Hf.
    destruct (feed r s ([], 0) (mflush m ms)) as [[s1 [q1 c1]] h]. simpl.
    rewrite H2. rewrite (H2 s1 q1 c1). destruct (rdone r s1 ([], 0)) as [s' [q' c']]. simpl.
    rewrite app_assoc, Nat.add_assoc. reflexivity.
Qed.

(** [x] is the machine [m] lifted, up to a renaming of the closure's state *)
Definition implements {A B} (x : xform A B) (m : mach A B) : Prop :=
  forall Acc (r : rf Acc B), exists g : rS (x Acc r) -> rS (lift m Acc r),
    (forall s s', g s = g s' -> s = s') /\ rf_iso (x Acc r) (lift m Acc r) g.

Lemma implements_natural {A B} (x : xform A B) m : implements x m -> natural x.
Proof.
  intros I C r Hr. destruct (I _ r) as (g & Inj & Iso).
  apply (iso_appending _ _ g Inj Iso). apply lift_natural, Hr.
Qed.

(** The method: a transducer implemented by a well-formed machine whose list semantics is
    the reference triple (on the inputs satisfying [G]) denotes that triple. *)
Lemma machine_denotes {A B} (G : list A -> Prop) (x : xform A B) (m : mach A B) (sm : sem A B) :
  implements x m -> mach_wf m ->
  (forall l, G l -> mF m (m0 m) l = sF sm l /\ mE m (m0 m) l = sE sm l /\ mD m (m0 m) l = sD sm l) ->
  denotes_on G x sm.
Proof.
  intros I WF Hsem. split; [|split]; [| |exact (implements_natural x m I)].
  - intros Acc r a l Gl. destruct (I Acc r) as (g & _ & Iso). rewrite (iso_exec_acc _ _ _ Iso).
    unfold exec_acc. simpl rs0. rewrite lift_exec by exact WF.
    destruct (Hsem l Gl) as (-> & _ & _). reflexivity.
  - intros Acc r a l Gl. destruct (I Acc r) as (g & _ & Iso). rewrite (iso_halted _ _ _ Iso).
    unfold halted. simpl rs0. rewrite lift_halt.
    destruct (Hsem l Gl) as (_ & -> & ->). reflexivity.
Qed.

Lemma mD_false {A B} (m : mach A B) : (forall ms x, snd (fst (mstep m ms x)) = false) ->
  forall l ms, mD m ms l = false.
Proof.
  intros Hd l. induction l as [|x t IH]; intro ms; [reflexivity|].
  unfold mD. simpl. specialize (Hd ms x). destruct (mstep m ms x) as [[o d] ms']. simpl in Hd. subst d.
  specialize (IH ms'). unfold mD in IH. destruct (mrun m ms' t) as [[o2 d2] ms2]. exact IH.
Qed.
