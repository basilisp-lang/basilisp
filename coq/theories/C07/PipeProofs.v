(** C07: structural equality of the concrete values (Corr.v) is decidable equality, and the
    concrete model of the correspondence meets the
    property's prescription for every pipeline that does not compare elements (everything
    except distinct / dedupe / partition-by, see the guarded theorems for those), every
    input, every application form, bounded or unbounded source. *)
From Coq Require Import List Bool ZArith Lia.
Import ListNotations.
From Verif Require Import C07.Corr C07.Mach C07.Sem C07.Sem2 C07.Drivers.

Section ValInd.
  Variable P : val -> Prop.
  Hypothesis Hnil : P VNil.
  Hypothesis Hbool : forall b, P (VBool b).
  Hypothesis Hint : forall z, P (VInt z).
  Hypothesis Hkw : forall k, P (VKw k).
  Hypothesis Hvec : forall l, Forall P l -> P (VVec l).
  Fixpoint val_ind' (v : val) : P v :=
    match v with
    | VNil => Hnil
    | VBool b => Hbool b
    | VInt z => Hint z
    | VKw k => Hkw k
    | VVec l => Hvec l ((fix go (l : list val) : Forall P l :=
                           match l with
                           | [] => Forall_nil P
                           | x :: t => Forall_cons x (val_ind' x) (go t)
                           end) l)
    end.
End ValInd.

Lemma val_eqb_VVec l1 : forall l2, val_eqb (VVec l1) (VVec l2) = list_eqb val_eqb l1 l2.
Proof. induction l1 as [|x t IH]; intros [|y t']; try reflexivity. specialize (IH t'). simpl in *. now rewrite IH. Qed.

Lemma val_eqb_eq : forall x y, val_eqb x y = true <-> x = y.
Proof.
  induction x as [| b | z | k | l IH] using val_ind'; intros [| b' | z' | k' | l'];
    try (split; [simpl; discriminate|discriminate]); try (split; [reflexivity|reflexivity]).
  - simpl. rewrite Bool.eqb_true_iff. split; congruence.
  - simpl. rewrite Z.eqb_eq. split; congruence.
  - simpl. rewrite N.eqb_eq. split; congruence.
  - rewrite val_eqb_VVec, (list_eqb_spec_in val_eqb l IH l'). split; congruence.
Qed.

Lemma val_eqb_refl a : val_eqb a a = true.
Proof. exact (eqb_refl_of _ val_eqb_eq a). Qed.
Lemma val_eqb_sym a b : val_eqb a b = val_eqb b a.
Proof. exact (eqb_sym_of _ val_eqb_eq a b). Qed.
Lemma val_eqb_trans a b c : val_eqb a b = true -> val_eqb b c = true -> val_eqb a c = true.
Proof. rewrite !val_eqb_eq. congruence. Qed.

Definition stage_ok (s : stage) : bool :=
  match s with
  | STakeNth n | SPartAll n => N.leb 1 n
  | SPartBy _ | SDistinct | SDedupe => false
  | _ => true
  end.
Definition pipe_ok (p : list stage) : bool := forallb stage_ok p.

Lemma stage_denotes s : stage_ok s = true -> denotes (xf_of_stage s) (sem_of_stage s).
Proof.
  destruct s; simpl; intro H; try discriminate.
  - (* map *) apply map_denotes.
  - (* map-indexed *) apply map_indexed_denotes.
  - (* filter *) apply filter_denotes.
  - (* remove *) apply remove_denotes.
  - (* keep *) apply keep_denotes.
  - (* keep-indexed *) apply (keep_indexed_denotes (fun i x => opt_of (fn2 f i x))).
  - (* take *) rewrite <- N_nat_Z. apply take_denotes.
  - (* take-while *) apply take_while_denotes.
  - (* take-nth *) rewrite <- N_nat_Z. apply take_nth_denotes. apply N.leb_le in H. lia.
  - (* drop *) rewrite <- N_nat_Z. apply drop_denotes.
  - (* drop-while *) apply drop_while_denotes.
  - (* interpose *) apply interpose_denotes.
  - (* partition-all *) rewrite <- N_nat_Z. apply comp_denotes; [|apply map_denotes].
    apply partition_all_denotes. apply N.leb_le in H. lia.
  - (* mapcat *) apply mapcat_denotes.
  - (* cat *) apply comp_denotes; [apply map_denotes|apply cat_denotes].
Qed.

Lemma id_denotes {A} : denotes (@id_xf A) (sem_simple (fun l => l)).
Proof.
  split; [|split].
  - intros; reflexivity.
  - intros; reflexivity.
  - intros C r Hr. exact Hr.
Qed.

Lemma pipe_denotes p : pipe_ok p = true -> denotes (xf_pipe p) (sem_pipe p).
Proof.
  induction p as [|s t IH]; simpl; intro H; [apply id_denotes|].
  apply andb_true_iff in H as [H1 H2]. apply comp_denotes; [apply stage_denotes; exact H1|apply IH; exact H2].
Qed.

Lemma lazy_stage s l : stage_ok s = true -> lazy_of_stage s l = sF (sem_of_stage s) l.
Proof.
  destruct s; simpl; intro H; try discriminate.
  - (* map *) apply lazy_map_ref.
  - (* map-indexed *) apply lazy_map_indexed_ref.
  - (* filter *) apply lazy_filter_ref.
  - (* remove *) apply lazy_remove_ref.
  - (* keep *) apply lazy_keep_ref.
  - (* keep-indexed *) apply (lazy_keep_indexed_ref (fun i x => opt_of (fn2 f i x))).
  - (* take *) rewrite <- N_nat_Z. apply lazy_take_ref.
  - (* take-while *) apply lazy_take_while_ref.
  - (* take-nth *) rewrite <- N_nat_Z. apply lazy_take_nth_ref. apply N.leb_le in H. lia.
  - (* drop *) rewrite <- N_nat_Z. apply lazy_drop_ref.
  - (* drop-while *) apply lazy_drop_while_ref.
  - (* interpose *) apply lazy_interpose_ref.
  - (* partition-all *) rewrite <- N_nat_Z, lazy_partition_all_ref. reflexivity.
  - (* mapcat *) apply lazy_mapcat_ref.
  - (* cat *) reflexivity.
Qed.

Lemma lazy_pipe_ref p : forall l, pipe_ok p = true -> lazy_pipe p l = sF (sem_pipe p) l.
Proof.
  induction p as [|s t IH]; simpl; intros l H; [reflexivity|].
  apply andb_true_iff in H as [H1 H2]. rewrite lazy_stage by exact H1. apply IH. exact H2.
Qed.

Lemma list_val_eqb_refl (l : list val) : list_eqb val_eqb l l = true.
Proof. now apply (list_eqb_spec val_eqb val_eqb_eq). Qed.

Theorem model_meets_spec fm pipe input limit : pipe_ok pipe = true ->
  spec_form fm pipe input limit (model_form fm pipe input limit) = true.
Proof.
  intro Hok. pose proof (pipe_denotes pipe Hok) as D.
  pose proof D as (_ & Hh & _).
  unfold spec_form, model_form.
  specialize (Hh _ (conj_rf val) ([], 0) input I). unfold halted, haltF in Hh.
  rewrite conj_feed in Hh. simpl in Hh. rewrite orb_false_r in Hh. rewrite Hh.
  destruct (limit && negb (sD (sem_pipe pipe) input)); [reflexivity|].
  assert (G : forall k : nat, (fun _ : list val => True) (firstn k input)) by (intros; exact I).
  destruct fm.
  - rewrite lazy_pipe_ref by exact Hok. rewrite list_val_eqb_refl. reflexivity.
  - rewrite (into_correct _ _ _ D input G). rewrite list_val_eqb_refl, N.eqb_refl. reflexivity.
  - rewrite (sequence_correct _ _ _ D input G). rewrite list_val_eqb_refl, N.eqb_refl. reflexivity.
  - rewrite (into_correct _ _ _ D input G). rewrite list_val_eqb_refl, N.eqb_refl. reflexivity.
  - rewrite (eduction_correct _ _ _ D input G). rewrite list_val_eqb_refl, N.eqb_refl. reflexivity.
Qed.

Theorem model_case_meets_spec pipe input limit : pipe_ok pipe = true ->
  spec_ok (CPipe pipe input limit) (model (CPipe pipe input limit)) = true.
Proof. intro H. simpl. rewrite !model_meets_spec by exact H. reflexivity. Qed.

Lemma list_res_refl r : res_eqb r r = true.
Proof.
  destruct r; simpl; [|apply N.eqb_refl]. rewrite list_val_eqb_refl, !N.eqb_refl. reflexivity.
Qed.

Theorem model_iterate_meets_spec n table dflt x :
  spec_ok (CIterate n table dflt x) (model (CIterate n table dflt x)) = true.
Proof. simpl. rewrite iterate_take_ref, list_val_eqb_refl. reflexivity. Qed.
