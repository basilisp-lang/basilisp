(** C09 -- vocabulary shared by the model (Destructure.v) and the specification (DSpec.v) of
    destructuring: results, binder names, the ORACLE (nth / nthnext / get / seq? / next / first /
    apply hash-map / -collect-keyword-args: the functions the property names, kept abstract),
    the small expression language the destructuring macros emit code in, and the surface
    syntax of binding patterns. *)
From Coq Require Import List NArith Bool.
Import ListNotations.
From Verif Require Import Common.ListX.

Inductive res (A : Type) := Ok (a : A) | Err (c : N).
Arguments Ok {A} a.
Arguments Err {A} c.

Definition bindr {A B} (r : res A) (f : A -> res B) : res B :=
  match r with Ok a => f a | Err c => Err c end.
Notation "x <- r ;; k" := (bindr r (fun x => k)) (at level 61, r at next level, right associativity).

(** exception class of "unable to resolve symbol" (a CompilerException at analysis time) *)
Definition E_UNBOUND : N := 9%N.

(** Binder names: symbols written by the user, and the temporaries `vec_arg__N` / `map_arg__N`
    produced by (gensym).  Keeping them in separate constructors is the usual abstraction of
    gensym: a user never writes a name the counter will produce (ASSUMPTIONS of the check). *)
Inductive name := NU (s : str) | NG (k : N).

Definition name_eqb (a b : name) : bool :=
  match a, b with
  | NU s, NU t => str_eqb s t
  | NG j, NG k => N.eqb j k
  | _, _ => false
  end.

Lemma name_eqb_eq a b : name_eqb a b = true <-> a = b.
Proof. destruct a, b; simpl; rewrite ?str_eqb_eq, ?N.eqb_eq; split; congruence. Qed.

Lemma name_eqb_refl a : name_eqb a a = true.
Proof. exact (eqb_refl_of _ name_eqb_eq a). Qed.

Lemma name_eqb_neq a b : name_eqb a b = false <-> a <> b.
Proof. exact (eqb_neq_of _ name_eqb_eq a b). Qed.

Fixpoint assoc {A} (x : str) (l : list (str * A)) : option A :=
  match l with
  | [] => None
  | (y, a) :: t => if str_eqb x y then Some a else assoc x t
  end.

Fixpoint mem (x : str) (l : list str) : bool :=
  match l with [] => false | y :: t => str_eqb x y || mem x t end.

Lemma mem_In x l : mem x l = true <-> In x l.
Proof.
  induction l as [|y t IH]; simpl; [split; [discriminate|tauto]|].
  rewrite orb_true_iff, IH, str_eqb_eq. split; intros [H|H]; auto.
Qed.

Lemma mem_false x l : mem x l = false <-> ~ In x l.
Proof. rewrite <- mem_In. symmetry. apply not_true_iff_false. Qed.

(** The functions the property is stated in terms of.  Everything is proved for EVERY oracle;
    Values.v gives the executable instance the correspondence runs. *)
Record oracle := {
  val : Type;
  vnil : val;
  vkw : option str -> str -> val;          (* keyword literal  :ns/name *)
  vsym : option str -> str -> val;         (* (quote ns/name) *)
  vstr : str -> val;
  nth_ : val -> N -> res val;              (* (nth v i nil) *)
  nthnext_ : val -> N -> res val;          (* (nthnext v i) *)
  get_ : val -> val -> val -> res val;     (* (get m k default); (get m k) passes nil *)
  seqp : val -> bool;                      (* (seq? v) *)
  truthy : val -> bool;
  next_ : val -> res val;
  first_ : val -> res val;
  hashmap_ : val -> res val;               (* (apply hash-map v) *)
  collect_ : val -> res val                (* (-collect-keyword-args v) *)
}.

Section Lang.
  Variable O : oracle.
  Notation val := (val O).

  (** The code the macros emit, plus whatever the user wrote (init expressions, :or defaults,
      map keys): user expressions are arbitrary terms of the same language. *)
  Inductive expr :=
  | EConst (v : val)
  | EVar (x : name)
  | ENth (e : expr) (i : N)                (* (basilisp.core/nth e i nil) *)
  | ENthNext (e : expr) (i : N)            (* (basilisp.core/nthnext e i) *)
  | EGet2 (e k : expr)                     (* (basilisp.core/get e k) *)
  | EGet3 (e k d : expr)                   (* (basilisp.core/get e k d): d is evaluated eagerly *)
  | ENext (e : expr)
  | EFirst (e : expr)
  | EHashMap (e : expr)                    (* (basilisp.core/apply basilisp.core/hash-map e) *)
  | ECollect (e : expr)                    (* (basilisp.core/-collect-keyword-args e) *)
  | EIfSeqP (c t f : expr)                 (* (if (basilisp.core/seq? c) t f) *)
  | EIf (c t f : expr).

  Definition env := list (name * val).

  Fixpoint lookup (x : name) (en : env) : option val :=
    match en with
    | [] => None
    | (y, v) :: t => if name_eqb x y then Some v else lookup x t
    end.

  Fixpoint eval (en : env) (e : expr) : res val :=
    match e with
    | EConst v => Ok v
    | EVar x => match lookup x en with Some v => Ok v | None => Err E_UNBOUND end
    | ENth e i => v <- eval en e ;; nth_ O v i
    | ENthNext e i => v <- eval en e ;; nthnext_ O v i
    | EGet2 e k => m <- eval en e ;; kv <- eval en k ;; get_ O m kv (vnil O)
    | EGet3 e k d => m <- eval en e ;; kv <- eval en k ;; dv <- eval en d ;; get_ O m kv dv
    | ENext e => v <- eval en e ;; next_ O v
    | EFirst e => v <- eval en e ;; first_ O v
    | EHashMap e => v <- eval en e ;; hashmap_ O v
    | ECollect e => v <- eval en e ;; collect_ O v
    | EIfSeqP c t f => v <- eval en c ;; if seqp O v then eval en t else eval en f
    | EIf c t f => v <- eval en c ;; if truthy O v then eval en t else eval en f
    end.

  (** let*: sequential, each binding sees the previous ones; a later binding of a name shadows. *)
  Fixpoint eval_let (bs : list (name * expr)) (en : env) : res env :=
    match bs with
    | [] => Ok en
    | (x, e) :: t => v <- eval en e ;; eval_let t ((x, v) :: en)
    end.

  (** An expression the user wrote mentions no gensym'd temporary. *)
  Fixpoint user_expr (e : expr) : bool :=
    match e with
    | EConst _ => true
    | EVar (NU _) => true
    | EVar (NG _) => false
    | ENth e _ | ENthNext e _ | ENext e | EFirst e | EHashMap e | ECollect e => user_expr e
    | EGet2 a b => user_expr a && user_expr b
    | EGet3 a b c | EIfSeqP a b c | EIf a b c => user_expr a && user_expr b && user_expr c
    end.

  (** Surface syntax of binding forms, as the reader hands them to the macros.
      [:keys]-like groups carry the namespace of the group keyword ([:ns/keys]) and, per
      element, the element's own namespace ([:keys [ns/a]]).  Map entries [{pat key}] are in
      the iteration order of the map literal. *)
  Definition qname := (option str * str)%type.

  Inductive pat :=
  | PSym (x : str)
  | PVec (ps : pats) (rest : option str) (as_ : option str)
  | PMap (kgroups : list (option str * list qname)) (strs : list str)
         (sgroups : list (option str * list qname))
         (es : pentries) (ors : list (str * expr)) (as_ : option str)
  with pats := PNil | PCons (p : pat) (t : pats)
  with pentries := MNil | MCons (p : pat) (k : expr) (t : pentries).

  Scheme pat_mind := Induction for pat Sort Prop
    with pats_mind := Induction for pats Sort Prop
    with pentries_mind := Induction for pentries Sort Prop.
  Combined Scheme pat_mutind from pat_mind, pats_mind, pentries_mind.

  Fixpoint plen (ps : pats) : N :=
    match ps with PNil => 0%N | PCons _ t => N.succ (plen t) end.

  Definition is_psym (p : pat) : bool := match p with PSym _ => true | _ => false end.

  (** [(cond->> syms kw-ns (map #(symbol kw-ns (name %))))]: a namespaced group keyword
      overrides the namespace of every element. *)
  Definition norm_group (g : option str * list qname) : list qname :=
    match fst g with
    | Some ns => map (fun q => (Some ns, snd q)) (snd g)
    | None => snd g
    end.
  Definition norm_groups (gs : list (option str * list qname)) : list qname :=
    flat_map norm_group gs.

  Definition opt_list (a : option str) : list str := match a with Some x => [x] | None => [] end.

  Fixpoint binders_named (es : pentries) : list str :=
    match es with
    | MNil => []
    | MCons p _ t => (match p with PSym x => [x] | _ => [] end) ++ binders_named t
    end.

End Lang.

Arguments EConst {O} v.
Arguments EVar {O} x.
Arguments ENth {O} e i.
Arguments ENthNext {O} e i.
Arguments EGet2 {O} e k.
Arguments EGet3 {O} e k d.
Arguments ENext {O} e.
Arguments EFirst {O} e.
Arguments EHashMap {O} e.
Arguments ECollect {O} e.
Arguments EIfSeqP {O} c t f.
Arguments EIf {O} c t f.
Arguments PSym {O} x.
Arguments PVec {O} ps rest as_.
Arguments PMap {O} kgroups strs sgroups es ors as_.
Arguments PNil {O}.
Arguments PCons {O} p t.
Arguments MNil {O}.
Arguments MCons {O} p k t.
Arguments lookup {O} x en.
Arguments eval {O} en e.
Arguments eval_let {O} bs en.
Arguments user_expr {O} e.
Arguments binders_named {O} es.
Arguments plen {O} ps.
Arguments is_psym {O} p.

(** The mutual fixpoints are stated outside the section (with the oracle as an explicit
    uniform parameter): Coq's [simpl] does not refold mutual fixpoints discharged from a
    section. *)
(** every name a pattern binds (including :as and & names), in binding order *)
Fixpoint binders {O : oracle} (p : pat O) : list str :=
  match p with
  | PSym x => [x]
  | PVec ps rest as_ => opt_list as_ ++ binders_seq ps ++ opt_list rest
  | PMap kg strs sg es ors as_ =>
      opt_list as_ ++ map snd (norm_groups kg) ++ strs ++ map snd (norm_groups sg)
      ++ binders_named es ++ binders_others es
  end
with binders_seq {O : oracle} (ps : pats O) : list str :=
  match ps with PNil => [] | PCons p t => binders p ++ binders_seq t end
with binders_others {O : oracle} (es : pentries O) : list str :=
  match es with
  | MNil => []
  | MCons p _ t => (if is_psym p then [] else binders p) ++ binders_others t
  end.

Definition forall_snd {A B} (f : B -> bool) (l : list (A * B)) : bool :=
  forallb (fun x => f (snd x)) l.

(** every expression inside the pattern (:or defaults, map keys) was written by the user *)
Fixpoint user_pat {O : oracle} (p : pat O) : bool :=
  match p with
  | PSym _ => true
  | PVec ps _ _ => user_pats ps
  | PMap _ _ _ es ors _ => forall_snd user_expr ors && user_entries es
  end
with user_pats {O : oracle} (ps : pats O) : bool :=
  match ps with PNil => true | PCons p t => user_pat p && user_pats t end
with user_entries {O : oracle} (es : pentries O) : bool :=
  match es with MNil => true | MCons p k t => user_pat p && user_expr k && user_entries t end.
