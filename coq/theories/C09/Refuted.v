(** C09 -- kernel-checked witnesses: what the code did before the two repairs (old shapes),
    the two open findings (scope of loop inits / rest-pattern defaults; empty list templates),
    what happens outside and at the edge of the guard (duplicate binders, :or defaults of
    every truthiness), and non-vacuity of the guarded theorems.  All by evaluation over the
    executable instance. *)
From Coq Require Import List ZArith Lia String.
Import ListNotations.
From Verif Require Import C09.Corr C09.DProofs.
Open Scope N_scope.

Definition a_ := s_ "a".
Definition b_ := s_ "b".
Definition c_ := s_ "c".
Definition k_ := s_ "k".
Definition x_ := s_ "x".
Definition y_ := s_ "y".
Definition r_ := s_ "r".
Definition m_ := s_ "m".
Definition all_ := s_ "all".

Definition only_quote := {| reemit := false; quote_or_key := true |}.
Definition only_reemit := {| reemit := true; quote_or_key := false |}.

Definition agree_out (sh : shape) (bs : list (pat C * expr C)) (outs : list str) : bool :=
  out_eqb (finish outs (model_let sh bs)) (finish outs (bind_let C bs [])).

(** * F-09a (repaired): (let [{a 'x :or {a 1}} {'x 5}] a) gave 1: with an :or default the key of
    a {sym key} entry was quoted a second time *)
Definition w_09a : list (pat C * expr C) :=
  [(PMap [] [] [] (MCons (@PSym C a_) (@EConst C (VSym None x_)) (@MNil C)) [(a_, @EConst C (VInt 1))] None,
    @EConst C (VMap [(VSym None x_, VInt 5)]))].

Lemma or_quoted_key_old_shape_refuted :
  finish [a_] (model_let only_quote w_09a) = OVals [VInt 1]
  /\ finish [a_] (bind_let C w_09a []) = OVals [VInt 5]
  /\ agree_out cur_shape w_09a [a_] = true.
Proof. vm_compute. auto. Qed.

(** the same with a key that is a local: (let [k :x {a k :or {a 1}} {:x 5}] a) *)
Definition w_09a' : list (pat C * expr C) :=
  [(@PSym C k_, @EConst C (VKw None x_));
   (PMap [] [] [] (MCons (@PSym C a_) (@EVar C (NU k_)) (@MNil C)) [(a_, @EConst C (VInt 1))] None,
    @EConst C (VMap [(VKw None x_, VInt 5)]))].

Lemma or_quoted_local_key_old_shape_refuted :
  finish [a_] (model_let only_quote w_09a') = OVals [VInt 1]
  /\ finish [a_] (bind_let C w_09a' []) = OVals [VInt 5]
  /\ agree_out cur_shape w_09a' [a_] = true.
Proof. vm_compute. auto. Qed.

(** * F-09b (repaired): (let [b 1 [{:keys [a] :or {a b}} b] [{} 2]] a) gave 2: the bindings of a
    nested pattern were emitted a second time after its later siblings *)
Definition w_09b : list (pat C * expr C) :=
  [(@PSym C b_, @EConst C (VInt 1));
   (PVec (PCons (PMap [(None, [(None, a_)])] [] [] (@MNil C) [(a_, @EVar C (NU b_))] None)
                (PCons (@PSym C b_) (@PNil C))) None None,
    @EConst C (VVec [VMap []; VInt 2]))].

Lemma nested_reemit_old_shape_refuted :
  finish [a_; b_] (model_let only_reemit w_09b) = OVals [VInt 2; VInt 2]
  /\ finish [a_; b_] (bind_let C w_09b []) = OVals [VInt 1; VInt 2]
  /\ agree_out cur_shape w_09b [a_; b_] = true.
Proof. vm_compute. auto. Qed.

(** ... and a pattern nested under d vector levels was destructured 2^d times: the binding
    list of [[...[a]...]] had 2^d entries, now d+1 *)
Fixpoint nestp (d : nat) : pat C :=
  match d with
  | O => @PSym C a_
  | S k => PVec (PCons (nestp k) (@PNil C)) None None
  end.

Lemma nest_len sh datum : forall d n,
  S (List.length (dbind_ns C sh datum (fst (mkdef C (nestp d) n))))
  = if reemit sh then (2 ^ d)%nat else S d.
Proof.
  induction d as [|d IH]; intro n; [destruct (reemit sh); reflexivity|].
  specialize (IH (N.succ n)). simpl nestp. simpl mkdef.
  destruct (mkdef C (nestp d) (N.succ n)) as [c n1]. simpl in *. unfold dbind_ns in IH.
  rewrite !app_length. destruct (reemit sh); simpl; rewrite ?app_nil_r; simpl; lia.
Qed.

Theorem reemit_exponential_old_shape : forall d e n,
  List.length (fst (destructure C old_shape c_datum (nestp d) e n)) = (2 ^ d)%nat
  /\ List.length (fst (destructure C cur_shape c_datum (nestp d) e n)) = S d.
Proof.
  intros d e n. unfold destructure.
  pose proof (nest_len old_shape c_datum d n) as H1. pose proof (nest_len cur_shape c_datum d n) as H2.
  destruct (mkdef C (nestp d) n). exact (conj H1 H2).
Qed.

(** * F-09c (open): loop init expressions and defaults of a fn rest pattern do not see the names
    destructured by earlier bindings / parameters *)
Definition w_09c_loop : case :=
  CLoop [(PVec (PCons (@PSym C a_) (PCons (@PSym C b_) (@PNil C))) None None, @EConst C (VVec [VInt 1; VInt 2]));
         (@PSym C c_, @EVar C (NU a_))] None [c_].

Lemma loop_init_scope_refuted :
  model w_09c_loop = OErr E_UNBOUND /\ spec_ok w_09c_loop (OVals [VInt 1]) = true
  /\ spec_ok w_09c_loop (model w_09c_loop) = false.
Proof. vm_compute. auto. Qed.

Definition w_09c_fn : case :=
  CFn [PMap [(None, [(None, x_)])] [] [] (@MNil C) [] None]
      (Some (PMap [(None, [(None, y_)])] [] [] (@MNil C) [(y_, @EVar C (NU x_))] None))
      [VMap [(VKw None x_, VInt 1)]] [x_; y_].

Lemma fn_rest_default_scope_refuted :
  model w_09c_fn = OErr E_UNBOUND /\ spec_ok w_09c_fn (OVals [VInt 1; VInt 1]) = true
  /\ spec_ok w_09c_fn (model w_09c_fn) = false.
Proof. vm_compute. auto. Qed.

(** * F-09d (open): an empty list template evaluates to nil, not to () *)
Definition R0 : nsrec :=
  {| cur := s_ "user"; interns := []; refers := []; aliases := []; special := [s_ "if"] |}.

Lemma sq_empty_list_refuted :
  exists t code st,
    expand R0 t ([], 0) = Some (code, st)
    /\ ev [] code = Ok (FNil, [])
    /\ subst R0 (fun _ => 0) [] t = Ok (FList [], []).
Proof.
  (* the code read is fixed by unification first: with existential variables left in the goal,
     vm_compute falls back to the slow reduction *)
  exists (TList TNil). eexists. eexists. split; [reflexivity|]. vm_compute. auto.
Qed.

Lemma sq_empty_splice_refuted :
  exists t code st,
    expand R0 t ([], 0) = Some (code, st)
    /\ ev [FVec []] code = Ok (FNil, [0])
    /\ subst R0 (fun _ => 0) [FVec []] t = Ok (FList [], [0]).
Proof. exists (TList (TCons (TSplice 0) TNil)). eexists. eexists. split; [reflexivity|]. vm_compute. auto. Qed.

(** * Outside the guard: an :as name re-bound inside its own pattern *)
Definition w_alias : list (pat C * expr C) :=
  [(PVec (PCons (@PSym C a_) (PCons (@PSym C b_) (@PNil C))) None (Some a_),
    @EConst C (VVec [VVec [VInt 7; VInt 8]; VInt 2]))].

Lemma dup_alias_outside_guard :
  alias_ok (fst (hd (@PSym C a_, @EConst C VNil) w_alias)) = false
  /\ finish [a_; b_] (model_let cur_shape w_alias) = OVals [VVec [VInt 7; VInt 8]; VInt 8]
  /\ finish [a_; b_] (bind_let C w_alias []) = OVals [VVec [VInt 7; VInt 8]; VInt 2].
Proof. vm_compute. auto. Qed.

(** duplicate plain binders are inside the guard: the later binding wins *)
Definition w_dup : list (pat C * expr C) :=
  [(PVec (PCons (PVec (PCons (@PSym C a_) (@PNil C)) None None) (PCons (@PSym C a_) (@PNil C))) None None,
    @EConst C (VVec [VVec [VInt 1]; VInt 2]))].

Lemma dup_binders_later_wins :
  let_ok C w_dup = true
  /\ finish [a_] (model_let cur_shape w_dup) = OVals [VInt 2]
  /\ finish [a_] (bind_let C w_dup []) = OVals [VInt 2].
Proof. vm_compute. auto. Qed.

(** * :or defaults of every truthiness, end to end through model and specification:
    (let [{:keys [a] :or {a false}} {}] a) = false, with a nil
    default nil, with 0 the integer 0; a present nil / false is kept *)
Definition w_or (d v : option cval) : list (pat C * expr C) :=
  [(PMap [(None, [(None, a_)])] [] [] (@MNil C)
         (match d with Some dv => [(a_, @EConst C dv)] | None => [] end) None,
    @EConst C (VMap (match v with Some x => [(VKw None a_, x)] | None => [] end)))].

Example or_falsey_defaults :
  let run d v := (finish [a_] (model_let cur_shape (w_or d v)), finish [a_] (bind_let C (w_or d v) [])) in
  run (Some (VBool false)) None = (OVals [VBool false], OVals [VBool false])
  /\ run (Some VNil) None = (OVals [VNil], OVals [VNil])
  /\ run (Some (VInt 0)) None = (OVals [VInt 0], OVals [VInt 0])
  /\ run None None = (OVals [VNil], OVals [VNil])
  /\ run (Some (VBool false)) (Some VNil) = (OVals [VNil], OVals [VNil])
  /\ run (Some (VInt 1)) (Some (VBool false)) = (OVals [VBool false], OVals [VBool false])
  /\ out_eqb (OVals [VBool false]) (OVals [VNil]) = false.
Proof. vm_compute. repeat split. Qed.

(** * Non-vacuity: a depth-3 pattern with every construct meets the premises, and binds *)
Definition p_big : pat C :=
  PVec (PCons (PMap [(None, [(None, a_); (Some (s_ "q"), b_)])] [c_] [(None, [(None, x_)])]
                    (MCons (PVec (PCons (@PSym C y_) (@PNil C)) (Some r_) None) (@EConst C (VKw None k_)) (@MNil C))
                    [(a_, @EConst C (VInt 9)); (c_, @EVar C (NU a_))] (Some m_))
              (@PNil C)) None (Some all_).

Definition v_big : cval :=
  VVec [VMap [(VKw (Some (s_ "q")) b_, VInt 2); (VSym None x_, VInt 3);
              (VKw None k_, VVec [VInt 4; VInt 5; VInt 6])]].

Example guards_nonvacuous :
  user_pat p_big = true /\ alias_ok p_big = true /\ distinct_binders p_big
  /\ finish [a_; b_; c_; x_; y_; r_] (model_let cur_shape [(p_big, @EConst C v_big)])
     = OVals [VInt 9; VInt 2; VInt 9; VInt 3; VInt 4; VList [VInt 5; VInt 6]].
Proof.
  split; [reflexivity|]. split; [reflexivity|]. split; [|vm_compute; reflexivity].
  unfold distinct_binders. vm_compute.
  repeat (constructor; [simpl; intuition discriminate|]). constructor.
Qed.

Example sq_nonvacuous :
  let t := TList (TCons (TSym None (s_ "if")) (TCons (TGen x_) (TCons (TVec (TCons (TGen x_)
             (TCons (TUnq 0) (TCons (TSplice 1) TNil)))) (TCons (TSym None a_) TNil)))) in
  ne_ok [FInt 1; FVec [FInt 2; FInt 3]] t = true
  /\ exists code c', read_template R0 t 7 = Some (code, c')
     /\ ev [FInt 1; FVec [FInt 2; FInt 3]] code
        = Ok (FList [FSym None (SN (s_ "if")); FSym None (SG x_ 7);
                     FVec [FSym None (SG x_ 7); FInt 1; FInt 2; FInt 3];
                     FSym (Some (s_ "user")) (SN a_)], [0; 1]).
Proof. split; [reflexivity|]. eexists. eexists. split; [reflexivity|]. vm_compute. reflexivity. Qed.
