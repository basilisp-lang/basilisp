(** C09 -- MODEL of syntax-quote in src/basilisp/lang/reader.py:
    [_read_sym] (symbols inside a syntax-quoted template are resolved through the resolver at
    read time), runtime.resolve_alias (the resolver), [_process_syntax_quoted_form] /
    [_expand_syntax_quote] (rebuilding collections from seq/concat/list/apply forms), the
    per-template gensym environment of [ReaderContext.syntax_quoted], and a small evaluator for
    exactly the code the reader emits.  Nested syntax-quotes are outside the model. *)
From Coq Require Import String Ascii.
From Coq Require Import List ZArith Bool.
Import ListNotations.
From Verif Require Import Common.ListX.
From Verif Require Export C09.DLang.

Definition s_ (x : string) : str := map N_of_ascii (list_ascii_of_string x).

(** A symbol name is either text or a name made by genname(prefix): "prefix_k".  Keeping the
    generated names in their own constructor is the usual gensym abstraction. *)
Inductive sname := SN (s : str) | SG (prefix : str) (k : N).

Definition sname_eqb (a b : sname) : bool :=
  match a, b with
  | SN x, SN y => str_eqb x y
  | SG p j, SG q k => str_eqb p q && N.eqb j k
  | _, _ => false
  end.

(** Forms (data = code).  [FHole h] stands for the h-th expression the user wrote under an
    unquote: opaque code whose value is supplied by the environment. *)
Inductive form :=
| FNil
| FBool (b : bool)
| FInt (z : Z)
| FStr (s : str)
| FKw (ns : option str) (n : str)
| FSym (ns : option str) (n : sname)
| FList (l : list form)
| FVec (l : list form)
| FMap (l : list (form * form))
| FSet (l : list form)
| FHole (h : N).

Definition ostr_eqb := option_eqb str_eqb.

Fixpoint form_eqb (a b : form) : bool :=
  match a, b with
  | FNil, FNil => true
  | FBool x, FBool y => Bool.eqb x y
  | FInt x, FInt y => Z.eqb x y
  | FStr x, FStr y => str_eqb x y
  | FKw n1 s1, FKw n2 s2 => ostr_eqb n1 n2 && str_eqb s1 s2
  | FSym n1 s1, FSym n2 s2 => ostr_eqb n1 n2 && sname_eqb s1 s2
  | FHole x, FHole y => N.eqb x y
  | FList l1, FList l2 | FVec l1, FVec l2 | FSet l1, FSet l2 =>
      (fix go (l1 l2 : list form) : bool :=
         match l1, l2 with
         | [], [] => true
         | x :: t, y :: u => form_eqb x y && go t u
         | _, _ => false
         end) l1 l2
  | FMap l1, FMap l2 =>
      (fix go (l1 l2 : list (form * form)) : bool :=
         match l1, l2 with
         | [], [] => true
         | (k1, v1) :: t, (k2, v2) :: u => form_eqb k1 k2 && form_eqb v1 v2 && go t u
         | _, _ => false
         end) l1 l2
  | _, _ => false
  end.

(** equality of observables: maps and sets up to order *)
Fixpoint form_equiv (a b : form) : bool :=
  match a, b with
  | FNil, FNil => true
  | FBool x, FBool y => Bool.eqb x y
  | FInt x, FInt y => Z.eqb x y
  | FStr x, FStr y => str_eqb x y
  | FKw n1 s1, FKw n2 s2 => ostr_eqb n1 n2 && str_eqb s1 s2
  | FSym n1 s1, FSym n2 s2 => ostr_eqb n1 n2 && sname_eqb s1 s2
  | FHole x, FHole y => N.eqb x y
  | FList l1, FList l2 | FVec l1, FVec l2 =>
      (fix go (l1 l2 : list form) : bool :=
         match l1, l2 with
         | [], [] => true
         | x :: t, y :: u => form_equiv x y && go t u
         | _, _ => false
         end) l1 l2
  | FSet l1, FSet l2 =>
      Nat.eqb (length l1) (length l2) &&
      (fix all1 (l1 : list form) : bool :=
         match l1 with
         | [] => true
         | x :: t => (fix ex (l2 : list form) : bool :=
                        match l2 with [] => false | y :: u => form_equiv x y || ex u end) l2
                     && all1 t
         end) l1
  | FMap l1, FMap l2 =>
      Nat.eqb (length l1) (length l2) &&
      (fix all1 (l1 : list (form * form)) : bool :=
         match l1 with
         | [] => true
         | (k, v) :: t => (fix ex (l2 : list (form * form)) : bool :=
                             match l2 with
                             | [] => false
                             | (k', v') :: u => (form_equiv k k' && form_equiv v v') || ex u
                             end) l2
                          && all1 t
         end) l1
  | _, _ => false
  end.

(** self-evaluating literals *)
Inductive atom := ANil | ABool (b : bool) | AInt (z : Z) | AStr (s : str) | AKw (ns : option str) (n : str).
Definition atom_form (a : atom) : form :=
  match a with
  | ANil => FNil | ABool b => FBool b | AInt z => FInt z | AStr s => FStr s | AKw ns n => FKw ns n
  end.

(** * Templates: what stands behind a backquote, as written *)
Inductive tmpl :=
| TAtom (a : atom)                     (* nil, booleans, numbers, strings, keywords *)
| TSym (ns : option str) (n : str)     (* a symbol as written (not ending in #) *)
| TGen (prefix : str)                  (* prefix# *)
| TList (l : tmpls)
| TVec (l : tmpls)
| TSet (l : tmpls)                     (* elements in the iteration order of the set literal *)
| TMap (l : tmpls)                     (* k v k v ... in the iteration order of the map literal *)
| TUnq (h : N)                         (* ~expr *)
| TSplice (h : N)                      (* ~@expr *)
with tmpls := TNil | TCons (t : tmpl) (r : tmpls).

Scheme tmpl_mind := Induction for tmpl Sort Prop
  with tmpls_mind := Induction for tmpls Sort Prop.
Combined Scheme tmpl_mutind from tmpl_mind, tmpls_mind.

(** * The resolver: runtime.resolve_alias over a namespace *)
Record nsrec := {
  cur : str;                               (* name of the current namespace *)
  interns : list (str * (str * str));      (* symbol name -> (namespace, name) of the Var *)
  refers : list (str * (str * str));
  aliases : list (str * str);              (* alias -> namespace name *)
  special : list str                       (* runtime._SPECIAL_FORMS *)
}.

(** Namespace.find: interns first, then refers *)
Definition ns_find (R : nsrec) (n : str) : option (str * str) :=
  match assoc n (interns R) with
  | Some v => Some v
  | None => assoc n (refers R)
  end.

Definition resolve_alias (R : nsrec) (ns : option str) (n : str) : option str * str :=
  match ns with
  | None =>
      if mem n (special R) then (None, n)
      else match ns_find R n with
           | Some (vns, vn) => (Some vns, vn)
           | None => (Some (cur R), n)
           end
  | Some a =>
      match assoc a (aliases R) with
      | Some full => (Some full, n)
      | None => (Some a, n)
      end
  end.

Definition amp : str := s_ "&".
Definition starts_with_dot (n : str) : bool :=
  match n with c :: _ => N.eqb c 46%N | [] => false end.

(** reader._read_sym inside a syntax-quoted template, for a name not ending in # *)
Definition read_sym (R : nsrec) (ns : option str) (n : str) : option str * str :=
  match ns with
  | None => if str_eqb n amp || starts_with_dot n then (None, n) else resolve_alias R ns n
  | Some _ => resolve_alias R ns n
  end.

(** * Expansion *)
Definition core_ns : str := s_ "basilisp.core".
Definition csym (n : string) : form := FSym (Some core_ns) (SN (s_ n)).
Definition q_quote : form := FSym None (SN (s_ "quote")).
Definition c_seq := csym "seq".
Definition c_concat := csym "concat".
Definition c_list := csym "list".
Definition c_apply := csym "apply".
Definition c_vector := csym "vector".
Definition c_hash_map := csym "hash-map".
Definition c_hash_set := csym "hash-set".

Definition quoted (f : form) : form := FList [q_quote; f].

(** gensym state: the template's environment {name# -> symbol} and the global counter *)
Definition gstate := (list (str * N) * N)%type.

Definition gen_lookup (g : list (str * N)) (p : str) : option N := assoc p g.

(** [_process_syntax_quoted_form] (with [_read_sym] folded in) and [_expand_syntax_quote].
    None = SyntaxError "Cannot splice outside collection". *)
Fixpoint expand (R : nsrec) (t : tmpl) (st : gstate) : option (form * gstate) :=
  match t with
  | TAtom a => Some (atom_form a, st)
  | TSym ns n => let r := read_sym R ns n in Some (quoted (FSym (fst r) (SN (snd r))), st)
  | TGen p =>
      match gen_lookup (fst st) p with
      | Some k => Some (quoted (FSym None (SG p k)), st)
      | None => let k := snd st in
                Some (quoted (FSym None (SG p k)), ((p, k) :: fst st, N.succ k))
      end
  | TUnq h => Some (FHole h, st)
  | TSplice _ => None
  | TList l =>
      match expand_elems R l st with
      | Some (parts, st') => Some (FList [c_seq; FList (c_concat :: parts)], st')
      | None => None
      end
  | TVec l =>
      match expand_elems R l st with
      | Some (parts, st') => Some (FList [c_apply; c_vector; FList (c_concat :: parts)], st')
      | None => None
      end
  | TSet l =>
      match expand_elems R l st with
      | Some (parts, st') => Some (FList [c_apply; c_hash_set; FList (c_concat :: parts)], st')
      | None => None
      end
  | TMap l =>
      match expand_elems R l st with
      | Some (parts, st') => Some (FList [c_apply; c_hash_map; FList (c_concat :: parts)], st')
      | None => None
      end
  end
with expand_elems (R : nsrec) (l : tmpls) (st : gstate) : option (list form * gstate) :=
  match l with
  | TNil => Some ([], st)
  | TCons e r =>
      match (match e with
             | TUnq h => Some (FList [c_list; FHole h], st)
             | TSplice h => Some (FHole h, st)
             | _ => match expand R e st with
                    | Some (f, st') => Some (FList [c_list; f], st')
                    | None => None
                    end
             end) with
      | Some (part, st1) =>
          match expand_elems R r st1 with
          | Some (parts, st2) => Some (part :: parts, st2)
          | None => None
          end
      | None => None
      end
  end.

(** reading one template: `syntax_quoted()` pushes an EMPTY gensym environment; the counter is
    global and only grows *)
Definition read_template (R : nsrec) (t : tmpl) (counter : N) : option (form * N) :=
  match expand R t ([], counter) with
  | Some (f, st) => Some (f, snd st)
  | None => None
  end.

(** * Evaluating the emitted code *)
Definition E_TYPE : N := 1%N.
Definition E_INDEX : N := 2%N.
Definition E_SYNTAX : N := 5%N.
Definition E_OTHER : N := 3%N.

(** (seq v) as a Coq list, for the values unquote-splicing may meet *)
Definition fseq_elems (v : form) : res (list form) :=
  match v with
  | FNil => Ok []
  | FList l | FVec l | FSet l => Ok l
  | FStr s => Ok (map (fun c => FStr [c]) s)
  | FMap l => Ok (map (fun kv => FVec [fst kv; snd kv]) l)
  | _ => Err E_TYPE
  end.

Fixpoint fput (k v : form) (l : list (form * form)) : list (form * form) :=
  match l with
  | [] => [(k, v)]
  | (k', v') :: t => if form_eqb k k' then (k, v) :: t else (k', v') :: fput k v t
  end.

Fixpoint fpair_up (fuel : nat) (l : list form) (acc : list (form * form)) : res form :=
  match fuel with
  | O => Ok (FMap acc)
  | S f =>
      match l with
      | [] => Ok (FMap acc)
      | [_] => Err E_INDEX
      | k :: v :: t => fpair_up f t (fput k v acc)
      end
  end.
Definition mk_map (l : list form) : res form := fpair_up (S (length l)) l [].

Fixpoint fadd (x : form) (l : list form) : list form :=
  match l with
  | [] => [x]
  | y :: t => if form_eqb x y then y :: t else y :: fadd x t
  end.
Definition mk_set (l : list form) : form := FSet (fold_left (fun acc x => fadd x acc) l []).

(** (seq coll): nil for an empty collection *)
Definition mk_seq (l : list form) : form := match l with [] => FNil | _ => FList l end.

Definition head_is (f : form) (c : form) : bool := form_eqb f c.

(** (concat c1 c2 ...) on realized collections *)
Fixpoint cat_elems (vs : list form) : res (list form) :=
  match vs with
  | [] => Ok []
  | v :: t => a <- fseq_elems v ;; b <- cat_elems t ;; Ok (a ++ b)
  end.

(** values of the holes *)
Definition holes := list form.
Definition hole_val (sg : holes) (h : N) : form := nth (N.to_nat h) sg FNil.

(** The evaluator returns the value and the trace of holes in evaluation order. Function
    arguments are evaluated left to right; concat/seq/apply realize their argument fully. *)
Fixpoint ev (sg : holes) (f : form) {struct f} : res (form * list N) :=
  let ev_args :=
    fix ev_args (l : list form) : res (list form * list N) :=
      match l with
      | [] => Ok ([], [])
      | a :: t => r <- ev sg a ;; rs <- ev_args t ;; Ok (fst r :: fst rs, snd r ++ snd rs)
      end in
  match f with
  | FHole h => Ok (hole_val sg h, [h])
  | FNil | FBool _ | FInt _ | FStr _ | FKw _ _ => Ok (f, [])
  | FList (hd :: args) =>
      if head_is hd q_quote then
        match args with [d] => Ok (d, []) | _ => Err E_OTHER end
      else if head_is hd c_list then
        r <- ev_args args ;; Ok (FList (fst r), snd r)
      else if head_is hd c_concat then
        r <- ev_args args ;; l <- cat_elems (fst r) ;; Ok (FList l, snd r)
      else if head_is hd c_seq then
        match args with
        | [a] => r <- ev sg a ;; l <- fseq_elems (fst r) ;; Ok (mk_seq l, snd r)
        | _ => Err E_OTHER
        end
      else if head_is hd c_apply then
        match args with
        | [fn; a] =>
            r <- ev sg a ;; l <- fseq_elems (fst r) ;;
            if head_is fn c_vector then Ok (FVec l, snd r)
            else if head_is fn c_hash_set then Ok (mk_set l, snd r)
            else if head_is fn c_hash_map then m <- mk_map l ;; Ok (m, snd r)
            else Err E_OTHER
        | _ => Err E_OTHER
        end
      else Err E_OTHER
  | _ => Err E_OTHER
  end.

Fixpoint ev_args (sg : holes) (l : list form) : res (list form * list N) :=
  match l with
  | [] => Ok ([], [])
  | a :: t => r <- ev sg a ;; rs <- ev_args sg t ;; Ok (fst r :: fst rs, snd r ++ snd rs)
  end.
