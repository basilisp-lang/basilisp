(** C09 -- proofs about destructuring: the binding lists emitted by the (repaired) macros
    compute, on the names a user can write, exactly the environment of the specification,
    for every pattern of any nesting, every value and every oracle. *)
From Coq Require Import List NArith Bool Lia.
Import ListNotations.
From Verif Require Import Common.ListX C09.Destructure C09.DSpec C09.Values.

Section Proofs.
  Variable O : oracle.
  Variable datum_of : expr O -> val O.
  Notation val := (val O).
  Notation expr := (expr O).
  Notation env := (env O).
  Notation pat := (pat O).
  Notation pats := (pats O).
  Notation pentries := (pentries O).
  Notation ddef := (ddef O).
  Notation ddefs := (ddefs O).
  Notation dentries := (dentries O).
  Notation mkdef := (mkdef O).
  Notation mkdefs := (mkdefs O).
  Notation mkentries := (mkentries O).
  Notation dbind := (dbind O cur_shape datum_of).
  Notation dbind_seq := (dbind_seq O cur_shape datum_of).
  Notation dbind_nested := (dbind_nested O cur_shape datum_of).
  Notation dbind_ns := (dbind_ns O cur_shape datum_of).
  Notation named_bindings := (named_bindings O cur_shape datum_of).
  Notation child_bindings := (child_bindings O).
  Notation dname := (dname O).
  Notation is_sym := (is_sym O).
  Notation bind := (bind O).
  Notation bind_seq := (bind_seq O).
  Notation bind_others := (bind_others O).

  Lemma bindr_assoc {A B C} (r : res A) (f : A -> res B) (g : B -> res C) :
    bindr (bindr r f) g = bindr r (fun x => bindr (f x) g).
  Proof. destruct r; reflexivity. Qed.

  Lemma eval_let_cons x e (t : list (name * expr)) (en : env) :
    eval_let ((x, e) :: t) en = (v <- eval en e ;; eval_let t ((x, v) :: en)).
  Proof. reflexivity. Qed.

  Lemma eval_let_app (l1 l2 : list (name * expr)) : forall en,
    eval_let (l1 ++ l2) en = (en1 <- eval_let l1 en ;; eval_let l2 en1).
  Proof.
    induction l1 as [|[x e] t IH]; intro en; simpl; [reflexivity|].
    destruct (eval en e); simpl; [apply IH|reflexivity].
  Qed.

  Lemma lookup_eq x v (en : env) : lookup x ((x, v) :: en) = Some v.
  Proof. simpl. now rewrite name_eqb_refl. Qed.
  Lemma lookup_ne x y v (en : env) : x <> y -> lookup x ((y, v) :: en) = lookup x en.
  Proof. intro N. simpl. apply name_eqb_neq in N. now rewrite N. Qed.

  Lemma eval_let_frame (bs : list (name * expr)) : forall en en' y,
    eval_let bs en = Ok en' -> ~ In y (map fst bs) -> lookup y en' = lookup y en.
  Proof.
    induction bs as [|[x e] t IH]; simpl; intros en en' y H N; [now inversion H|].
    destruct (eval en e) as [v|c]; [|discriminate].
    rewrite (IH _ _ _ H), lookup_ne;
      [reflexivity|intros ->; apply N; left; reflexivity|intro I; apply N; right; exact I].
  Qed.

  Lemma agree_cons x v (e1 e2 : env) : agree e1 e2 -> agree ((NU x, v) :: e1) ((NU x, v) :: e2).
  Proof. intros A y; simpl. destruct (str_eqb y x); [reflexivity|apply A]. Qed.
  Lemma agree_tmp k v (e1 e2 : env) : agree e1 e2 -> agree ((NG k, v) :: e1) e2.
  Proof. intros A y; apply A. Qed.

  Lemma agree_refl (e : env) : agree e e.
  Proof. intro; reflexivity. Qed.

  Lemma eval_agree (e : expr) : forall a b, user_expr e = true -> agree a b -> eval a e = eval b e.
  Proof.
    induction e; intros a b U A; simpl in U |- *; repeat (apply andb_true_iff in U as [U ?]);
      rewrite ?(IHe a b), ?(IHe1 a b), ?(IHe2 a b), ?(IHe3 a b) by assumption; try reflexivity.
    destruct x; [now rewrite A|discriminate].
  Qed.

  (** [sim] is [sim2 agree] by conversion *)
  Definition sim2 {A} (P : env -> A -> Prop) (r1 : res env) (r2 : res A) : Prop :=
    match r1, r2 with Ok e, Ok a => P e a | Err a, Err b => a = b | _, _ => False end.

  Lemma sim_sim2 (r1 r2 : res env) : sim r1 r2 = sim2 agree r1 r2.
  Proof. reflexivity. Qed.

  Lemma sim2_bind {A B} (P : env -> A -> Prop) (Q : env -> B -> Prop) r1 r2 k1 k2 :
    sim2 P r1 r2 -> (forall a b, r1 = Ok a -> P a b -> sim2 Q (k1 a) (k2 b)) ->
    sim2 Q (bindr r1 k1) (bindr r2 k2).
  Proof. destruct r1, r2; simpl; intros S K; try contradiction; auto. Qed.

  Lemma sim2_seg {A B} (P : env -> A -> Prop) (Q : env -> B -> Prop) bs rest r2 k nm m em :
    sim2 P (eval_let bs em) r2 -> ~ In nm (map fst bs) -> lookup nm em = Some m ->
    (forall em' a, P em' a -> lookup nm em' = Some m -> sim2 Q (eval_let rest em') (k a)) ->
    sim2 Q (eval_let (bs ++ rest) em) (bindr r2 k).
  Proof.
    intros S NI L K. rewrite eval_let_app. apply (sim2_bind _ _ _ _ _ _ S).
    intros a b E PA. apply K; [exact PA|]. now rewrite (eval_let_frame _ _ _ _ E NI).
  Qed.

  (** the names a block may bind: binders of its pattern and temporaries allocated for it *)
  Definition usr_in (l : list str) (y : name) : Prop := exists x, y = NU x /\ In x l.
  Definition tmp_in (n n' : N) (y : name) : Prop := exists k, y = NG k /\ (n <= k < n')%N.
  Definition owned l n n' y := usr_in l y \/ tmp_in n n' y.

  Lemma owned_widen l l' a b a' b' y :
    owned l a b y -> incl l l' -> (a' <= a)%N -> (b <= b')%N -> owned l' a' b' y.
  Proof.
    intros [(x & E & I)|(k & E & I)] H H1 H2; [left; exists x; auto|right; exists k; split; [auto|lia]].
  Qed.

  Definition nm_safe (nm : name) (n : N) (L : list str) : Prop := forall n', ~ owned L n n' nm.

  Lemma safe_ne nm n L L' n1 n' y :
    nm_safe nm n L -> owned L' n1 n' y -> incl L' L -> (n <= n1)%N -> nm <> y.
  Proof. intros S OW I LE ->. apply (S n'). eapply owned_widen; eauto. lia. Qed.

  Lemma safe_usr nm n L x : nm_safe nm n L -> In x L -> nm <> NU x.
  Proof. intros S I ->. apply (S n). left. exists x; auto. Qed.

  Lemma safe_incl nm n n1 L L' : nm_safe nm n L -> incl L' L -> (n <= n1)%N -> nm_safe nm n1 L'.
  Proof. intros S I LE n' OW. apply (S n'). eapply owned_widen; eauto. lia. Qed.

  Lemma alias_name_facts a n nm n1 L :
    alias_name a n = (nm, n1) ->
    (n <= n1)%N /\ owned (opt_list a) n n1 nm /\ (alias_free a L = true -> nm_safe nm n1 L).
  Proof.
    destruct a as [x|]; simpl; intro H; inversion H; subst; (split; [lia|split]).
    - left; exists x; simpl; auto.
    - intros F n' [(y & E & I)|(k & E & _)]; [|discriminate]. inversion E; subst.
      apply negb_true_iff, mem_false in F. tauto.
    - right; exists n; split; [reflexivity|lia].
    - intros _ n' [(y & E & _)|(k & E & I)]; [discriminate|]. inversion E; subst. lia.
  Qed.

  Lemma mkdef_shape p n d n' :
    mkdef p n = (d, n') ->
    is_sym d = is_psym p /\
    dname d = match p with PSym x => NU x | _ => fst (alias_name (pat_alias p) n) end.
  Proof.
    destruct p; simpl; [intro H; inversion H; auto|..];
      destruct (alias_name as_ n) as [nm n1]; [destruct (mkdefs ps n1)|destruct (mkentries es n1)];
      intro H; inversion H; auto.
  Qed.

  (** The flat part of a map pattern (:keys, :strs, :syms, {sym key} entries) is one list of
      (binder, key expression) pairs: the model emits [gets] of it, the specification binds it
      with [bind_gets] ([dbind_map], [bind_map]). *)
  Definition gets nm (ors : list (str * expr)) (l : list (str * expr)) : list (name * expr) :=
    map (fun xk => get_binding O (NU (fst xk)) nm (snd xk) (assoc (fst xk) ors)) l.

  Fixpoint bind_gets (l : list (str * expr)) ors (m : val) (en : env) : res env :=
    match l with
    | [] => Ok en
    | (x, k) :: t =>
        kv <- eval en k ;; v <- get_or O m kv (assoc x ors) en ;; bind_gets t ors m ((NU x, v) :: en)
    end.

  Definition const_list {A} (mk : A -> val) (nmof : A -> str) (l : list A) : list (str * expr) :=
    map (fun q => (nmof q, EConst (mk q))) l.
  Fixpoint named_list (es : pentries) : list (str * expr) :=
    match es with
    | MNil => []
    | MCons (PSym x) k t => (x, k) :: named_list t
    | MCons _ _ t => named_list t
    end.

  Lemma gets_names nm ors l : map fst (gets nm ors l) = map (fun xk => NU (fst xk)) l.
  Proof. unfold gets. rewrite map_map. apply map_ext. intros [x k]. simpl. destruct (assoc x ors); reflexivity. Qed.

  Lemma bind_consts_gets {A} mk nmof (l : list A) ors m : forall en,
    bind_consts O mk nmof l ors m en = bind_gets (const_list mk nmof l) ors m en.
  Proof. induction l as [|q t IH]; intro en; simpl; [reflexivity|]. destruct (get_or _ _ _ _ _); simpl; auto. Qed.

  Lemma bind_named_gets es ors m : forall en, bind_named O es ors m en = bind_gets (named_list es) ors m en.
  Proof.
    induction es as [|p k t IH]; intro en; [reflexivity|]. destruct p; simpl; auto.
    destruct (eval en k); simpl; [|reflexivity]. destruct (get_or _ _ _ _ _); simpl; auto.
  Qed.

  Lemma bind_gets_app l1 l2 ors m : forall en,
    bind_gets (l1 ++ l2) ors m en = (en1 <- bind_gets l1 ors m en ;; bind_gets l2 ors m en1).
  Proof.
    induction l1 as [|[x k] t IH]; intro en; simpl; [reflexivity|].
    destruct (eval en k); simpl; [|reflexivity]. destruct (get_or _ _ _ _ _); simpl; auto.
  Qed.

  Lemma named_binding_cur nm ors k x :
    named_binding O cur_shape datum_of nm ors k (NU x) = get_binding O (NU x) nm k (assoc x ors).
  Proof. unfold named_binding, get_binding. simpl. destruct (assoc x ors); reflexivity. Qed.

  Lemma named_gets es : forall n cs n' nm ors,
    mkentries es n = (cs, n') -> named_bindings nm ors cs = gets nm ors (named_list es).
  Proof.
    induction es as [|p k t IH]; simpl; intros n cs n' nm ors H; [now inversion H|].
    destruct (mkdef p n) as [d n1] eqn:ED, (mkentries t n1) as [ds n2] eqn:ET. inversion H; subst.
    destruct (mkdef_shape _ _ _ _ ED) as [SY DN]. simpl. rewrite SY, (IH _ _ _ nm ors ET).
    destruct p; simpl; [|reflexivity..]. now rewrite DN, named_binding_cur.
  Qed.

  Lemma assoc_user (ors : list (str * expr)) x de :
    forall_snd user_expr ors = true -> assoc x ors = Some de -> user_expr de = true.
  Proof.
    unfold forall_snd. induction ors as [|[y e] t IH]; simpl; intros U H; [discriminate|].
    apply andb_true_iff in U as [U1 U2]. destruct (str_eqb x y); [inversion H; subst; exact U1|auto].
  Qed.

  Lemma gets_sim nm ors m l :
    forall_snd user_expr ors = true -> forall_snd user_expr l = true ->
    (forall x, In x (map fst l) -> nm <> NU x) ->
    forall em es, agree em es -> lookup nm em = Some m ->
    sim (eval_let (gets nm ors l) em) (bind_gets l ors m es).
  Proof.
    intros Uo. induction l as [|[x k] t IH]; simpl; intros Ul N em es AG L; [exact AG|].
    apply andb_true_iff in Ul as [Uk Ul].
    assert (T : forall v, sim (eval_let (gets nm ors t) ((NU x, v) :: em))
                              (bind_gets t ors m ((NU x, v) :: es))).
    { intro v. apply IH; auto using agree_cons. rewrite lookup_ne; auto. }
    destruct (assoc x ors) as [de|] eqn:A; simpl; rewrite L, (eval_agree k _ _ Uk AG); simpl;
      destruct (eval es k) as [kv|]; simpl; auto.
    - rewrite (eval_agree de _ _ (assoc_user _ _ _ Uo A) AG).
      destruct (eval es de) as [dv|]; simpl; auto. destruct (get_ O m kv dv); simpl; auto.
    - destruct (get_ O m kv (vnil O)); simpl; auto.
  Qed.

  Definition flat_list kg strs sg (es : pentries) : list (str * expr) :=
    const_list (fun q => vkw O (fst q) (snd q)) snd (norm_groups kg)
    ++ const_list (vstr O) (fun s => s) strs
    ++ const_list (fun q => vsym O (fst q) (snd q)) snd (norm_groups sg)
    ++ named_list es.

  Lemma flat_fst kg strs sg es :
    map fst (flat_list kg strs sg es)
    = map snd (norm_groups kg) ++ strs ++ map snd (norm_groups sg) ++ binders_named es.
  Proof.
    unfold flat_list, const_list. rewrite !map_app, !map_map, map_id. do 3 f_equal.
    induction es as [|[] k t IH]; simpl; congruence.
  Qed.

  Lemma flat_binders kg strs sg es :
    map snd (norm_groups kg) ++ strs ++ map snd (norm_groups sg) ++ binders_named es ++ binders_others es
    = map fst (flat_list kg strs sg es) ++ binders_others es.
  Proof. now rewrite flat_fst, <- !app_assoc. Qed.

  Lemma flat_user kg strs sg es : user_entries es = true -> forall_snd user_expr (flat_list kg strs sg es) = true.
  Proof.
    intro U. unfold forall_snd, flat_list, const_list. rewrite !forallb_app, !andb_true_iff.
    repeat split; try (apply forallb_forall; intros x I; apply in_map_iff in I as (q & <- & _); reflexivity).
    induction es as [|p k t IH]; simpl in *; [auto|].
    apply andb_true_iff in U as [U U3]. apply andb_true_iff in U as [_ U2].
    destruct p; simpl; auto. now rewrite U2, IH.
  Qed.

  Lemma dbind_map kg strs sg es ors nm n1 cs n2 :
    mkentries es n1 = (cs, n2) ->
    dbind (DMap nm (norm_groups kg) strs (norm_groups sg) ors cs)
    = (nm, kwargs_expr O nm) :: gets nm ors (flat_list kg strs sg es) ++ child_bindings nm cs ++ dbind_nested cs.
  Proof.
    intro E. simpl. unfold flat_list, gets, const_list.
    rewrite !map_app, !map_map, <- !app_assoc, (named_gets _ _ _ _ nm ors E). reflexivity.
  Qed.

  Lemma bind_map kg strs sg es ors as_ v en :
    bind (PMap kg strs sg es ors as_) v en
    = (m <- coerce O v ;; en4 <- bind_gets (flat_list kg strs sg es) ors m (bind_as as_ m en) ;;
       r <- fetch_others O es m en4 ;; bind_others es (fst r) (snd r)).
  Proof.
    simpl. destruct (coerce O v) as [m|]; simpl; [|reflexivity]. unfold flat_list.
    do 3 (rewrite bind_gets_app, <- bind_consts_gets;
          match goal with |- (x <- ?r ;; _) = _ => destruct r; simpl; [|reflexivity] end).
    now rewrite bind_named_gets.
  Qed.

  (** nested {pattern key} entries: all values are fetched first, the patterns bind afterwards *)
  Fixpoint others_d (cs : dentries) : list ddef :=
    match cs with
    | KNil => []
    | KCons _ c t => (if is_sym c then [] else [c]) ++ others_d t
    end.

  Lemma child_names nm (cs : dentries) :
    map fst (child_bindings nm cs) = map dname (others_d cs).
  Proof.
    induction cs as [|k c t IH]; simpl; [reflexivity|].
    rewrite !map_app, IH. destruct (is_sym c); reflexivity.
  Qed.

  Lemma later_aliases_incl (es : pentries) : incl (later_aliases es) (binders_others es).
  Proof.
    induction es as [|p k t IH]; simpl; [apply incl_refl|]. apply incl_app_app; [|exact IH].
    destruct p as [x|ps rest [a|]|kg strs sg es ors [a|]]; simpl; auto using incl_nil_l, incl_refl;
      (apply incl_cons; [apply in_eq|apply incl_nil_l]).
  Qed.

  (** [widen H]: a name owned by a sub-block (fact [H]) is owned by the enclosing block *)
  Create HintDb incl.
  Hint Resolve incl_refl incl_appl incl_appr : incl.
  (** depth 8: the binders of a map pattern are a six-fold append *)
  Local Ltac segment := simpl; auto 8 with incl nocore.
  Ltac widen H := eapply owned_widen; [eapply H; eassumption|segment|lia|lia].

  Lemma names_facts :
    (forall p n d n', mkdef p n = (d, n') ->
        (n <= n')%N /\ owned (binders p) n n' (dname d) /\
        forall y, In y (map fst (dbind d)) -> owned (binders p) n n' y)
    /\ (forall ps n cs n', mkdefs ps n = (cs, n') ->
        (n <= n')%N /\
        forall nm i y, In y (map fst (dbind_seq nm i cs)) -> owned (binders_seq ps) n n' y)
    /\ (forall es n cs n', mkentries es n = (cs, n') ->
        (n <= n')%N /\
        (forall c, In c (others_d cs) -> owned (later_aliases es) n n' (dname c)) /\
        (forall y, In y (map fst (dbind_nested cs)) -> owned (binders_others es) n n' y)).
  Proof.
    apply pat_mutind.
    - intros x n d n' H. inversion H; subst. simpl. split; [lia|]. split; [left; exists x; simpl; auto|tauto].
    - intros ps IH rest as_ n d n' H. simpl in H.
      destruct (alias_name as_ n) as [nm n1] eqn:EA, (mkdefs ps n1) as [cs n2] eqn:EC. inversion H; subst; clear H.
      destruct (alias_name_facts _ _ _ _ [] EA) as (L1 & NM & _), (IH _ _ _ EC) as [L2 SEQ]. simpl.
      split; [lia|]. split; [widen NM|].
      intros y Hy. rewrite app_nil_r, map_app, in_app_iff in Hy. destruct Hy as [Hy|Hy]; [widen SEQ|].
      destruct rest as [r|]; simpl in Hy; [|tauto]. destruct Hy as [<-|[]].
      left; exists r; split; [reflexivity|]. rewrite !in_app_iff; simpl; auto.
    - intros kg strs sg es IH ors as_ n d n' H. simpl in H.
      destruct (alias_name as_ n) as [nm n1] eqn:EA, (mkentries es n1) as [cs n2] eqn:EC. inversion H; subst; clear H.
      destruct (alias_name_facts _ _ _ _ [] EA) as (L1 & NM & _), (IH _ _ _ EC) as (L2 & OTH & NESTED).
      rewrite (dbind_map _ _ _ _ _ _ _ _ _ EC). simpl dname. simpl binders. rewrite flat_binders.
      split; [lia|]. split; [widen NM|].
      intros y [<-|Hy]; [widen NM|]. rewrite !map_app, !in_app_iff, gets_names, child_names in Hy.
      destruct Hy as [Hy|[Hy|Hy]]; [| |widen NESTED].
      + apply in_map_iff in Hy as (xk & <- & I). left. eexists; split; [reflexivity|].
        apply in_or_app; right. apply in_or_app; left. apply in_map, I.
      + apply in_map_iff in Hy as (c & <- & I). eapply owned_widen; [apply OTH, I| |lia|lia].
        eapply incl_tran; [apply later_aliases_incl|]. segment.
    - intros n cs n' H. inversion H; subst. split; [lia|]. simpl; tauto.
    - intros p IHp t IHt n cs n' H. simpl in H.
      destruct (mkdef p n) as [d n1] eqn:ED, (mkdefs t n1) as [ds n2] eqn:ET. inversion H; subst; clear H.
      destruct (IHp _ _ _ ED) as (L1 & DN & DB), (IHt _ _ _ ET) as [L2 SEQ].
      split; [lia|]. intros nm i y Hy. simpl in Hy. rewrite map_app, in_app_iff in Hy.
      destruct Hy as [<-|[Hy|Hy]]; [widen DN| |widen SEQ].
      destruct (is_sym d); [destruct Hy|widen DB].
    - intros n cs n' H. inversion H; subst. split; [lia|]. simpl. tauto.
    - intros p IHp k t IHt n cs n' H. simpl in H.
      destruct (mkdef p n) as [d n1] eqn:ED, (mkentries t n1) as [ds n2] eqn:ET. inversion H; subst; clear H.
      destruct (IHp _ _ _ ED) as (L1 & DN & DB), (IHt _ _ _ ET) as (L2 & OTH & NESTED).
      destruct (mkdef_shape _ _ _ _ ED) as [SY DNAME]. simpl. rewrite SY.
      split; [lia|]. split; [intros c Hy|intros y Hy; rewrite map_app in Hy];
        (apply in_app_iff in Hy as [Hy|Hy]; [|widen OTH || widen NESTED]);
        (destruct (is_psym p) eqn:PS; [destruct Hy|]); [|widen DB].
      destruct Hy as [<-|[]]. apply owned_widen with (l := opt_list (pat_alias p)) (a := n) (b := n1);
        [|segment|lia..].
      destruct DN as [(x & E & _)|T]; [left|now right]. rewrite DNAME in E |- *.
      destruct p as [|? ? [a|]|? ? ? ? ? [a|]]; try discriminate; exists a; simpl; auto.
  Qed.

  Lemma mkdef_owned p n d n' :
    mkdef p n = (d, n') ->
    (n <= n')%N /\ owned (binders p) n n' (dname d) /\
    forall y, In y (map fst (dbind d)) -> owned (binders p) n n' y.
  Proof. apply names_facts. Qed.

  Lemma dbind_seq_owned ps n cs n' :
    mkdefs ps n = (cs, n') ->
    (n <= n')%N /\ forall nm i y, In y (map fst (dbind_seq nm i cs)) -> owned (binders_seq ps) n n' y.
  Proof. apply names_facts. Qed.

  Lemma entries_owned es n cs n' :
    mkentries es n = (cs, n') ->
    (n <= n')%N /\
    (forall c, In c (others_d cs) -> owned (later_aliases es) n n' (dname c)) /\
    (forall y, In y (map fst (dbind_nested cs)) -> owned (binders_others es) n n' y).
  Proof. apply names_facts. Qed.

  Lemma dbind_names p n d n' :
    mkdef p n = (d, n') ->
    (n <= n')%N /\
    forall y, In y (map fst (dbind d)) -> usr_in (binders p) y \/ tmp_in n n' y.
  Proof. intro H. destruct (mkdef_owned _ _ _ _ H) as (L & _ & B). exact (conj L B). Qed.

  (** the temporaries of the entries still to come hold the values fetched for them *)
  Definition bound_to (ds : list ddef) (xs : list val) (en : env) : Prop :=
    Forall2 (fun c x => lookup (dname c) en = Some x) ds xs.

  Lemma bound_to_frame ds xs (e1 e2 : env) :
    bound_to ds xs e1 -> (forall c, In c ds -> lookup (dname c) e2 = lookup (dname c) e1) ->
    bound_to ds xs e2.
  Proof.
    induction 1; intro F; constructor; [rewrite F; simpl; auto|].
    apply IHForall2. intros c I; apply F; simpl; auto.
  Qed.

  Lemma later_differs (p : pat) n n1 (t : pentries) ds n2 y c :
    mkentries t n1 = (ds, n2) ->
    forallb (fun a => negb (mem a (binders p))) (later_aliases t) = true ->
    owned (binders p) n n1 y -> In c (others_d ds) -> dname c <> y.
  Proof.
    intros ET F Y I E. rewrite forallb_forall in F.
    destruct (proj1 (proj2 (entries_owned _ _ _ _ ET)) c I) as [(a & E1 & I1)|(k & E1 & R1)],
      Y as [(b & E2 & I2)|(k2 & E2 & R2)]; rewrite E, E2 in E1; inversion E1; subst; [|lia].
    apply F, negb_true_iff, mem_false in I1. tauto.
  Qed.

  Lemma child_sim (es : pentries) : forall n cs n' nm m em es',
    mkentries es n = (cs, n') -> user_entries es = true -> others_ok es = true ->
    nm_safe nm n (binders_others es) -> agree em es' -> lookup nm em = Some m ->
    sim2 (fun em1 r => agree em1 (snd r) /\ bound_to (others_d cs) (fst r) em1)
         (eval_let (child_bindings nm cs) em) (fetch_others O es m es').
  Proof.
    induction es as [|p k t IH]; intros n cs n' nm m em es' H U OK SAFE AG L; simpl in H.
    - inversion H; subst. simpl. split; [exact AG|constructor].
    - destruct (mkdef p n) as [d n1] eqn:ED, (mkentries t n1) as [ds n2] eqn:ET. inversion H; subst; clear H.
      simpl in U, OK, SAFE. apply andb_true_iff in U as [U U3]. apply andb_true_iff in U as [_ U2].
      apply andb_true_iff in OK as [OK1 OK2].
      destruct (mkdef_shape _ _ _ _ ED) as [SY DN], (mkdef_owned _ _ _ _ ED) as (L1 & DNF & _).
      assert (SAFE' : nm_safe nm n1 (binders_others t)) by (eapply safe_incl; [exact SAFE|segment|lia]).
      simpl. rewrite SY. destruct (is_psym p) eqn:PS; [eauto|].
      simpl. rewrite L. simpl. rewrite (eval_agree k _ _ U2 AG). destruct (eval es' k) as [kv|]; simpl; [|reflexivity].
      destruct (get_ O m kv (vnil O)) as [x|]; simpl; [|reflexivity].
      assert (NE : nm <> dname d) by (eapply safe_ne; [exact SAFE|exact DNF|segment|lia]).
      assert (AG' : agree ((dname d, x) :: em) (bind_as (pat_alias p) x es')).
      { rewrite DN. destruct p as [|? ? [a|]|? ? ? ? ? [a|]]; try discriminate; simpl; auto using agree_cons, agree_tmp. }
      specialize (IH n1 ds n' nm m _ _ ET U3 OK2 SAFE' AG'). rewrite lookup_ne in IH by exact NE. specialize (IH L).
      destruct (eval_let (child_bindings nm ds) _) as [em1|] eqn:EV, (fetch_others O t m _) as [r|]; simpl in *; auto.
      destruct IH as [A B]. split; [exact A|constructor; [|exact B]].
      rewrite (eval_let_frame _ _ _ _ EV), lookup_eq; [reflexivity|].
      rewrite child_names. intro I. apply in_map_iff in I as (c & E & I).
      eapply later_differs; eauto.
  Qed.

  Lemma eval_kwargs nm (en : env) x :
    lookup nm en = Some x -> eval en (kwargs_expr O nm) = coerce O x.
  Proof.
    intro H. unfold kwargs_expr, coerce. simpl. rewrite H. simpl.
    destruct (seqp O x); [|reflexivity].
    destruct (next_ O x); simpl; [|reflexivity]. destruct (truthy O a); reflexivity.
  Qed.

  Lemma agree_as p n d n' (em es : env) x :
    mkdef p n = (d, n') -> is_psym p = false -> lookup (dname d) em = Some x ->
    (forall y, NU y <> dname d -> lookup (NU y) em = lookup (NU y) es) ->
    agree em (bind_as (pat_alias p) x es).
  Proof.
    intros ED PS L A y. rewrite (proj2 (mkdef_shape _ _ _ _ ED)) in L, A. clear ED.
    destruct p as [|? ? [a|]|? ? ? ? ? [a|]]; try discriminate; simpl in *;
      try (apply A; discriminate).
    all: destruct (str_eqb y a) eqn:Q; [apply str_eqb_eq in Q; subst; exact L|].
    all: apply A; intro E; inversion E; subst; now rewrite str_eqb_refl in Q.
  Qed.

  Lemma agree_as_cons p n d n' (em es : env) x :
    mkdef p n = (d, n') -> is_psym p = false -> agree em es ->
    agree ((dname d, x) :: em) (bind_as (pat_alias p) x es).
  Proof.
    intros ED PS A. eapply agree_as; eauto using lookup_eq. intros y N. rewrite lookup_ne; auto.
  Qed.

  Lemma dbind_sim :
    (forall p n d n' em es x,
        mkdef p n = (d, n') -> user_pat p = true -> alias_ok p = true -> is_psym p = false ->
        lookup (dname d) em = Some x -> agree em (bind_as (pat_alias p) x es) ->
        sim (eval_let (dbind d) em) (bind p x es))
    /\ (forall ps n cs n' nm i em es x,
        mkdefs ps n = (cs, n') -> user_pats ps = true -> alias_ok_seq ps = true ->
        agree em es -> lookup nm em = Some x -> nm_safe nm n (binders_seq ps) ->
        sim (eval_let (dbind_seq nm i cs) em) (bind_seq ps i x es))
    /\ (forall es n cs n' em es' xs,
        mkentries es n = (cs, n') -> user_entries es = true -> alias_ok_entries es = true ->
        others_ok es = true -> agree em es' -> bound_to (others_d cs) xs em ->
        sim (eval_let (dbind_nested cs) em) (bind_others es xs es')).
  Proof.
    apply pat_mutind.
    - discriminate.
    - intros ps IH rest as_ n d n' em es x H U OK _ L AG. simpl in H.
      destruct (alias_name as_ n) as [nm n1] eqn:EA, (mkdefs ps n1) as [cs n2] eqn:EC. inversion H; subst; clear H.
      simpl in U, OK, L, AG |- *. apply andb_true_iff in OK as [AF OK].
      pose proof (proj2 (proj2 (alias_name_facts _ _ _ _ _ EA)) AF) as SAFE.
      destruct (dbind_seq_owned _ _ _ _ EC) as [L2 SEQN].
      rewrite app_nil_r. eapply sim2_seg with (nm := nm) (m := x); [| |exact L|].
      + eapply IH; eauto. eapply safe_incl; [exact SAFE|segment|lia].
      + intro I. eapply safe_ne; [exact SAFE|exact (SEQN _ _ _ I)|segment|lia|reflexivity].
      + intros em1 es1 AG1 L1. destruct rest as [r|]; simpl; [|exact AG1].
        rewrite L1. simpl. destruct (nthnext_ O x (plen ps)); simpl; [apply agree_cons, AG1|reflexivity].
    - intros kg strs sg es0 IH ors as_ n d n' em es x H U OK _ L AG. simpl in H.
      destruct (alias_name as_ n) as [nm n1] eqn:EA, (mkentries es0 n1) as [cs n2] eqn:EC. inversion H; subst; clear H.
      simpl in U, OK, L, AG. apply andb_true_iff in U as [Uo Ue].
      apply andb_true_iff in OK as [OK OKo]. apply andb_true_iff in OK as [AF OKe].
      pose proof (proj2 (proj2 (alias_name_facts _ _ _ _ _ EA)) AF) as SAFE. rewrite flat_binders in SAFE.
      rewrite (dbind_map _ _ _ _ _ _ _ _ _ EC), bind_map, eval_let_cons, (eval_kwargs _ _ _ L).
      destruct (coerce O x) as [m|]; simpl; [|reflexivity].
      assert (AG0 : agree ((nm, m) :: em) (bind_as as_ m es)).
      { intro y. specialize (AG y). destruct as_ as [a|]; inversion EA; subst; simpl in *; [|exact AG].
        destruct (str_eqb y a); auto. }
      eapply sim2_seg with (nm := nm) (m := m); [| |apply lookup_eq|].
      + apply gets_sim; auto using flat_user, lookup_eq. intros z I.
        eapply safe_usr; [exact SAFE|]. apply in_or_app; auto.
      + rewrite gets_names. intro I. apply in_map_iff in I as (xk & E & I).
        eapply safe_usr; [exact SAFE| |symmetry; exact E]. apply in_or_app; left. apply in_map, I.
      + intros em4 es4 AG4 L4.
        eapply sim2_seg with (nm := nm) (m := m) (P := fun em1 r => agree em1 (snd r) /\ bound_to (others_d cs) (fst r) em1);
          [| |exact L4|].
        * eapply child_sim; eauto. eapply safe_incl; [exact SAFE|segment|lia].
        * rewrite child_names. intro I. apply in_map_iff in I as (c & E & I).
          destruct (entries_owned _ _ _ _ EC) as (_ & OTH & _).
          eapply safe_ne; [exact SAFE|exact (OTH _ I)| |lia|symmetry; exact E].
          eapply incl_tran; [apply later_aliases_incl|segment].
        * intros em5 r [AG5 B5] _. eapply IH; eauto.
    - intros n cs n' nm i em es x H _ _ AG _ _. inversion H; subst. exact AG.
    - intros p IHp t IHt n cs n' nm i em es x H U OK AG L SAFE. simpl in H.
      destruct (mkdef p n) as [d n1] eqn:ED, (mkdefs t n1) as [ds n2] eqn:ET. inversion H; subst; clear H.
      simpl in U, OK, SAFE. apply andb_true_iff in U as [U1 U2]. apply andb_true_iff in OK as [OK1 OK2].
      destruct (mkdef_owned _ _ _ _ ED) as (L1 & DNF & DBN), (mkdef_shape _ _ _ _ ED) as [SY DN].
      assert (NE : nm <> dname d) by (eapply safe_ne; [exact SAFE|exact DNF|segment|lia]).
      assert (SAFE' : nm_safe nm n1 (binders_seq t)) by (eapply safe_incl; [exact SAFE|segment|lia]).
      simpl. rewrite L. simpl. destruct (nth_ O x i) as [y|]; simpl; [|reflexivity]. rewrite SY.
      destruct (is_psym p) eqn:PS.
      + destruct p; try discriminate. simpl. rewrite DN. eapply IHt; eauto using agree_cons.
        rewrite lookup_ne; [exact L|congruence].
      + eapply sim2_seg with (nm := nm) (m := x); [| |rewrite lookup_ne; eauto|].
        * eapply IHp; eauto using lookup_eq, agree_as_cons.
        * intro I. eapply safe_ne; [exact SAFE|exact (DBN _ I)|segment|lia|reflexivity].
        * intros em1 es1 AG1 L1'. eapply IHt; eauto.
    - intros n cs n' em es' xs H _ _ _ AG _. inversion H; subst. exact AG.
    - intros p IHp k t IHt n cs n' em es' xs H U OK OKo AG B. simpl in H.
      destruct (mkdef p n) as [d n1] eqn:ED, (mkentries t n1) as [ds n2] eqn:ET. inversion H; subst; clear H.
      simpl in U, OK, OKo. apply andb_true_iff in U as [U U3]. apply andb_true_iff in U as [U1 U2].
      apply andb_true_iff in OK as [OK1 OK2]. apply andb_true_iff in OKo as [OKo1 OKo2].
      destruct (mkdef_shape _ _ _ _ ED) as [SY DN], (mkdef_owned _ _ _ _ ED) as (L1 & DNF & DBN).
      simpl in B |- *. rewrite SY in B |- *. destruct (is_psym p) eqn:PS; [eauto|].
      inversion B as [|c0 x0 l0 xs' LK B']; subst; clear B.
      rewrite eval_let_app. eapply sim2_bind.
      + eapply IHp; eauto. eapply agree_as; eauto.
      + intros em1 es1 E1 AG1. eapply IHt; eauto.
        eapply bound_to_frame; [exact B'|]. intros c I. eapply eval_let_frame; [exact E1|].
        intro I2. exact (later_differs p n n1 t ds n' (dname c) c ET OKo1 (DBN _ I2) I eq_refl).
  Qed.

  (** fn parameters and loop bindings: the parameter / loop variable (the :as name or a
      temporary) is bound to the argument -- by the call, by loop*, or by recur -- and the
      let* placed in the body then binds what the pattern binds on that value. *)
  Theorem param_block_sound p n d n' em es v :
    mkdef p n = (d, n') -> user_pat p = true -> alias_ok p = true -> agree em es ->
    sim (eval_let (dbind_ns d) ((dname d, v) :: em)) (bind p v es).
  Proof.
    intros ED U OK AG. destruct (mkdef_shape _ _ _ _ ED) as [SY DN].
    unfold Destructure.dbind_ns. rewrite SY. destruct (is_psym p) eqn:PS.
    - destruct p; try discriminate. rewrite DN. apply agree_cons, AG.
    - eapply (proj1 dbind_sim); eauto using lookup_eq, agree_as_cons.
  Qed.

  Theorem destructure_sound p e n em es :
    user_pat p = true -> user_expr e = true -> alias_ok p = true -> agree em es ->
    sim (eval_let (fst (destructure O cur_shape datum_of p e n)) em)
        (v <- eval es e ;; bind p v es).
  Proof.
    intros U Ue OK AG. unfold destructure.
    destruct (mkdef p n) as [d n'] eqn:ED. simpl fst. rewrite eval_let_cons, (eval_agree e _ _ Ue AG).
    destruct (eval es e) as [v|c]; simpl; [|reflexivity]. eapply param_block_sound; eauto.
  Qed.

  Definition let_ok (bs : list (pat * expr)) : bool :=
    forallb (fun pe => user_pat (fst pe) && user_expr (snd pe) && alias_ok (fst pe)) bs.

  Theorem let_sound (bs : list (pat * expr)) : forall n em es,
    let_ok bs = true -> agree em es ->
    sim (eval_let (fst (let_bindings O cur_shape datum_of bs n)) em) (bind_let O bs es).
  Proof.
    induction bs as [|[p e] t IH]; intros n em es OK AG; simpl; [exact AG|].
    simpl in OK. apply andb_true_iff in OK as [OK1 OK2].
    apply andb_true_iff in OK1 as [OK1 OK1c]. apply andb_true_iff in OK1 as [OK1a OK1b].
    pose proof (destructure_sound p e n em es OK1a OK1b OK1c AG) as S.
    destruct (destructure O cur_shape datum_of p e n) as [l1 n1].
    specialize (IH n1). destruct (let_bindings O cur_shape datum_of t n1) as [l2 n2]. simpl fst in *.
    rewrite eval_let_app.
    rewrite <- bindr_assoc.
    eapply sim2_bind; [exact S|]. intros a b _ AG1. exact (IH a b OK2 AG1).
  Qed.

  Lemma nodup_app {A} (l1 l2 : list A) :
    NoDup (l1 ++ l2) -> NoDup l1 /\ NoDup l2 /\ (forall x, In x l1 -> ~ In x l2).
  Proof.
    induction l1 as [|a t IH]; simpl; intro H; [repeat split; [constructor|exact H|tauto]|].
    inversion H as [|? ? NI ND]; subst. destruct (IH ND) as (H1 & H2 & H3). rewrite in_app_iff in NI.
    repeat split; [constructor; tauto|exact H2|]. intros x [<-|I]; [tauto|auto].
  Qed.

  Lemma alias_free_nodup as_ L : NoDup (opt_list as_ ++ L) -> alias_free as_ L = true.
  Proof.
    destruct as_ as [a|]; simpl; intro H; [|reflexivity].
    inversion H; subst. apply negb_true_iff, mem_false. assumption.
  Qed.

  Lemma distinct_alias_ok :
    (forall p : pat, NoDup (binders p) -> alias_ok p = true)
    /\ (forall ps : pats, NoDup (binders_seq ps) -> alias_ok_seq ps = true)
    /\ (forall es : pentries, NoDup (binders_others es) ->
                             alias_ok_entries es = true /\ others_ok es = true).
  Proof.
    apply pat_mutind; simpl; auto.
    - intros ps IH rest as_ H. rewrite (alias_free_nodup _ _ H). apply IH.
      apply nodup_app in H as (_ & H & _). apply nodup_app in H as [H _]. exact H.
    - intros kg strs sg es IH ors as_ H. rewrite (alias_free_nodup _ _ H).
      do 5 (apply nodup_app in H as (_ & H & _)). destruct (IH H) as [-> ->]. reflexivity.
    - intros p IHp t IHt H. apply nodup_app in H as (H1 & H2 & _). now rewrite IHp, IHt.
    - intros p IHp k t IHt H. apply nodup_app in H as (H1 & H2 & H3).
      destruct (IHt H2) as [-> ->]. destruct (is_psym p) eqn:PS.
      + destruct p; try discriminate. auto.
      + rewrite (IHp H1). split; [reflexivity|]. rewrite andb_true_r.
        apply forallb_forall. intros a I. apply negb_true_iff, mem_false.
        intro I'. apply (H3 _ I'). apply later_aliases_incl, I.
  Qed.

  Theorem destructure_sound_distinct p e n em es :
    user_pat p = true -> user_expr e = true -> distinct_binders p -> agree em es ->
    sim (eval_let (fst (destructure O cur_shape datum_of p e n)) em)
        (v <- eval es e ;; bind p v es).
  Proof.
    intros U Ue D AG. apply destructure_sound; auto. apply (proj1 distinct_alias_ok), D.
  Qed.
End Proofs.

(** [:or] applies exactly when the key is absent (a present nil stays nil) *)
Lemma or_default_iff_absent l k d :
  (massoc k l = None -> c_get (VMap l) k d = Ok d)
  /\ (forall v, massoc k l = Some v -> c_get (VMap l) k d = Ok v).
Proof. unfold c_get. split; [intro H|intros v H]; rewrite H; reflexivity. Qed.

(** [:or] is keyed on the NAME being in the :or map ((contains? ors sym)), not on the truthiness
    of the default: every kind of map binder emits the 3-argument get, which on a map lacking
    the key yields the default's value, false and nil included. *)
Lemma or_default_any_value :
  forall (datum : expr C -> cval) (nm : name) (ors : list (str * expr C)) (x : str)
         (ns : option str) (de : expr C) (l : list (cval * cval)) (dv : cval) (en : env C),
    assoc x ors = Some de ->
    lookup nm en = Some (VMap l) ->
    eval en de = Ok dv ->
    (kw_binding C nm ors (ns, x) = (NU x, @EGet3 C (EVar nm) (@EConst C (VKw ns x)) de)
     /\ (massoc (VKw ns x) l = None -> eval en (snd (kw_binding C nm ors (ns, x))) = Ok dv))
    /\ (str_binding C nm ors x = (NU x, @EGet3 C (EVar nm) (@EConst C (VStr x)) de)
        /\ (massoc (VStr x) l = None -> eval en (snd (str_binding C nm ors x)) = Ok dv))
    /\ (sym_binding C nm ors (ns, x) = (NU x, @EGet3 C (EVar nm) (@EConst C (VSym ns x)) de)
        /\ (massoc (VSym ns x) l = None -> eval en (snd (sym_binding C nm ors (ns, x))) = Ok dv))
    /\ (forall k kv, named_binding C cur_shape datum nm ors k (NU x) = (NU x, @EGet3 C (EVar nm) k de)
        /\ (eval en k = Ok kv -> massoc kv l = None ->
            eval en (snd (named_binding C cur_shape datum nm ors k (NU x))) = Ok dv)).
Proof.
  intros datum nm ors x ns de l dv en Ha Hl Hd.
  unfold kw_binding, str_binding, sym_binding, named_binding, ors_get, get_binding.
  cbn [fst snd quote_or_key cur_shape]. rewrite Ha. cbn [snd].
  assert (G : forall k kv, eval en k = Ok kv -> massoc kv l = None ->
                           eval en (@EGet3 C (EVar nm) k de) = Ok dv).
  { intros k kv Hk Hm. cbn [eval]. rewrite Hl, Hk, Hd. cbn. unfold c_get. rewrite Hm. reflexivity. }
  repeat split; try (intro Hm; eapply G; [reflexivity|exact Hm]).
  intros Hk Hm. eapply G; eassumption.
Qed.
