(** C09 -- proofs about syntax-quote: the code the reader emits evaluates to the substitution
    instance of the template (holes once, left to right; collection types preserved except
    that an empty list becomes nil), symbols are resolved, auto-gensyms are one symbol per
    template and fresh across templates. *)
From Coq Require Import List ZArith Bool Lia.
Import ListNotations.
From Verif Require Import Common.ListX C09.SQSpec.

Lemma str_eqb_sym a b : str_eqb a b = str_eqb b a.
Proof. exact (ListX.str_eqb_sym a b). Qed.

(** list, vector, set and map templates are treated alike: one constructor with the kind as argument *)
Inductive ckind := KList | KVec | KSet | KMap.
Definition tcoll k l :=
  match k with KList => TList l | KVec => TVec l | KSet => TSet l | KMap => TMap l end.
Definition kwrap k parts :=
  FList ((match k with KList => [c_seq] | KVec => [c_apply; c_vector]
          | KSet => [c_apply; c_hash_set] | KMap => [c_apply; c_hash_map] end)
         ++ [FList (c_concat :: parts)]).
Definition kmake (ml : list form -> form) k fl : res form :=
  match k with KList => Ok (ml fl) | KVec => Ok (FVec fl) | KSet => Ok (mk_set fl) | KMap => mk_map fl end.

Lemma tmpl_kind_ind (P : tmpl -> Prop) (Q : tmpls -> Prop) :
  (forall a, P (TAtom a)) -> (forall ns n, P (TSym ns n)) -> (forall p, P (TGen p)) ->
  (forall k l, Q l -> P (tcoll k l)) -> (forall h, P (TUnq h)) -> (forall h, P (TSplice h)) ->
  Q TNil -> (forall e r, P e -> Q r -> Q (TCons e r)) ->
  (forall t, P t) /\ (forall l, Q l).
Proof.
  intros Ha Hs Hg Hc Hu Hp Hn Hk. apply tmpl_mutind; auto; intro l;
    [apply (Hc KList)|apply (Hc KVec)|apply (Hc KSet)|apply (Hc KMap)].
Qed.

Lemma expand_coll R k l st :
  expand R (tcoll k l) st =
  match expand_elems R l st with Some (parts, st') => Some (kwrap k parts, st') | None => None end.
Proof. destruct k; reflexivity. Qed.
Lemma expand_pure_coll R g k l :
  expand_pure R g (tcoll k l) =
  match expand_elems_pure R g l with Some parts => Some (kwrap k parts) | None => None end.
Proof. destruct k; reflexivity. Qed.
Lemma subst_coll ml R g sg k l :
  subst_gen ml R g sg (tcoll k l) =
  (r <- subst_elems ml R g sg l ;; fl <- flatten (fst r) ;; v <- kmake ml k fl ;; Ok (v, snd r)).
Proof. destruct k; reflexivity. Qed.

(** an element is a splice or is wrapped in (list ...): the model's [TUnq] branch equals the generic one *)
Definition splice_of e := match e with TSplice h => Some h | _ => None end.
Lemma splice_of_eq e h : splice_of e = Some h -> e = TSplice h.
Proof. destruct e; simpl; congruence. Qed.
Lemma expand_elems_cons R e r st :
  expand_elems R (TCons e r) st =
  match (match splice_of e with
         | Some h => Some (FHole h, st)
         | None => match expand R e st with Some (f, st') => Some (FList [c_list; f], st') | None => None end
         end) with
  | Some (part, st1) =>
      match expand_elems R r st1 with Some (parts, st2) => Some (part :: parts, st2) | None => None end
  | None => None
  end.
Proof. destruct e; reflexivity. Qed.
Lemma expand_elems_pure_cons R g e r :
  expand_elems_pure R g (TCons e r) =
  match (match splice_of e with
         | Some h => Some (FHole h)
         | None => match expand_pure R g e with Some f => Some (FList [c_list; f]) | None => None end
         end) with
  | Some part => match expand_elems_pure R g r with Some parts => Some (part :: parts) | None => None end
  | None => None
  end.
Proof. destruct e; reflexivity. Qed.
Lemma subst_elems_cons ml R g sg e r :
  subst_elems ml R g sg (TCons e r) =
  (a <- match splice_of e with
        | Some h => Ok ((true, hole_val sg h), [h])
        | None => x <- subst_gen ml R g sg e ;; Ok ((false, fst x), snd x)
        end ;;
   b <- subst_elems ml R g sg r ;; Ok (fst a :: fst b, snd a ++ snd b)).
Proof. destruct e; reflexivity. Qed.

Definition agrees (g : str -> N) (e : list (str * N)) : Prop :=
  forall p k, assoc p e = Some k -> g p = k.

(** expansion allocates a number for each new p#, in textual order: a fold of [alloc] over [gens t] *)
Definition alloc (st : gstate) (p : str) : gstate :=
  match assoc p (fst st) with Some _ => st | None => ((p, snd st) :: fst st, N.succ (snd st)) end.

Lemma alloc_keeps st p q k : assoc q (fst st) = Some k -> assoc q (fst (alloc st p)) = Some k.
Proof.
  unfold alloc. destruct (assoc p (fst st)) eqn:E; [auto|]. simpl.
  destruct (str_eqb q p) eqn:Q; [|auto]. apply str_eqb_eq in Q; subst; congruence.
Qed.
Lemma allocs_keeps ps : forall st q k,
  assoc q (fst st) = Some k -> assoc q (fst (fold_left alloc ps st)) = Some k.
Proof. induction ps; simpl; auto using alloc_keeps. Qed.

Lemma expand_alloc_pure :
  (forall t R st code st', expand R t st = Some (code, st') ->
     st' = fold_left alloc (gens t) st /\
     forall g, agrees g (fst st') -> expand_pure R g t = Some code)
  /\ (forall l R st parts st', expand_elems R l st = Some (parts, st') ->
     st' = fold_left alloc (gens_elems l) st /\
     forall g, agrees g (fst st') -> expand_elems_pure R g l = Some parts).
Proof.
  apply tmpl_kind_ind; try (intros until st'; intro H; inversion H; subst; auto; fail).
  - intros p R [e c] code st'. unfold expand, gen_lookup, alloc. simpl.
    destruct (assoc p e) as [k|] eqn:E; intro H; inversion H; subst; (split; [reflexivity|]);
      intros g A; simpl; erewrite A; eauto. simpl. now rewrite str_eqb_refl.
  - intros k l IH R st code st'. rewrite expand_coll.
    destruct (expand_elems R l st) as [[parts st1]|] eqn:E; intro H; inversion H; subst.
    destruct (IH _ _ _ _ E) as [S P]. split; [destruct k; exact S|]. intros g A. now rewrite expand_pure_coll, (P g A).
  - intros e r IHe IHr R st parts st'. rewrite expand_elems_cons. simpl gens_elems. rewrite fold_left_app.
    destruct (splice_of e) as [h|] eqn:SP.
    + apply splice_of_eq in SP; subst e. simpl.
      destruct (expand_elems R r st) as [[parts2 st2]|] eqn:ER; intro H; inversion H; subst.
      destruct (IHr _ _ _ _ ER) as [S2 P2]. split; [exact S2|]. intros g A.
      now rewrite (P2 g A).
    + destruct (expand R e st) as [[f st1]|] eqn:EX; [|discriminate].
      destruct (IHe _ _ _ _ EX) as [S1 P1]. subst st1.
      destruct (expand_elems R r _) as [[parts2 st2]|] eqn:ER; intro H; inversion H; subst.
      destruct (IHr _ _ _ _ ER) as [S2 P2]. split; [exact S2|]. intros g A.
      rewrite expand_elems_pure_cons, SP, (P1 g), (P2 g A); [reflexivity|].
      intros p k Hk. apply A. rewrite S2. now apply allocs_keeps.
Qed.

(** the local fixpoint by which [ev] evaluates argument lists is the top-level [ev_args] *)
Lemma ev_args_local sg l :
  (fix ev_args (l : list form) : res (list form * list N) :=
     match l with
     | [] => Ok ([], [])
     | a :: t => r <- ev sg a ;; rs <- ev_args t ;; Ok (fst r :: fst rs, snd r ++ snd rs)
     end) l = ev_args sg l.
Proof. induction l as [|a t IH]; simpl; [reflexivity|]. rewrite IH. reflexivity. Qed.

Lemma ev_args_cons sg a t :
  ev_args sg (a :: t) = (r <- ev sg a ;; rs <- ev_args sg t ;; Ok (fst r :: fst rs, snd r ++ snd rs)).
Proof. reflexivity. Qed.

Lemma ev_list1 sg f : ev sg (FList [c_list; f]) = (r <- ev sg f ;; Ok (FList [fst r], snd r)).
Proof. simpl. destruct (ev sg f); simpl; [rewrite app_nil_r|]; reflexivity. Qed.

Lemma ev_concat sg parts :
  ev sg (FList (c_concat :: parts)) =
  (r <- ev_args sg parts ;; l <- cat_elems (fst r) ;; Ok (FList l, snd r)).
Proof. rewrite <- ev_args_local. reflexivity. Qed.

Lemma ev_wrap sg k parts :
  ev sg (kwrap k parts) =
  (r <- ev sg (FList (c_concat :: parts)) ;; l <- fseq_elems (fst r) ;; v <- kmake mk_seq k l ;; Ok (v, snd r)).
Proof. destruct k; reflexivity. Qed.

Lemma ev_atom sg a : ev sg (atom_form a) = Ok (atom_form a, []).
Proof. destruct a; reflexivity. Qed.

(** what an element contributes to (concat ...): the spliced value, or a one-element list *)
Definition chunk_val (c : chunk) : form := if fst c then snd c else FList [snd c].

Lemma cat_chunks cs : cat_elems (map chunk_val cs) = flatten cs.
Proof.
  induction cs as [|[[] v] t IH]; simpl; [reflexivity|rewrite IH..]; [|destruct (flatten t)]; reflexivity.
Qed.

Lemma ev_expand_pure R g sg :
  (forall t code, expand_pure R g t = Some code -> ev sg code = subst_seq R g sg t)
  /\ (forall l parts, expand_elems_pure R g l = Some parts ->
        ev_args sg parts
        = (x <- subst_elems mk_seq R g sg l ;; Ok (map chunk_val (fst x), snd x))).
Proof.
  unfold subst_seq. apply tmpl_kind_ind; try (intros until code; intro H; inversion H; subst; simpl; auto using ev_atom; fail).
  - intros k l IH code. rewrite expand_pure_coll, subst_coll.
    destruct (expand_elems_pure R g l) as [parts|]; intro H; inversion H; subst.
    rewrite ev_wrap, ev_concat, (IH _ eq_refl).
    destruct (subst_elems mk_seq R g sg l) as [[cs tr]|]; simpl; [|reflexivity].
    rewrite cat_chunks. destruct (flatten cs); reflexivity.
  - intros parts H; inversion H; reflexivity.
  - intros e r IHe IHr parts. rewrite expand_elems_pure_cons, subst_elems_cons.
    destruct (expand_elems_pure R g r) as [parts2|];
      [specialize (IHr _ eq_refl)|destruct (match splice_of e with Some _ => _ | None => _ end); discriminate].
    destruct (splice_of e) as [h|].
    + intro H; inversion H; subst. rewrite ev_args_cons, IHr. simpl.
      destruct (subst_elems mk_seq R g sg r) as [[cs tr]|]; reflexivity.
    + destruct (expand_pure R g e) as [f|]; intro H; inversion H; subst.
      rewrite ev_args_cons, ev_list1, (IHe _ eq_refl), IHr.
      destruct (subst_gen mk_seq R g sg e) as [[v tv]|]; simpl; [|reflexivity].
      destruct (subst_elems mk_seq R g sg r) as [[cs tr]|]; reflexivity.
Qed.

Theorem sq_eval_seq R t st code st' sg :
  expand R t st = Some (code, st') ->
  forall g, agrees g (fst st') -> ev sg code = subst_seq R g sg t.
Proof.
  intros H g A. apply (proj1 (ev_expand_pure R g sg)), (proj1 expand_alloc_pure _ _ _ _ _ H), A.
Qed.

(** with every list node non-empty, (seq ...) returns the list itself *)
Lemma flatten_nonempty sg l R g cs tr :
  subst_elems mk_seq R g sg l = Ok (cs, tr) -> some_nonempty sg l = true ->
  forall fl, flatten cs = Ok fl -> fl <> [].
Proof.
  revert cs tr. induction l as [|e r IH]; intros cs tr H NE fl F; [discriminate|].
  rewrite subst_elems_cons in H. simpl in NE.
  destruct (splice_of e) as [h|] eqn:SP.
  - apply splice_of_eq in SP; subst e. simpl in H, NE.
    destruct (subst_elems mk_seq R g sg r) as [[cs2 tr2]|] eqn:ER; inversion H; subst. simpl in F.
    destruct (fseq_elems (hole_val sg h)) as [[|x a1]|]; simpl in F; try discriminate;
      destruct (flatten cs2) eqn:FL; inversion F; subst; [eapply IH; eauto|discriminate].
  - destruct (subst_gen mk_seq R g sg e) as [[v tv]|]; [|discriminate].
    destruct (subst_elems mk_seq R g sg r) as [[cs2 tr2]|]; inversion H; subst. simpl in F.
    destruct (flatten cs2); inversion F. discriminate.
Qed.

Lemma subst_seq_eq R g sg :
  (forall t, ne_ok sg t = true -> subst_gen mk_seq R g sg t = subst_gen FList R g sg t)
  /\ (forall l, ne_ok_elems sg l = true ->
                subst_elems mk_seq R g sg l = subst_elems FList R g sg l).
Proof.
  apply tmpl_kind_ind; try reflexivity.
  - intros k l IH NE. rewrite !subst_coll.
    assert (N2 : ne_ok_elems sg l = true) by (destruct k; simpl in NE; [apply andb_true_iff in NE as []|..]; auto).
    rewrite <- (IH N2). destruct k; try reflexivity. simpl in NE. apply andb_true_iff in NE as [N1 _].
    destruct (subst_elems mk_seq R g sg l) as [[cs tr]|] eqn:E; simpl; [|reflexivity].
    destruct (flatten cs) as [fl|] eqn:F; simpl; [|reflexivity].
    pose proof (flatten_nonempty _ _ _ _ _ _ E N1 _ F). destruct fl; [contradiction|reflexivity].
  - intros e r IHe IHr NE. simpl in NE. apply andb_true_iff in NE as [N1 N2].
    rewrite !subst_elems_cons, (IHr N2), (IHe N1). reflexivity.
Qed.

Theorem sq_eval_partial R t st code st' sg :
  expand R t st = Some (code, st') -> ne_ok sg t = true ->
  forall g, agrees g (fst st') -> ev sg code = subst R g sg t.
Proof.
  intros H NE g A. rewrite (sq_eval_seq _ _ _ _ _ sg H g A).
  apply (proj1 (subst_seq_eq R g sg)), NE.
Qed.

Lemma subst_trace ml R g sg :
  (forall t v tr, subst_gen ml R g sg t = Ok (v, tr) -> tr = holes_of t)
  /\ (forall l cs tr, subst_elems ml R g sg l = Ok (cs, tr) -> tr = holes_elems l).
Proof.
  apply tmpl_kind_ind; try (intros until tr; intro H; inversion H; reflexivity).
  - intros k l IH v tr. rewrite subst_coll.
    destruct (subst_elems ml R g sg l) as [[cs tr']|]; simpl; [|discriminate].
    destruct (flatten cs) as [fl|]; simpl; [|discriminate].
    destruct (kmake ml k fl); simpl; intro H; inversion H; subst. destruct k; eapply IH; eauto.
  - intros e r IHe IHr cs tr. rewrite subst_elems_cons. simpl holes_elems.
    destruct (splice_of e) as [h|] eqn:SP.
    + apply splice_of_eq in SP; subst e. simpl.
      destruct (subst_elems ml R g sg r) as [[cs2 tr2]|]; simpl; intro H; inversion H; subst.
      now rewrite (IHr _ _ eq_refl).
    + destruct (subst_gen ml R g sg e) as [[v tv]|]; simpl; [|discriminate].
      destruct (subst_elems ml R g sg r) as [[cs2 tr2]|]; simpl; intro H; inversion H; subst.
      now rewrite (IHe _ _ eq_refl), (IHr _ _ eq_refl).
Qed.

(** numbers lie between the counter at the backquote [c0] and its present value, and differ for different names *)
Definition ginv (c0 : N) (st : gstate) : Prop :=
  (forall p k, assoc p (fst st) = Some k -> (c0 <= k < snd st)%N)
  /\ (forall p q k, assoc p (fst st) = Some k -> assoc q (fst st) = Some k -> p = q)
  /\ (c0 <= snd st)%N.

Lemma alloc_ginv c0 st p : ginv c0 st -> ginv c0 (alloc st p) /\ (snd st <= snd (alloc st p))%N.
Proof.
  intros (I1 & I2 & I3). unfold alloc. destruct (assoc p (fst st)) eqn:E; [split; [exact (conj I1 (conj I2 I3))|lia]|].
  assert (B : forall q k, assoc q ((p, snd st) :: fst st) = Some k ->
                k = snd st /\ str_eqb q p = true \/ (k < snd st)%N /\ assoc q (fst st) = Some k /\ (c0 <= k)%N).
  { intros q k0. simpl. destruct (str_eqb q p); intro H; [inversion H; auto|right; apply I1 in H as H'; intuition lia]. }
  unfold ginv; simpl. split; [split; [|split]|]; try lia.
  - intros q k0 H. apply B in H as [[-> _]|(? & _ & ?)]; lia.
  - intros q1 q2 k0 H1 H2. apply B in H1 as [[-> Q1]|(L1 & H1 & _)], H2 as [[E2 Q2]|(L2 & H2 & _)]; try lia; eauto.
    apply str_eqb_eq in Q1, Q2. congruence.
Qed.

Lemma allocs_ginv c0 ps : forall st, ginv c0 st ->
  let st' := fold_left alloc ps st in
  ginv c0 st' /\ (snd st <= snd st')%N /\ forall p, In p ps -> exists k, assoc p (fst st') = Some k.
Proof.
  induction ps as [|q t IH]; simpl; intros st I; [split; [exact I|split; [lia|tauto]]|].
  destruct (alloc_ginv c0 st q I) as [I' LE]. destruct (IH _ I') as (G & L & A).
  split; [exact G|split; [lia|]]. intros p [<-|Hp]; [|auto].
  assert (exists k, assoc q (fst (alloc st q)) = Some k) as [k Hk].
  { unfold alloc. destruct (assoc q (fst st)) eqn:E; [eauto|]. simpl. rewrite str_eqb_refl. eauto. }
  eauto using allocs_keeps.
Qed.

(** an environment as a total assignment (cf. [Corr.sq_gamma]) *)
Definition assign (e : list (str * N)) (p : str) : N :=
  match assoc p e with Some k => k | None => 0%N end.

(** reading ONE template: one symbol per auto-gensym name, all of them new *)
Theorem gensym_one_per_template R t c code c' :
  read_template R t c = Some (code, c') ->
  exists g, expand_pure R g t = Some code
            /\ (forall p, In p (gens t) -> (c <= g p < c')%N)
            /\ (forall p q, In p (gens t) -> In q (gens t) -> g p = g q -> p = q)
            /\ (c <= c')%N.
Proof.
  unfold read_template. intro H.
  destruct (expand R t ([], c)) as [[f st]|] eqn:E; inversion H; subst; clear H.
  destruct (proj1 expand_alloc_pure _ _ _ _ _ E) as [S P].
  assert (I0 : ginv c ([], c)) by (repeat split; simpl; try discriminate; lia).
  destruct (allocs_ginv c (gens t) _ I0) as ((I1 & I2 & _) & LE & AS). simpl in *. rewrite <- S in *.
  exists (assign (fst st)). split; [|split; [|split]]; [| | |exact LE].
  - apply P. intros p k Hk. unfold assign. now rewrite Hk.
  - intros p Hp. destruct (AS _ Hp) as [k Hk]. unfold assign. rewrite Hk. eauto.
  - intros p q Hp Hq. destruct (AS _ Hp) as [k Hk], (AS _ Hq) as [k' Hk']. unfold assign.
    rewrite Hk, Hk'. intros <-. eauto.
Qed.

(** reading two templates one after the other (other users of the global counter may run in
    between): no generated symbol of the second equals one of the first *)
Theorem gensym_fresh_across R1 R2 t1 t2 c code1 c1 c1' code2 c2 :
  read_template R1 t1 c = Some (code1, c1) -> (c1 <= c1')%N ->
  read_template R2 t2 c1' = Some (code2, c2) ->
  exists g1 g2, expand_pure R1 g1 t1 = Some code1 /\ expand_pure R2 g2 t2 = Some code2
                /\ forall p q, In p (gens t1) -> In q (gens t2) -> g1 p <> g2 q.
Proof.
  intros H1 LE H2.
  destruct (gensym_one_per_template _ _ _ _ _ H1) as [g1 [E1 [B1 _]]].
  destruct (gensym_one_per_template _ _ _ _ _ H2) as [g2 [E2 [B2 _]]].
  exists g1, g2. split; [exact E1|]. split; [exact E2|].
  intros p q Hp Hq EQ. specialize (B1 _ Hp). specialize (B2 _ Hq). lia.
Qed.

Definition plain (R : nsrec) (n : str) : Prop :=
  mem n (special R) = false /\ str_eqb n amp = false /\ starts_with_dot n = false.

Theorem sq_resolves R n :
  plain R n ->
  (forall vns vn, ns_find R n = Some (vns, vn) -> read_sym R None n = (Some vns, vn))
  /\ (ns_find R n = None -> read_sym R None n = (Some (cur R), n))
  /\ fst (read_sym R None n) <> None.
Proof.
  intros [P1 [P2 P3]]. unfold read_sym, resolve_alias. rewrite P2, P3, P1. simpl.
  split; [|split].
  - intros vns vn H. rewrite H. reflexivity.
  - intro H. rewrite H. reflexivity.
  - destruct (ns_find R n) as [[vns vn]|]; simpl; discriminate.
Qed.

Theorem sq_special_bare R n :
  mem n (special R) = true \/ str_eqb n amp = true \/ starts_with_dot n = true ->
  read_sym R None n = (None, n).
Proof.
  unfold read_sym, resolve_alias. intros [H|[H|H]].
  - destruct (str_eqb n amp || starts_with_dot n); [reflexivity|]. rewrite H. reflexivity.
  - rewrite H. reflexivity.
  - rewrite H, orb_true_r. reflexivity.
Qed.

Theorem sq_alias R a n :
  (forall full, assoc a (aliases R) = Some full -> read_sym R (Some a) n = (Some full, n))
  /\ (assoc a (aliases R) = None -> read_sym R (Some a) n = (Some a, n)).
Proof.
  unfold read_sym, resolve_alias. split; [intros full H|intro H]; rewrite H; reflexivity.
Qed.

Lemma qualified_denotes_var globals U locals vns vn :
  var_exists globals vns vn = true ->
  (str_eqb vns (cur U) = true -> ns_find U vn = Some (vns, vn)) ->
  denote globals U locals (Some vns) vn = DVar vns vn.
Proof.
  intros G OWN. simpl. destruct (str_eqb vns (cur U)); [rewrite (OWN eq_refl)|rewrite G]; reflexivity.
Qed.

(** Hygiene: a symbol that denotes a Var where the template is written denotes the same Var
    wherever the expansion is compiled, whatever locals are in scope there. *)
Theorem sq_hygienic globals R U locals n vns vn :
  plain R n ->
  ns_find R n = Some (vns, vn) ->
  var_exists globals vns vn = true ->
  (str_eqb vns (cur U) = true -> ns_find U vn = Some (vns, vn)) ->
  denote globals U locals (fst (read_sym R None n)) (snd (read_sym R None n)) = DVar vns vn.
Proof.
  intros P F G OWN. rewrite (proj1 (sq_resolves R n P) _ _ F). exact (qualified_denotes_var _ _ _ _ _ G OWN).
Qed.

Lemma unqualified_captured globals U locals n :
  mem n locals = true -> denote globals U locals None n = DLocal n.
Proof. intro H. simpl. rewrite H. reflexivity. Qed.
