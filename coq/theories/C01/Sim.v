(** Forward simulation: for every hazard-free expression of the first-order core, the
    generated Python statements followed by the generated expression compute the value
    and the effect trace the evaluation rules prescribe. *)
From Coq Require Import List NArith Bool Lia.
Import ListNotations.
From Verif Require Import C01.Lisp C01.Py C01.Gen.

Local Open Scope N_scope.

Definition agree_below (n : N) (F F' : frame) : Prop := forall p, idx p < n -> F' p = F p.

Lemma agree_refl n F : agree_below n F F.
Proof. intros p _; reflexivity. Qed.

Lemma agree_weaken n m F F' : n <= m -> agree_below m F F' -> agree_below n F F'.
Proof. intros L A p Hp. apply A. lia. Qed.

Lemma set_same F p v : set F p v p = Some v.
Proof. unfold set. assert (E : pname_eqb p p = true) by (apply pname_eqb_eq; reflexivity). rewrite E. reflexivity. Qed.

Lemma set_other F p v q : q <> p -> set F p v q = F q.
Proof.
  intro Hn. unfold set. destruct (pname_eqb q p) eqn:E; [|reflexivity].
  apply pname_eqb_eq in E. contradiction.
Qed.

Lemma agree_set n F p v : n <= idx p -> agree_below n F (set F p v).
Proof. intros L q Hq. apply set_other. intro E; subst. lia. Qed.

Lemma agree_step n m F1 F2 F3 :
  agree_below n F1 F2 -> agree_below m F2 F3 -> n <= m -> agree_below n F1 F3.
Proof. intros A B L p Hp. rewrite B by lia. apply A; auto. Qed.

Lemma agree_set_r n F F' p v : agree_below n F F' -> n <= idx p -> agree_below n F (set F' p v).
Proof. intros A L. eapply agree_step; [exact A|apply agree_set, L|apply N.le_refl]. Qed.

(** all names read by a generated expression lie below the counter *)
Fixpoint nb (n : N) (e : pexpr) : bool :=
  match e with
  | PConst _ => true
  | PName p => idx p <? n
  | PCall _ args => forallb (nb n) args
  end.

Lemma nb_mono n m e : n <= m -> nb n e = true -> nb m e = true.
Proof.
  intro L. induction e as [v|p|f args IH] using pexpr_ind'; simpl; auto.
  - rewrite !N.ltb_lt. lia.
  - rewrite !forallb_forall. rewrite Forall_forall in IH. auto.
Qed.

Lemma nb_list_mono n m l : n <= m -> forallb (nb n) l = true -> forallb (nb m) l = true.
Proof. intros L. rewrite !forallb_forall. intros H x Hx. eapply nb_mono; eauto. Qed.

Lemma peval_list_ext F F' l : Forall (fun a => peval F' a = peval F a) l -> peval_list F' l = peval_list F l.
Proof. induction 1 as [|a r Ha _ IH]; [reflexivity|]. simpl. rewrite Ha, IH. reflexivity. Qed.

Lemma peval_agree n F F' e : nb n e = true -> agree_below n F F' -> peval F' e = peval F e.
Proof.
  intros Hn A. induction e as [v|p|f args IH] using pexpr_ind'.
  - reflexivity.
  - simpl in *. apply N.ltb_lt in Hn. rewrite (A p Hn). reflexivity.
  - rewrite !peval_call, (peval_list_ext F F' args); [reflexivity|].
    simpl in Hn. rewrite forallb_forall in Hn. rewrite Forall_forall in *. auto.
Qed.

Lemma peval_list_agree n F F' l :
  forallb (nb n) l = true -> agree_below n F F' -> peval_list F' l = peval_list F l.
Proof.
  intros Hn A. apply peval_list_ext, Forall_forall. rewrite forallb_forall in Hn.
  intros a Ha. apply (peval_agree n); auto.
Qed.

Lemma atomic_no_trace F e v t : atomic e = true -> peval F e = Some (v, t) -> t = [].
Proof.
  destruct e as [c|p|f args]; simpl; try discriminate; intros _ H.
  - inversion H; reflexivity.
  - destruct (F p); inversion H; reflexivity.
Qed.

(** the invariant relating the source environment to the Python frame *)
Definition R (rho : env) (sg : senv) (F : frame) (n : N) : Prop :=
  forall x v, rho x = Some v -> exists p, sg x = Some p /\ idx p < n /\ F p = Some v.

Lemma R_mono rho sg F F' n m : R rho sg F n -> n <= m -> agree_below n F F' -> R rho sg F' m.
Proof.
  intros HR L A x v Hx. destruct (HR x v Hx) as (p & Hs & Hi & Hf).
  exists p. repeat split; auto; [lia|]. rewrite A; auto.
Qed.

Lemma gen_args_mono (g : N -> expr -> out) l :
  Forall (fun a => forall n d e n' k, g n a = (d, e, n', k) -> n <= n') l ->
  forall n ds es n' k, gen_args g l n = (ds, es, n', k) -> n <= n'.
Proof.
  induction 1 as [|a r Ha _ IH]; intros n ds es n' k G; cbn [gen_args] in G.
  - inversion G; lia.
  - destruct (g n a) as [[[? ?] n1] ?] eqn:Ga. destruct (gen_args g r n1) as [[[? ?] n2] ?] eqn:Gr.
    inversion G; subst. apply Ha in Ga. apply IH in Gr. lia.
Qed.

Lemma gen_mono : forall e sg m d pe m' k, gen sg m e = (d, pe, m', k) -> m <= m'.
Proof.
 induction e as [c|x|c t e IHc IHt IHe|s r IHs IHr|x i b IHi IHb|f args IHargs] using expr_ind';
    intros sg m d pe m' k G; cbn [gen] in G.
  - inversion G; lia.
  - inversion G; lia.
  - destruct (gen sg m c) as [[[? ?] a1] ?] eqn:G1.
    destruct (gen sg (a1 + 2) t) as [[[? ?] a2] ?] eqn:G2.
    destruct (gen sg a2 e) as [[[? ?] a3] ?] eqn:G3. inversion G; subst.
    apply IHc in G1. apply IHt in G2. apply IHe in G3. lia.
  - destruct (gen sg m s) as [[[? ?] a1] ?] eqn:G1.
    destruct (gen sg a1 r) as [[[? ?] a2] ?] eqn:G2. inversion G; subst.
    apply IHs in G1. apply IHr in G2. lia.
  - destruct (gen sg m i) as [[[? ?] a1] ?] eqn:G1.
    destruct (gen (upd sg x (NLocal x a1)) (a1 + 1) b) as [[[? ?] a2] ?] eqn:G2. inversion G; subst.
    apply IHi in G1. apply IHb in G2. lia.
  - destruct (gen_args _ args m) as [[[ds es] a1] ka] eqn:G1. inversion G; subst.
    eapply gen_args_mono; [|exact G1]. eapply Forall_impl; [|exact IHargs]. intros a Ha n. apply Ha.
Qed.

Lemma gen_list_mono sg l n ds es n' k : gen_list sg n l = (ds, es, n', k) -> n <= n'.
Proof. apply gen_args_mono, Forall_forall. intros a _ m. apply gen_mono. Qed.

Lemma R_let rho sg F n x v n1 F1 :
  R rho sg F n -> n <= n1 -> agree_below n F F1 ->
  R (upd rho x v) (upd sg x (NLocal x n1)) (set F1 (NLocal x n1) v) (n1 + 1).
Proof.
  intros HR L A y vy Hy. unfold upd in *. destruct (N.eqb y x) eqn:Eyx.
  - inversion Hy; subst. eexists. repeat split; [simpl; lia|]. apply set_same.
  - destruct (HR y vy Hy) as (q & Hs & Hi & Hf). exists q. repeat split; auto; [lia|].
    rewrite set_other; [rewrite A; auto|]. intro E; subst q. simpl in Hi. lia.
Qed.

Lemma quiet_list_nt l :
  Forall (fun s => forall F F' t, quiet1 s = true -> exec1 F s = Some (F', t) -> t = []) l ->
  forall F F' t, quiet l = true -> exec F l = Some (F', t) -> t = [].
Proof.
  induction 1 as [|s l Hs _ IH]; intros F F' t Hq H.
  - inversion H; auto.
  - rewrite quiet_cons in Hq. apply andb_true_iff in Hq as [Q1 Q2]. rewrite exec_cons in H.
    destruct (exec1 F s) as [[F1 t1]|] eqn:E1; [|discriminate].
    destruct (exec F1 l) as [[F2 t2]|] eqn:E2; [|discriminate]. inversion H; subst.
    rewrite (Hs _ _ _ Q1 E1), (IH _ _ _ Q2 E2). reflexivity.
Qed.

Lemma quiet1_nt s : forall F F' t, quiet1 s = true -> exec1 F s = Some (F', t) -> t = [].
Proof.
  induction s as [n e|e|tst a b IHa IHb] using stmt_ind'; intros F F' t Hq H.
  - rewrite exec1_assign in H. destruct (peval F e) as [[v t']|] eqn:E; inversion H; subst. exact (atomic_no_trace _ _ _ _ Hq E).
  - rewrite exec1_expr in H. destruct (peval F e) as [[v t']|] eqn:E; inversion H; subst. exact (atomic_no_trace _ _ _ _ Hq E).
  - rewrite exec1_if in H. destruct (F tst) as [v|]; [|discriminate].
    cbn [quiet1] in Hq. apply andb_true_iff in Hq as [Qa Qb].
    destruct (falsey v); [eapply (quiet_list_nt a)|eapply (quiet_list_nt b)]; eauto.
Qed.

Lemma quiet_nt l F F' t : quiet l = true -> exec F l = Some (F', t) -> t = [].
Proof. apply quiet_list_nt, Forall_forall. intros s _. apply quiet1_nt. Qed.

Lemma exec_into F d pe F' t1 v t2 p :
  exec F d = Some (F', t1) -> peval F' pe = Some (v, t2) ->
  exec F (d ++ [SAssign p pe]) = Some (set F' p v, t1 ++ t2).
Proof. intros X P. rewrite exec_app, X, exec_cons, exec1_assign, P, exec_nil, app_nil_r. reflexivity. Qed.

Definition sim_core (e : expr) : Prop :=
  forall sg n rho F v tr d pe n',
    R rho sg F n -> eval rho e = Some (v, tr) -> gen sg n e = (d, pe, n', true) ->
    exists F' t1 t2,
      exec F d = Some (F', t1) /\ peval F' pe = Some (v, t2) /\ tr = t1 ++ t2 /\
      agree_below n F F' /\ nb n' pe = true.

Definition sim_core_list (l : list expr) : Prop :=
  forall sg n rho F vs tr ds es n',
    R rho sg F n -> eval_list rho l = Some (vs, tr) -> gen_list sg n l = (ds, es, n', true) ->
    exists F' t1 t2,
      exec F ds = Some (F', t1) /\ peval_list F' es = Some (vs, t2) /\ tr = t1 ++ t2 /\
      agree_below n F F' /\ forallb (nb n') es = true.

Lemma sim_core_list_of l : Forall sim_core l -> sim_core_list l.
Proof.
  induction 1 as [|a r Ha _ IH]; intros sg n rho F vs tr ds es n' HR He Hg.
  - inversion He; inversion Hg; subst. exists F, [], []. repeat split; auto using agree_refl.
  - simpl in He. destruct (eval rho a) as [[va ta]|] eqn:Ea; [|discriminate].
    destruct (eval_list rho r) as [[vr trr]|] eqn:Er; inversion He; subst; clear He.
    rewrite gen_list_cons in Hg.
    destruct (gen sg n a) as [[[d e] n1] k1] eqn:Ga. destruct (gen_list sg n1 r) as [[[ds' es'] n2] k2] eqn:Gr.
    injection Hg as <- <- <- Hk.
    apply andb_true_iff in Hk as [Hk Hhz]. apply andb_true_iff in Hk as [-> ->].
    pose proof (gen_mono _ _ _ _ _ _ _ Ga) as L1. pose proof (gen_list_mono _ _ _ _ _ _ _ Gr) as L2.
    destruct (Ha _ _ _ _ _ _ _ _ _ HR Ea Ga) as (F1 & ta1 & ta2 & X1 & P1 & -> & A1 & N1).
    destruct (IH _ _ _ _ _ _ _ _ _ (R_mono _ _ _ _ _ _ HR L1 A1) Er Gr) as (F2 & ts1 & ts2 & X2 & P2 & -> & A2 & N2).
    exists F2, (ta1 ++ ts1), (ta2 ++ ts2). rewrite exec_app, X1, X2.
    split; [reflexivity|]. split; [simpl; rewrite (peval_agree n1 F1 F2 e N1 A2), P1, P2; reflexivity|].
    split.
    { (* the hazard flag: the head's inline expression or the later statements are silent *)
      apply orb_true_iff in Hhz as [Hat|Hq].
      - rewrite (atomic_no_trace _ _ _ _ Hat P1), !app_nil_r. apply app_assoc.
      - rewrite (quiet_nt _ _ _ _ Hq X2). rewrite app_nil_r, <- app_assoc. reflexivity. }
    split; [eapply agree_step; eauto|]. simpl. rewrite (nb_mono n1 _ e L2 N1). exact N2.
Qed.

Theorem sim_core_all : forall e, sim_core e.
Proof.
  induction e as [c|x|c t e IHc IHt IHe|s r IHs IHr|x i b IHi IHb|f args IHargs] using expr_ind';
    intros sg n rho F v tr d pe n' HR He Hg.
  - inversion He; inversion Hg; subst. exists F, [], []. repeat split; auto using agree_refl.
  - simpl in He. destruct (rho x) as [vx|] eqn:Ex; inversion He; subst; clear He.
    destruct (HR x v Ex) as (p & Hs & Hi & Hf). simpl in Hg. rewrite Hs in Hg. inversion Hg; subst.
    exists F, [], []. simpl. rewrite Hf. repeat split; auto using agree_refl. apply N.ltb_lt, Hi.
  - simpl in He. destruct (eval rho c) as [[vc tc]|] eqn:Ec; [|discriminate].
    cbn [gen] in Hg.
    destruct (gen sg n c) as [[[dc ec] n1] k1] eqn:Gc. destruct (gen sg (n1 + 2) t) as [[[dt et] n2] k2] eqn:Gt.
    destruct (gen sg n2 e) as [[[de ee] n3] k3] eqn:Ge. injection Hg as <- <- <- Hk.
    apply andb_true_iff in Hk as [Hk ->]. apply andb_true_iff in Hk as [-> ->].
    pose proof (gen_mono _ _ _ _ _ _ _ Gc) as Lc. pose proof (gen_mono _ _ _ _ _ _ _ Gt) as Lt.
    pose proof (gen_mono _ _ _ _ _ _ _ Ge) as Le.
    destruct (IHc _ _ _ _ _ _ _ _ _ HR Ec Gc) as (F1 & tc1 & tc2 & X1 & P1 & -> & A1 & N1).
    set (test := NTemp n1). set (res := NTemp (n1 + 1)). set (F1' := set F1 test vc).
    assert (A1' : agree_below n F F1') by (apply agree_set_r; [exact A1|simpl; lia]).
    (* the branch taken: its code runs from F1', and the other one is skipped *)
    assert (exists F2 t2, exec F1' (if falsey vc then de ++ [SAssign res ee] else dt ++ [SAssign res et])
                            = Some (set F2 res v, t2) /\ tr = (tc1 ++ tc2) ++ t2 /\ agree_below (n1 + 2) F1' F2)
      as (F2 & t2 & X2 & -> & A2).
    { destruct (falsey vc).
      - destruct (eval rho e) as [[ve te]|] eqn:Ee; inversion He; subst.
        destruct (IHe _ _ _ _ _ _ _ _ _ (R_mono _ _ _ _ n n2 HR ltac:(lia) A1') Ee Ge) as (F2 & te1 & te2 & X2 & P2 & -> & A2 & _).
        exists F2, (te1 ++ te2). split; [eapply exec_into; eauto|]. split; [reflexivity|]. eapply agree_weaken; [|exact A2]. lia.
      - destruct (eval rho t) as [[vt tt]|] eqn:Et; inversion He; subst.
        destruct (IHt _ _ _ _ _ _ _ _ _ (R_mono _ _ _ _ n (n1 + 2) HR ltac:(lia) A1') Et Gt) as (F2 & tt1 & tt2 & X2 & P2 & -> & A2 & _).
        exists F2, (tt1 ++ tt2). split; [eapply exec_into; eauto|]. split; [reflexivity|exact A2]. }
    exists (set F2 res v), ((tc1 ++ tc2) ++ t2), [].
    split.
    { rewrite exec_app, X1, exec_cons, exec1_assign, P1. fold F1'. rewrite exec_cons, exec1_if.
      unfold F1' at 1. rewrite set_same. fold F1'. rewrite X2, exec_nil, !app_nil_r, app_assoc. reflexivity. }
    split; [simpl; rewrite set_same; reflexivity|]. split; [rewrite app_nil_r; reflexivity|].
    split; [apply agree_set_r; [eapply agree_step; eauto; lia|simpl; lia]|]. simpl. apply N.ltb_lt. lia.
  - simpl in He. destruct (eval rho s) as [[vs ts]|] eqn:Es; [|discriminate].
    destruct (eval rho r) as [[vr trr]|] eqn:Er; inversion He; subst; clear He.
    cbn [gen] in Hg. destruct (gen sg n s) as [[[ds es] n1] k1] eqn:Gs. destruct (gen sg n1 r) as [[[dr er] n2] k2] eqn:Gr.
    injection Hg as <- <- <- Hk. apply andb_true_iff in Hk as [-> ->].
    pose proof (gen_mono _ _ _ _ _ _ _ Gs) as L1.
    destruct (IHs _ _ _ _ _ _ _ _ _ HR Es Gs) as (F1 & ts1 & ts2 & X1 & P1 & -> & A1 & N1).
    destruct (IHr _ _ _ _ _ _ _ _ _ (R_mono _ _ _ _ _ _ HR L1 A1) Er Gr) as (F2 & tr1 & tr2 & X2 & P2 & -> & A2 & N2).
    exists F2, ((ts1 ++ ts2) ++ tr1), tr2.
    split; [rewrite exec_app, X1; cbn [app]; rewrite exec_cons, exec1_expr, P1, X2, !app_assoc; reflexivity|].
    split; [exact P2|]. split; [rewrite !app_assoc; reflexivity|]. split; [eapply agree_step; eauto|exact N2].
  - simpl in He. destruct (eval rho i) as [[vi ti]|] eqn:Ei; [|discriminate].
    destruct (eval (upd rho x vi) b) as [[vb tb]|] eqn:Eb; inversion He; subst; clear He.
    cbn [gen] in Hg. destruct (gen sg n i) as [[[di ei] n1] k1] eqn:Gi.
    destruct (gen (upd sg x (NLocal x n1)) (n1 + 1) b) as [[[db eb] n2] k2] eqn:Gb.
    injection Hg as <- <- <- Hk. apply andb_true_iff in Hk as [-> ->].
    pose proof (gen_mono _ _ _ _ _ _ _ Gi) as L1.
    destruct (IHi _ _ _ _ _ _ _ _ _ HR Ei Gi) as (F1 & ti1 & ti2 & X1 & P1 & -> & A1 & N1).
    destruct (IHb _ _ _ _ _ _ _ _ _ (R_let _ _ _ _ x vi n1 F1 HR L1 A1) Eb Gb)
      as (F2 & tb1 & tb2 & X2 & P2 & -> & A2 & N2).
    exists F2, ((ti1 ++ ti2) ++ tb1), tb2.
    split; [rewrite exec_app, X1; cbn [app]; rewrite exec_cons, exec1_assign, P1, X2, !app_assoc; reflexivity|].
    split; [exact P2|]. split; [rewrite !app_assoc; reflexivity|].
    split; [eapply agree_step; [|exact A2|]; [apply agree_set_r; [exact A1|]|]; simpl; lia|exact N2].
  - rewrite eval_call in He. destruct (eval_list rho args) as [[vs ta]|] eqn:Ea; [|discriminate].
    destruct (apply_prim f vs) as [[vr tp]|] eqn:Ep; inversion He; subst; clear He.
    rewrite gen_call in Hg. destruct (gen_list sg n args) as [[[ds es] n1] k1] eqn:Gl. inversion Hg; subst; clear Hg.
    destruct (sim_core_list_of args IHargs _ _ _ _ _ _ _ _ _ HR Ea Gl) as (F1 & t1 & t2 & X1 & P1 & -> & A1 & N1).
    exists F1, t1, (t2 ++ tp). rewrite peval_call, P1, Ep, app_assoc. auto.
Qed.

Definition sim (e : expr) : Prop :=
  forall sg n rho F v tr d pe n' k,
    R rho sg F n -> eval rho e = Some (v, tr) -> gen sg n e = (d, pe, n', k) -> k = true ->
    exists F' t1 t2,
      exec F d = Some (F', t1) /\ peval F' pe = Some (v, t2) /\ tr = t1 ++ t2 /\
      n <= n' /\ agree_below n F F' /\ nb n' pe = true /\ (quiet d = true -> t1 = []).

Theorem sim_all : forall e, sim e.
Proof.
  intros e sg n rho F v tr d pe n' k HR He Hg ->.
  destruct (sim_core_all e _ _ _ _ _ _ _ _ _ HR He Hg) as (F' & t1 & t2 & X & P & T & A & Nb).
  exists F', t1, t2. repeat split; auto. eapply gen_mono; eauto. intro Hq. eapply quiet_nt; eauto.
Qed.
