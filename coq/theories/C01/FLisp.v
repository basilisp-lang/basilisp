(** C01/C02 full fragment: source language and its evaluation rules (the specification).
    Special forms: quote/constants, if, do, let*, fn* (single arity, closures), invoke,
    loop*/recur (also recur to a fn), try/catch/finally, throw, def, collection literals,
    calls of runtime primitives.  A definitional interpreter on explicit fuel. *)
From Coq Require Import List ZArith NArith Bool.
Import ListNotations.

Inductive const := KNil | KBool (b : bool) | KInt (z : Z) | KVec (l : list const).

(** runtime primitives available to programs: the tracing function, vector, conj, inc, <,
    an exception constructor (class id) *)
Inductive prim := PTrace | PVec | PConj | PInc | PLt | PMkExc (cls : N).

Inductive expr :=
| EConst (k : const)
| ELocal (x : N)
| EGlobal (g : N)
| EDef (g : N) (init : expr)
| EIf (c t e : expr)
| EDo (s r : expr)
| ELet (x : N) (i b : expr)
| EFn (self : option N) (params : list N) (body : expr)
| EInvoke (f : expr) (args : list expr)
| EPrim (p : prim) (args : list expr)
| ELoop (binds : list (N * expr)) (body : expr)
| ERecur (args : list expr)
| EThrow (e : expr)
| ETry (body : expr) (handler : option (N * N * expr)) (fin : option expr)   (* (class, local, body) *)
| EVecLit (l : list expr).

(** observable form of values: what the harness can see of a result *)
Inductive obs :=
| ONil | OBool (b : bool) | OInt (z : Z) | OVec (l : list obs) | OFn | OExc (cls : N) (payload : obs)
| OVar (g : N).

Inductive value :=
| VNil | VBool (b : bool) | VInt (z : Z) | VVec (l : list value)
| VClo (rho : list (N * value)) (self : option N) (params : list N) (body : expr)
| VExc (cls : N) (payload : value)
| VVar (g : N).

Fixpoint obs_of (v : value) : obs :=
  match v with
  | VNil => ONil | VBool b => OBool b | VInt z => OInt z
  | VVec l => OVec (map obs_of l)
  | VClo _ _ _ _ => OFn
  | VExc c p => OExc c (obs_of p)
  | VVar g => OVar g
  end.

Fixpoint of_const (k : const) : value :=
  match k with
  | KNil => VNil | KBool b => VBool b | KInt z => VInt z
  | KVec l => VVec (map of_const l)
  end.

Definition falsey (v : value) : bool :=
  match v with VNil => true | VBool false => true | _ => false end.

(** exception classes: 0 = Exception (catches everything), others match exactly *)
Definition CLS_EXCEPTION : N := 0.
Definition CLS_VALUE : N := 1.
Definition CLS_TYPE : N := 2.
Definition CLS_NAME : N := 3.
Definition CLS_KEY : N := 4.
Definition catches (handler_cls exc_cls : N) : bool := N.eqb handler_cls 0 || N.eqb handler_cls exc_cls.

Record state := { tr : list obs; globals : list (N * value) }.

Inductive outcome :=
| Val (v : value)
| Exc (v : value)
| Rec (vs : list value)
| Fuel
| Stuck.

Fixpoint lookup {A} (l : list (N * A)) (x : N) : option A :=
  match l with
  | [] => None
  | (y, a) :: r => if N.eqb x y then Some a else lookup r x
  end.

Definition add_trace (s : state) (o : obs) : state := {| tr := tr s ++ [o]; globals := globals s |}.
Definition set_global (s : state) (g : N) (v : value) : state :=
  {| tr := tr s; globals := (g, v) :: globals s |}.

Definition apply_prim (p : prim) (vs : list value) (s : state) : outcome * state :=
  match p, vs with
  | PTrace, [v] => (Val v, add_trace s (obs_of v))
  | PVec, _ => (Val (VVec vs), s)
  | PConj, [VVec l; v] => (Val (VVec (l ++ [v])), s)
  | PInc, [VInt z] => (Val (VInt (z + 1)), s)
  | PLt, [VInt a; VInt b] => (Val (VBool (Z.ltb a b)), s)
  | PMkExc c, [v] => (Val (VExc c v), s)
  | _, _ => (Stuck, s)
  end.

Fixpoint bind_params (ps : list N) (vs : list value) (rho : list (N * value)) : option (list (N * value)) :=
  match ps, vs with
  | [], [] => Some rho
  | p :: ps', v :: vs' => bind_params ps' vs' ((p, v) :: rho)
  | _, _ => None
  end.

Section Eval.
  (** [evals]: evaluate a list left to right; stops at the first non-value outcome. *)
  Variable eval : list (N * value) -> expr -> state -> outcome * state.

  Fixpoint evals (rho : list (N * value)) (l : list expr) (s : state) : (outcome * list value) * state :=
    match l with
    | [] => ((Val VNil, []), s)
    | a :: r =>
        match eval rho a s with
        | (Val v, s1) =>
            match evals rho r s1 with
            | ((Val _, vs), s2) => ((Val VNil, v :: vs), s2)
            | other => other
            end
        | (o, s1) => ((o, []), s1)
        end
    end.

  (** loop bindings: sequential, each init sees the previous ones *)
  Fixpoint eval_binds (rho : list (N * value)) (l : list (N * expr)) (s : state)
    : (outcome * list (N * value)) * state :=
    match l with
    | [] => ((Val VNil, rho), s)
    | (x, i) :: r =>
        match eval rho i s with
        | (Val v, s1) => eval_binds ((x, v) :: rho) r s1
        | (o, s1) => ((o, rho), s1)
        end
    end.
End Eval.

Fixpoint rebind (xs : list N) (vs : list value) (rho : list (N * value)) : option (list (N * value)) :=
  match xs, vs with
  | [], [] => Some rho
  | x :: xs', v :: vs' => rebind xs' vs' ((x, v) :: rho)
  | _, _ => None
  end.

Fixpoint eval (fuel : nat) (rho : list (N * value)) (e : expr) (s : state) : outcome * state :=
  match fuel with
  | O => (Fuel, s)
  | S n =>
      let ev := eval n in
      match e with
      | EConst k => (Val (of_const k), s)
      | ELocal x => match lookup rho x with Some v => (Val v, s) | None => (Stuck, s) end
      | EGlobal g => match lookup (globals s) g with Some v => (Val v, s) | None => (Stuck, s) end
      | EDef g i =>
          match ev rho i s with
          | (Val v, s1) => (Val (VVar g), set_global s1 g v)
          | other => other
          end
      | EIf c t e =>
          match ev rho c s with
          | (Val vc, s1) => if falsey vc then ev rho e s1 else ev rho t s1
          | other => other
          end
      | EDo a b =>
          match ev rho a s with
          | (Val _, s1) => ev rho b s1
          | other => other
          end
      | ELet x i b =>
          match ev rho i s with
          | (Val v, s1) => ev ((x, v) :: rho) b s1
          | other => other
          end
      | EFn self ps body => (Val (VClo rho self ps body), s)
      | EInvoke f args =>
          match ev rho f s with
          | (Val vf, s1) =>
              match evals ev rho args s1 with
              | ((Val _, vs), s2) => call n vf vs s2
              | ((o, _), s2) => (o, s2)
              end
          | other => other
          end
      | EPrim p args =>
          match evals ev rho args s with
          | ((Val _, vs), s1) => apply_prim p vs s1
          | ((o, _), s1) => (o, s1)
          end
      | ELoop binds body =>
          match eval_binds ev rho binds s with
          | ((Val _, rho1), s1) => loop n (map fst binds) rho1 body s1
          | ((o, _), s1) => (o, s1)
          end
      | ERecur args =>
          match evals ev rho args s with
          | ((Val _, vs), s1) => (Rec vs, s1)
          | ((o, _), s1) => (o, s1)
          end
      | EThrow e =>
          match ev rho e s with
          | (Val v, s1) => (Exc v, s1)
          | other => other
          end
      | ETry body handler fin =>
          let r1 :=
            match ev rho body s with
            | (Exc (VExc c p), s1) =>
                match handler with
                | Some (hc, x, hb) =>
                    if catches hc c then ev ((x, VExc c p) :: rho) hb s1 else (Exc (VExc c p), s1)
                | None => (Exc (VExc c p), s1)
                end
            | other => other
            end in
          match fin with
          | None => r1
          | Some f =>
              match r1 with
              | (Fuel, s1) => (Fuel, s1)
              | (Stuck, s1) => (Stuck, s1)
              | (o, s1) =>
                  match ev rho f s1 with
                  | (Val _, s2) => (o, s2)
                  | other => other
                  end
              end
          end
      | EVecLit l =>
          match evals ev rho l s with
          | ((Val _, vs), s1) => (Val (VVec vs), s1)
          | ((o, _), s1) => (o, s1)
          end
      end
  end

with call (fuel : nat) (vf : value) (vs : list value) (s : state) : outcome * state :=
  match fuel with
  | O => (Fuel, s)
  | S n =>
      match vf with
      | VClo rho self ps body =>
          let rho0 := match self with Some f => (f, vf) :: rho | None => rho end in
          match bind_params ps vs rho0 with
          | Some rho1 =>
              match eval n rho1 body s with
              | (Rec vs', s1) => call n vf vs' s1        (* recur to the fn: rebind all params *)
              | other => other
              end
          | None => (Exc (VExc CLS_TYPE VNil), s)        (* wrong number of arguments *)
          end
      | _ => (Stuck, s)
      end
  end

with loop (fuel : nat) (xs : list N) (rho : list (N * value)) (body : expr) (s : state) : outcome * state :=
  match fuel with
  | O => (Fuel, s)
  | S n =>
      match eval n rho body s with
      | (Rec vs, s1) =>
          match rebind xs vs rho with
          | Some rho1 => loop n xs rho1 body s1          (* all loop locals rebound simultaneously *)
          | None => (Stuck, s1)
          end
      | other => other
      end
  end.

Definition init_state : state := {| tr := []; globals := [] |}.

(** result of a whole program: observable outcome, trace *)
Inductive result :=
| RVal (o : obs) (t : list obs)
| RExc (cls : N) (t : list obs)
| RFuel
| RStuck.

Definition run_spec (fuel : nat) (e : expr) : result :=
  match eval fuel [] e init_state with
  | (Val v, s) => RVal (obs_of v) (tr s)
  | (Exc (VExc c _), s) => RExc c (tr s)
  | (Exc _, _) => RStuck
  | (Rec _, _) => RStuck
  | (Fuel, _) => RFuel
  | (Stuck, _) => RStuck
  end.
