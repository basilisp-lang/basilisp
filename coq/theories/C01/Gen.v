(** Model of the code generator (generator.py) for the first-order core: every node
    yields (dependency statements, expression); dependencies of the sub-expressions of a
    call are concatenated and emitted before the call expression (_chain_py_ast,
    _collection_ast, _invoke_to_py_ast); `if` assigns a test and a result temporary
    (_if_to_py_ast); `let*` locals get a fresh Python name genname(munge(x))
    (_let_to_py_ast); `do` statementizes all but the last form (_do_to_py_ast).
    The fourth component is the hoisting-hazard flag (true = no hazard). *)
From Coq Require Import List NArith Bool.
Import ListNotations.
From Verif Require Import C01.Lisp C01.Py.

Definition senv := N -> option pname.

Definition atomic (e : pexpr) : bool :=
  match e with PCall _ _ => false | _ => true end.

(** not a call (the same test as [atomic]) *)
Definition quiet_e (e : pexpr) : bool :=
  match e with PCall _ _ => false | _ => true end.

Definition quiet_with (q : stmt -> bool) : list stmt -> bool :=
  fix go (l : list stmt) : bool := match l with [] => true | s :: r => q s && go r end.

Fixpoint quiet1 (s : stmt) : bool :=
  match s with
  | SAssign _ e => quiet_e e
  | SExpr e => quiet_e e
  | SIf _ fb tb => quiet_with quiet1 fb && quiet_with quiet1 tb
  end.

Definition quiet (l : list stmt) : bool := quiet_with quiet1 l.

Lemma quiet_cons s r : quiet (s :: r) = quiet1 s && quiet r.
Proof. reflexivity. Qed.

Lemma quiet_app a b : quiet (a ++ b) = quiet a && quiet b.
Proof. exact (forallb_app quiet1 a b). Qed.

Definition out := (list stmt * pexpr * N * bool)%type.

Definition gen_args (g : N -> expr -> out) : list expr -> N -> list stmt * list pexpr * N * bool :=
  fix go (l : list expr) (n : N) :=
    match l with
    | [] => ([], [], n, true)
    | a :: r =>
        let '(d, e, n1, k1) := g n a in
        let '(ds, es, n2, k2) := go r n1 in
        (d ++ ds, e :: es, n2, k1 && k2 && (atomic e || quiet ds))
    end.

Fixpoint gen (sg : senv) (n : N) (e : expr) : out :=
  match e with
  | EConst v => ([], PConst v, n, true)
  | ELocal x => ([], PName (match sg x with Some p => p | None => NLocal x 0 end), n, true)
  | EIf c t e =>
      let '(dc, ec, n1, k1) := gen sg n c in
      let test := NTemp n1 in
      let res := NTemp (n1 + 1) in
      let '(dt, et, n2, k2) := gen sg (n1 + 2) t in
      let '(de, ee, n3, k3) := gen sg n2 e in
      (dc ++ [SAssign test ec; SIf test (de ++ [SAssign res ee]) (dt ++ [SAssign res et])],
       PName res, n3, k1 && k2 && k3)
  | EDo s r =>
      let '(ds, es, n1, k1) := gen sg n s in
      let '(dr, er, n2, k2) := gen sg n1 r in
      (ds ++ [SExpr es] ++ dr, er, n2, k1 && k2)
  | ELet x i b =>
      let '(di, ei, n1, k1) := gen sg n i in
      let p := NLocal x n1 in
      let '(db, eb, n2, k2) := gen (upd sg x p) (n1 + 1) b in
      (di ++ [SAssign p ei] ++ db, eb, n2, k1 && k2)
  | ECall f args =>
      let '(ds, es, n', k) := gen_args (fun n a => gen sg n a) args n in
      (ds, PCall f es, n', k)
  end.

Definition gen_list (sg : senv) (n : N) (l : list expr) := gen_args (gen sg) l n.

Lemma gen_list_cons sg n a r :
  gen_list sg n (a :: r) =
    let '(d, e, n1, k1) := gen sg n a in
    let '(ds, es, n2, k2) := gen_list sg n1 r in
    (d ++ ds, e :: es, n2, k1 && k2 && (atomic e || quiet ds)).
Proof. reflexivity. Qed.

Lemma gen_call sg n f args :
  gen sg n (ECall f args) =
    let '(ds, es, n', k) := gen_list sg n args in (ds, PCall f es, n', k).
Proof. reflexivity. Qed.

(** Whole programs: compile a closed expression at top level and run it in an empty frame. *)
Definition hazard_free (e : expr) : bool :=
  let '(_, _, _, k) := gen (fun _ => None) 0 e in k.

Definition run (e : expr) : option (value * trace) :=
  let '(d, pe, _, _) := gen (fun _ => None) 0 e in
  match exec (fun _ => None) d with
  | Some (F, t1) => match peval F pe with Some (v, t2) => Some (v, t1 ++ t2) | None => None end
  | None => None
  end.
