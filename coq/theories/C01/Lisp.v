(** C01/C02 source language (first-order core) and its evaluation rules.
    Effects: the primitive [PTrace] (the harness's tracing function [t]) appends its
    argument to the trace and returns it. *)
From Coq Require Import List ZArith.
Import ListNotations.

Inductive value :=
| VNil
| VBool (b : bool)
| VInt (z : Z)
| VVec (l : list value)
| VExc (cls : N) (payload : value).   (* an exception object (used by the C01X extension) *)

Inductive prim := PTrace | PVec | PConj | PInc | PLt | PMkExc (cls : N).

Definition trace := list value.

Inductive expr :=
| EConst (v : value)
| ELocal (x : N)
| EIf (c t e : expr)
| EDo (s r : expr)                    (* (do s r); n-ary do is nested *)
| ELet (x : N) (i b : expr)           (* (let* [x i] b); several bindings are nested *)
| ECall (f : prim) (args : list expr).

(** only nil and false are falsey *)
Definition falsey (v : value) : bool :=
  match v with VNil => true | VBool false => true | _ => false end.

Definition apply_prim (f : prim) (vs : list value) : option (value * trace) :=
  match f, vs with
  | PTrace, [v] => Some (v, [v])
  | PTrace, _ => None                 (* arity error: outside the well-formed fragment *)
  | PVec, _ => Some (VVec vs, [])
  | PConj, [VVec l; v] => Some (VVec (l ++ [v]), [])
  | PInc, [VInt z] => Some (VInt (z + 1), [])
  | PLt, [VInt a; VInt b] => Some (VBool (Z.ltb a b), [])
  | PMkExc c, [v] => Some (VExc c v, [])
  | _, _ => None                      (* ill-typed call: outside the well-formed fragment *)
  end.

Definition env := N -> option value.
Definition upd {A} (f : N -> option A) (x : N) (a : A) : N -> option A :=
  fun y => if N.eqb y x then Some a else f y.

(** Evaluation rules: lexical scope with shadowing, left-to-right, each sub-expression on
    the taken path exactly once. *)
Fixpoint eval (rho : env) (e : expr) : option (value * trace) :=
  match e with
  | EConst v => Some (v, [])
  | ELocal x => match rho x with Some v => Some (v, []) | None => None end
  | EIf c t e =>
      match eval rho c with
      | Some (vc, t1) =>
          match (if falsey vc then eval rho e else eval rho t) with
          | Some (v, t2) => Some (v, t1 ++ t2)
          | None => None
          end
      | None => None
      end
  | EDo s r =>
      match eval rho s with
      | Some (_, t1) => match eval rho r with Some (v, t2) => Some (v, t1 ++ t2) | None => None end
      | None => None
      end
  | ELet x i b =>
      match eval rho i with
      | Some (vi, t1) =>
          match eval (upd rho x vi) b with Some (v, t2) => Some (v, t1 ++ t2) | None => None end
      | None => None
      end
  | ECall f args =>
      match (fix go (l : list expr) : option (list value * trace) :=
               match l with
               | [] => Some ([], [])
               | a :: r =>
                   match eval rho a with
                   | Some (v, t1) =>
                       match go r with Some (vs, t2) => Some (v :: vs, t1 ++ t2) | None => None end
                   | None => None
                   end
               end) args with
      | Some (vs, t1) =>
          match apply_prim f vs with Some (v, t2) => Some (v, t1 ++ t2) | None => None end
      | None => None
      end
  end.

Fixpoint eval_list (rho : env) (l : list expr) : option (list value * trace) :=
  match l with
  | [] => Some ([], [])
  | a :: r =>
      match eval rho a with
      | Some (v, t1) =>
          match eval_list rho r with Some (vs, t2) => Some (v :: vs, t1 ++ t2) | None => None end
      | None => None
      end
  end.

Lemma eval_call rho f args :
  eval rho (ECall f args) =
    match eval_list rho args with
    | Some (vs, t1) =>
        match apply_prim f vs with Some (v, t2) => Some (v, t1 ++ t2) | None => None end
    | None => None
    end.
Proof.
  cbn [eval].
  match goal with |- match ?g args with _ => _ end = _ =>
    assert (E : forall l, g l = eval_list rho l) end.
  { induction l as [|a r IH]; [reflexivity|]. cbn [eval_list]. rewrite <- IH. reflexivity. }
  rewrite E. reflexivity.
Qed.

(** induction principle that reaches the arguments of calls *)
Section ExprInd.
  Variable P : expr -> Prop.
  Hypothesis HConst : forall v, P (EConst v).
  Hypothesis HLocal : forall x, P (ELocal x).
  Hypothesis HIf : forall c t e, P c -> P t -> P e -> P (EIf c t e).
  Hypothesis HDo : forall s r, P s -> P r -> P (EDo s r).
  Hypothesis HLet : forall x i b, P i -> P b -> P (ELet x i b).
  Hypothesis HCall : forall f args, Forall P args -> P (ECall f args).

  Fixpoint expr_ind' (e : expr) : P e :=
    match e with
    | EConst v => HConst v
    | ELocal x => HLocal x
    | EIf c t e => HIf c t e (expr_ind' c) (expr_ind' t) (expr_ind' e)
    | EDo s r => HDo s r (expr_ind' s) (expr_ind' r)
    | ELet x i b => HLet x i b (expr_ind' i) (expr_ind' b)
    | ECall f args =>
        HCall f args ((fix go (l : list expr) : Forall P l :=
                         match l with
                         | [] => Forall_nil P
                         | a :: r => Forall_cons a (expr_ind' a) (go r)
                         end) args)
    end.
End ExprInd.
