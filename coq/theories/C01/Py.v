(** The Python subset emitted by the generator for the first-order core, with its
    semantics: one frame mapping Python names to values (no closures in this fragment). *)
From Coq Require Import List NArith Bool.
Import ListNotations.
From Verif Require Import C01.Lisp.

(** Python names are structured: genname(munge(x)) = (x, counter); temporaries
    (if_test_N, if_result_N) = counter only.  That textual names built this way do not
    collide is the job of munge/genname (C10) and is assumed here. *)
Inductive pname := NLocal (x : N) (i : N) | NTemp (i : N).
Definition idx (p : pname) : N := match p with NLocal _ i => i | NTemp i => i end.

Definition pname_eqb (a b : pname) : bool :=
  match a, b with
  | NLocal x i, NLocal y j => N.eqb x y && N.eqb i j
  | NTemp i, NTemp j => N.eqb i j
  | _, _ => false
  end.

Lemma pname_eqb_eq a b : pname_eqb a b = true <-> a = b.
Proof.
  destruct a as [x i|i], b as [y j|j]; simpl; rewrite ?andb_true_iff, ?N.eqb_eq; split; intro H;
    try discriminate.
  - destruct H; subst; reflexivity.
  - inversion H; auto.
  - subst; reflexivity.
  - inversion H; auto.
Qed.

Inductive pexpr :=
| PConst (v : value)
| PName (n : pname)
| PCall (f : prim) (args : list pexpr).

Inductive stmt :=
| SAssign (n : pname) (e : pexpr)
| SExpr (e : pexpr)
| SIf (test : pname) (falsey_branch truthy_branch : list stmt).
    (* if None is test or False is test: falsey_branch else: truthy_branch *)

Definition frame := pname -> option value.
Definition set (F : frame) (p : pname) (v : value) : frame :=
  fun q => if pname_eqb q p then Some v else F q.

Fixpoint peval (F : frame) (e : pexpr) : option (value * trace) :=
  match e with
  | PConst v => Some (v, [])
  | PName n => match F n with Some v => Some (v, []) | None => None end   (* NameError *)
  | PCall f args =>
      match (fix go (l : list pexpr) : option (list value * trace) :=
               match l with
               | [] => Some ([], [])
               | a :: r =>
                   match peval F a with
                   | Some (v, t1) =>
                       match go r with Some (vs, t2) => Some (v :: vs, t1 ++ t2) | None => None end
                   | None => None
                   end
               end) args with
      | Some (vs, t1) =>
          match apply_prim f vs with Some (v, t2) => Some (v, t1 ++ t2) | None => None end
      | None => None
      end
  end.

Fixpoint peval_list (F : frame) (l : list pexpr) : option (list value * trace) :=
  match l with
  | [] => Some ([], [])
  | a :: r =>
      match peval F a with
      | Some (v, t1) =>
          match peval_list F r with Some (vs, t2) => Some (v :: vs, t1 ++ t2) | None => None end
      | None => None
      end
  end.

Lemma peval_call F f args :
  peval F (PCall f args) =
    match peval_list F args with
    | Some (vs, t1) =>
        match apply_prim f vs with Some (v, t2) => Some (v, t1 ++ t2) | None => None end
    | None => None
    end.
Proof.
  cbn [peval].
  match goal with |- match ?g args with _ => _ end = _ =>
    assert (E : forall l, g l = peval_list F l) end.
  { induction l as [|a r IH]; [reflexivity|]. cbn [peval_list]. rewrite <- IH. reflexivity. }
  rewrite E. reflexivity.
Qed.

Fixpoint exec1 (F : frame) (s : stmt) : option (frame * trace) :=
  match s with
  | SAssign n e => match peval F e with Some (v, t) => Some (set F n v, t) | None => None end
  | SExpr e => match peval F e with Some (_, t) => Some (F, t) | None => None end
  | SIf test fb tb =>
      match F test with
      | Some v =>
          (fix go (F : frame) (l : list stmt) : option (frame * trace) :=
             match l with
             | [] => Some (F, [])
             | s :: r =>
                 match exec1 F s with
                 | Some (F1, t1) =>
                     match go F1 r with Some (F2, t2) => Some (F2, t1 ++ t2) | None => None end
                 | None => None
                 end
             end) F (if falsey v then fb else tb)
      | None => None
      end
  end.

Fixpoint exec (F : frame) (l : list stmt) : option (frame * trace) :=
  match l with
  | [] => Some (F, [])
  | s :: r =>
      match exec1 F s with
      | Some (F1, t1) =>
          match exec F1 r with Some (F2, t2) => Some (F2, t1 ++ t2) | None => None end
      | None => None
      end
  end.

Lemma exec1_if F test fb tb :
  exec1 F (SIf test fb tb) =
    match F test with
    | Some v => exec F (if falsey v then fb else tb)
    | None => None
    end.
Proof.
  simpl. destruct (F test) as [v|]; [|reflexivity].
  generalize (if falsey v then fb else tb). intro l. revert F.
  induction l as [|s r IH]; intro F; simpl; [reflexivity|].
  destruct (exec1 F s) as [[F1 t1]|]; [|reflexivity]. rewrite IH. reflexivity.
Qed.

Lemma exec_app F l1 l2 :
  exec F (l1 ++ l2) =
    match exec F l1 with
    | Some (F1, t1) => match exec F1 l2 with Some (F2, t2) => Some (F2, t1 ++ t2) | None => None end
    | None => None
    end.
Proof.
  revert F. induction l1 as [|s r IH]; intro F; simpl.
  - destruct (exec F l2) as [[F2 t2]|]; reflexivity.
  - destruct (exec1 F s) as [[F1 t1]|]; [|reflexivity].
    rewrite IH. destruct (exec F1 r) as [[F2 t2]|]; [|reflexivity].
    destruct (exec F2 l2) as [[F3 t3]|]; [|reflexivity]. rewrite app_assoc. reflexivity.
Qed.

Lemma exec_nil F : exec F [] = Some (F, []).
Proof. reflexivity. Qed.
Lemma exec_cons F s r :
  exec F (s :: r) =
    match exec1 F s with
    | Some (F1, t1) => match exec F1 r with Some (F2, t2) => Some (F2, t1 ++ t2) | None => None end
    | None => None
    end.
Proof. reflexivity. Qed.
Lemma exec1_assign F n e :
  exec1 F (SAssign n e) = match peval F e with Some (v, t) => Some (set F n v, t) | None => None end.
Proof. reflexivity. Qed.
Lemma exec1_expr F e :
  exec1 F (SExpr e) = match peval F e with Some (_, t) => Some (F, t) | None => None end.
Proof. reflexivity. Qed.

Lemma exec_single F s : exec F [s] = exec1 F s.
Proof. rewrite exec_cons. destruct (exec1 F s) as [[F1 t1]|]; [|reflexivity]. rewrite exec_nil, app_nil_r. reflexivity. Qed.

(** pexpr induction reaching call arguments *)
Section PexprInd.
  Variable P : pexpr -> Prop.
  Hypothesis HConst : forall v, P (PConst v).
  Hypothesis HName : forall n, P (PName n).
  Hypothesis HCall : forall f args, Forall P args -> P (PCall f args).
  Fixpoint pexpr_ind' (e : pexpr) : P e :=
    match e with
    | PConst v => HConst v
    | PName n => HName n
    | PCall f args =>
        HCall f args ((fix go (l : list pexpr) : Forall P l :=
                         match l with
                         | [] => Forall_nil P
                         | a :: r => Forall_cons a (pexpr_ind' a) (go r)
                         end) args)
    end.
End PexprInd.

Section StmtInd.
  Variable P : stmt -> Prop.
  Hypothesis HAssign : forall n e, P (SAssign n e).
  Hypothesis HExpr : forall e, P (SExpr e).
  Hypothesis HIf : forall t fb tb, Forall P fb -> Forall P tb -> P (SIf t fb tb).
  Fixpoint stmt_ind' (s : stmt) : P s :=
    match s with
    | SAssign n e => HAssign n e
    | SExpr e => HExpr e
    | SIf t fb tb =>
        let go := fix go (l : list stmt) : Forall P l :=
          match l with [] => Forall_nil P | a :: r => Forall_cons a (stmt_ind' a) (go r) end in
        HIf t fb tb (go fb) (go tb)
    end.
End StmtInd.
