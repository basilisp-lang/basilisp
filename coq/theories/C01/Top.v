(** Whole-program statements for the first-order core. *)
From Coq Require Import List ZArith.
Import ListNotations.
From Verif Require Import C01.Lisp C01.Gen C01.Sim.

Local Open Scope N_scope.

Lemma R_empty : R (fun _ => None) (fun _ => None) (fun _ => None) 0.
Proof. intros x v H; discriminate. Qed.

(** Compiling and running a hazard-free program yields the value and the effect trace
    its evaluation rules prescribe. *)
Theorem compile_correct e v tr :
  eval (fun _ => None) e = Some (v, tr) -> hazard_free e = true -> run e = Some (v, tr).
Proof.
  intros He Hh. unfold hazard_free, run in *.
  destruct (gen (fun _ => None) 0 e) as [[[d pe] n'] k] eqn:G. subst k.
  destruct (sim_all e _ _ _ _ _ _ _ _ _ _ R_empty He G eq_refl)
    as (F' & t1 & t2 & X & P & T & _).
  rewrite X, P, T. reflexivity.
Qed.

(** One-hole contexts: the syntactic positions of the property (call argument among
    other arguments, let init, let body, if test, if branches, statement position, do result),
    nested to any depth. *)
Inductive ctx :=
| CHole
| CIfTest (c : ctx) (t e : expr) | CIfThen (c0 : expr) (c : ctx) (e : expr) | CIfElse (c0 t : expr) (c : ctx)
| CDoStmt (c : ctx) (r : expr) | CDoRet (s : expr) (c : ctx)
| CLetInit (x : N) (c : ctx) (b : expr) | CLetBody (x : N) (i : expr) (c : ctx)
| CArg (f : prim) (before : list expr) (c : ctx) (after : list expr).

Fixpoint plug (c : ctx) (p : expr) : expr :=
  match c with
  | CHole => p
  | CIfTest c t e => EIf (plug c p) t e
  | CIfThen c0 c e => EIf c0 (plug c p) e
  | CIfElse c0 t c => EIf c0 t (plug c p)
  | CDoStmt c r => EDo (plug c p) r
  | CDoRet s c => EDo s (plug c p)
  | CLetInit x c b => ELet x (plug c p) b
  | CLetBody x i c => ELet x i (plug c p)
  | CArg f before c after => ECall f (before ++ plug c p :: after)
  end.

(** The hazard is real: dependencies of a later argument are hoisted above the inline
    expression of an earlier one.  (vector (t 1) (let* [x (t 2)] x)) *)
Definition hoist_witness : expr :=
  ECall PVec [ECall PTrace [EConst (VInt 1)];
              ELet 0 (ECall PTrace [EConst (VInt 2)]) (ELocal 0)].

Theorem hoist_refuted :
  exists e v tr tr', eval (fun _ => None) e = Some (v, tr) /\ run e = Some (v, tr') /\ tr <> tr'.
Proof.
  exists hoist_witness, (VVec [VInt 1; VInt 2]), [VInt 1; VInt 2], [VInt 2; VInt 1].
  split; [vm_compute; reflexivity|]. split; [vm_compute; reflexivity|]. discriminate.
Qed.

(** non-vacuity: a nested program with shadowing, an `if` in argument position and a
    `let` whose init is effectful is hazard free and evaluates *)
Definition sample : expr :=
  ELet 0 (ECall PTrace [EConst (VInt 1)])
    (ELet 0 (ECall PVec [ELocal 0; EIf (ELocal 0) (EConst (VInt 2)) (EConst VNil)])
       (EDo (ECall PTrace [ELocal 0]) (EIf (EConst (VInt 0)) (ELocal 0) (EConst VNil)))).

Example sample_ok :
  hazard_free sample = true /\
  eval (fun _ => None) sample = Some (VVec [VInt 1; VInt 2], [VInt 1; VVec [VInt 1; VInt 2]]).
Proof. split; vm_compute; reflexivity. Qed.

(** truthiness: the compiled `if` takes the else branch exactly for nil and false *)
Theorem truthiness v a b :
  run (EIf (EConst v) (EConst a) (EConst b)) = Some (if falsey v then b else a, []).
Proof. destruct v as [| [|] | z | l | c p]; vm_compute; reflexivity. Qed.
