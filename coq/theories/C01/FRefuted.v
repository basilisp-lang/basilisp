(** Kernel-checked witnesses that the faithful model of the generator + Python's scoping
    violates C01 outside the hazard-free fragment (each witness is replayed on the real
    compiler on every run: known_findings.json F-01a/c/d). *)
From Coq Require Import List ZArith.
Import ListNotations.
From Verif Require Import C01.FCorr.
Local Open Scope N_scope.

Definition k z := EConst (KInt z).

(** (loop* [i 0 f nil] (if (< i 2) (recur (inc i) (if f f (fn* [] i))) (f))) *)
Definition w_loop := ELoop [(4, k 0); (8, EConst KNil)]
  (EIf (EPrim PLt [ELocal 4; k 2])
       (ERecur [EPrim PInc [ELocal 4]; EIf (ELocal 8) (ELocal 8) (EFn None [] (ELocal 4))])
       (EInvoke (ELocal 8) [])).

Theorem loop_capture_refuted :
  exists e, spec e = RVal (OInt 0) [] /\ model e = RVal (OInt 2) [] /\ tag e = 2.
Proof. exists w_loop. repeat split; vm_compute; reflexivity. Qed.

(** (loop* [i 0 f nil] (let* [n i] (if (< i 2) (recur (inc i) (if f f (fn* [] n))) (f)))) *)
Definition w_let_in_loop := ELoop [(4, k 0); (8, EConst KNil)]
  (ELet 12 (ELocal 4) (EIf (EPrim PLt [ELocal 4; k 2])
       (ERecur [EPrim PInc [ELocal 4]; EIf (ELocal 8) (ELocal 8) (EFn None [] (ELocal 12))])
       (EInvoke (ELocal 8) []))).

Theorem let_in_loop_capture_refuted :
  exists e, spec e = RVal (OInt 0) [] /\ model e = RVal (OInt 2) [] /\ tag e = 2.
Proof. exists w_let_in_loop. repeat split; vm_compute; reflexivity. Qed.

(** ((fn* [a-b] ((fn* [a_b] a-b) 2)) 1) *)
Definition w_munge := EInvoke (EFn None [0] (EInvoke (EFn None [1] (ELocal 0)) [k 2])) [k 1].

Theorem param_munge_shadow_refuted :
  exists e, spec e = RVal (OInt 1) [] /\ model e = RVal (OInt 2) [] /\ tag e = 4.
Proof. exists w_munge. repeat split; vm_compute; reflexivity. Qed.

(** ((fn* [a-b a_b] a-b) 1 2): Python rejects the generated def *)
Definition w_munge_dup := EInvoke (EFn None [0; 1] (ELocal 0)) [k 1; k 2].
Theorem param_munge_duplicate_refuted :
  exists e, spec e = RVal (OInt 1) [] /\ model e = RExc CLS_SYNTAX [] /\ tag e = 4.
Proof. exists w_munge_dup. repeat split; vm_compute; reflexivity. Qed.

(** (let* [f (try (throw (python/ValueError 7)) (catch python/Exception e (fn* [] e)))] (f)) *)
Definition w_catch := ELet 8 (ETry (EThrow (EPrim (PMkExc 1) [k 7])) (Some (0, 10, EFn None [] (ELocal 10))) None)
   (EInvoke (ELocal 8) []).

Theorem catch_var_capture_refuted :
  exists e, spec e = RVal (OExc 1 (OInt 7)) [] /\ model e = RExc CLS_NAME [] /\ tag e = 8.
Proof. exists w_catch. repeat split; vm_compute; reflexivity. Qed.

(** [(t 1) (let* [x (t 2)] x)] in the full model as well *)
Definition w_hoist := EVecLit [EPrim PTrace [k 1]; ELet 0 (EPrim PTrace [k 2]) (ELocal 0)].
Theorem hoist_refuted_full :
  exists e, spec e = RVal (OVec [OInt 1; OInt 2]) [OInt 1; OInt 2]
            /\ model e = RVal (OVec [OInt 1; OInt 2]) [OInt 2; OInt 1] /\ tag e = 1.
Proof. exists w_hoist. repeat split; vm_compute; reflexivity. Qed.

(** (loop* [i 0] (try (if (< i 2) (recur (inc i)) i) (finally (t i)))) *)
Definition w_recur_try := ELoop [(4, k 0)]
  (ETry (EIf (EPrim PLt [ELocal 4; k 2]) (ERecur [EPrim PInc [ELocal 4]]) (ELocal 4)) None
        (Some (EPrim PTrace [ELocal 4]))).
Theorem recur_in_try_refuted :
  exists e, spec e = RVal (OInt 2) [OInt 0; OInt 1; OInt 2]
            /\ model e = RVal (OInt 2) [OInt 1; OInt 2; OInt 2] /\ tag e = 16.
Proof. exists w_recur_try. repeat split; vm_compute; reflexivity. Qed.

(** agreement on a program using def, a named trampolined fn, conj, try/finally:
    (do (def g0 (fn* f [a-b x?] (if (< a-b 3) (recur (inc a-b) (conj x? (t a-b))) x?)))
        (try (g0 0 []) (finally (t 99)))) *)
Definition w_ok := EDo (EDef 0 (EFn (Some 8) [0; 2]
     (EIf (EPrim PLt [ELocal 0; k 3]) (ERecur [EPrim PInc [ELocal 0]; EPrim PConj [ELocal 2; EPrim PTrace [ELocal 0]]]) (ELocal 2))))
   (ETry (EInvoke (EGlobal 0) [k 0; EVecLit []]) None (Some (EPrim PTrace [k 99]))).

Example full_model_agrees_sample :
  spec w_ok = RVal (OVec [OInt 0; OInt 1; OInt 2]) [OInt 0; OInt 1; OInt 2; OInt 99]
  /\ model w_ok = spec w_ok /\ tag w_ok = 0.
Proof. repeat split; vm_compute; reflexivity. Qed.
