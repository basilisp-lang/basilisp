(** C10 extension -- thread bindings: proofs over ALL histories.

    One invariant ties three readings of a history together: the model of the code (per-Var
    stores + the thread's frame stack, C10/BNames.v), the reference semantics (one stack of
    frames, C10/BSpec.v) and the history-level reading [open_frames]:
      the store of Var k = the values of the open frames of k whose Var has kept its dynamic
      marking since they were entered, innermost first. *)
From Coq Require Import List NArith Bool.
Import ListNotations.
From Verif Require Import Common.ListX C10.Proofs C10.Theorems C10.BNames.
Local Open Scope N_scope.

Definition dynof (st : sstate) (k : key) : option bool :=
  option_map (fun r => f_dyn (v_flags r)) (aget k (s_vars st)).

Lemma is_dynamic_dynof st k : is_dynamic st k = match dynof st k with Some b => b | None => false end.
Proof. unfold is_dynamic, dynof. destruct (aget k (s_vars st)); reflexivity. Qed.

Lemma dynof_sexec st s0 k :
  dynof (fst (sexec st s0)) k =
  match s0 with
  | SDef n fl _ => if key_eqb k (s_cur st, n) then Some (f_dyn fl) else dynof st k
  | _ => dynof st k
  end.
Proof.
  unfold dynof. rewrite aget_vars_sexec. destruct s0; try reflexivity.
  - destruct (key_eqb _ _); reflexivity.
  - destruct (key_eqb _ _); [destruct (aget k (s_vars st))|]; reflexivity.
Qed.

Lemma is_dynamic_sexec_other st s0 k :
  (forall n fl v, s0 = SDef n fl v -> key_eqb k (s_cur st, n) = false) ->
  is_dynamic (fst (sexec st s0)) k = is_dynamic st k.
Proof.
  intro H. rewrite !is_dynamic_dynof, dynof_sexec. destruct s0; try reflexivity.
  rewrite (H _ _ _ eq_refl). reflexivity.
Qed.

Lemma stack_of_aset b k s f k' :
  stack_of (mkB (aset k s (stacks b)) f) k' = if key_eqb k' k then s else stack_of b k'.
Proof. unfold stack_of. simpl. rewrite ?aget_aset. destruct (key_eqb k' k); reflexivity. Qed.

Lemma hstep_tracks st a s0 :
  h_cur a = s_cur st -> (forall k, aget k (h_dyn a) = dynof st k) ->
  h_cur (hstep a (B s0)) = s_cur (fst (sexec st s0)) /\
  forall k, aget k (h_dyn (hstep a (B s0))) = dynof (fst (sexec st s0)) k.
Proof.
  intros Ic Id. split; [rewrite cur_sexec | intro k; rewrite dynof_sexec];
    destruct s0; cbn [hstep h_cur h_dyn]; auto.
  rewrite aget_aset, Ic. destruct (key_eqb k (s_cur st, n)); auto.
Qed.

Lemma base_xexec st s :
  base (fst (xexec st s)) = match s with B s0 => fst (exec (base st) s0) | _ => base st end.
Proof.
  destruct s as [s0|m n v|]; simpl.
  - reflexivity.
  - destruct (is_dynamic (sp (base st)) (m, n)); reflexivity.
  - destruct (mframes (bs st)) as [|k fr]; [reflexivity|].
    destruct (is_dynamic (sp (base st)) k); [|reflexivity].
    destruct (stack_of (bs st) k); reflexivity.
Qed.

Lemma base_xrun h : forall st, base (xrun st h) = run (base st) (base_steps h).
Proof.
  unfold xrun, run. induction h as [|s h IH]; intro st; simpl; [reflexivity|].
  rewrite IH, base_xexec. destruct s; reflexivity.
Qed.

Definition xafter (cur : str) (nss : list str) (h : list bstep) : xstate := xrun (xinit cur nss) h.
Definition xsafter (cur : str) (nss : list str) (h : list bstep) : xsstate := xsrun (xsinit cur nss) h.

Lemma base_xafter cur nss h : base (xafter cur nss h) = after cur nss (base_steps h).
Proof. unfold xafter, after. rewrite base_xrun. reflexivity. Qed.

(** [vals k fr]: the values of the intact frames of [k], innermost first -- what the store of
    [k] holds.  [ordered]: below a spoiled frame of a Var none of its frames is intact (a def
    spoils all frames of the Var at once, pushes come on top). *)
Definition sel (k : key) (f : hframe) : bool := key_eqb k (hf_key f) && hf_intact f.
Definition no_intact (k : key) (fr : list hframe) : bool := forallb (fun f => negb (sel k f)) fr.
Fixpoint ordered (fr : list hframe) : bool :=
  match fr with
  | [] => true
  | f :: r => (hf_intact f || no_intact (hf_key f) r) && ordered r
  end.
Definition erase (f : hframe) : key * N := (hf_key f, hf_val f).
Definition vals (k : key) (fr : list hframe) : list N := map hf_val (filter (sel k) fr).

Lemma vals_cons k f r : vals k (f :: r) = if sel k f then hf_val f :: vals k r else vals k r.
Proof. unfold vals. cbn [filter]. destruct (sel k f); reflexivity. Qed.

Lemma sel_spoil k k0 f : sel k (spoil k0 f) = sel k f && negb (key_eqb k k0).
Proof.
  unfold sel, spoil, hf_key, hf_intact. cbn [fst snd].
  destruct (key_eqb k (fst (fst f))) eqn:E; [|reflexivity].
  apply key_eqb_eq in E. subst k. rewrite (key_eqb_sym k0). reflexivity.
Qed.

Lemma vals_spoil k k0 fr : vals k (map (spoil k0) fr) = if key_eqb k k0 then [] else vals k fr.
Proof.
  induction fr as [|f r IH]; [destruct (key_eqb k k0); reflexivity|].
  cbn [map]. rewrite !vals_cons, sel_spoil, IH.
  destruct (key_eqb k k0); [rewrite andb_false_r | rewrite andb_true_r]; reflexivity.
Qed.

Lemma no_intact_spoil k k0 fr : no_intact k (map (spoil k0) fr) = key_eqb k k0 || no_intact k fr.
Proof.
  unfold no_intact. induction fr as [|f r IH]; [symmetry; apply orb_true_r|].
  cbn [map forallb]. rewrite sel_spoil, IH. destruct (key_eqb k k0), (sel k f); reflexivity.
Qed.

Lemma no_intact_vals k fr : no_intact k fr = true -> vals k fr = [].
Proof.
  induction fr as [|f r IH]; [reflexivity|]. cbn [no_intact forallb]. rewrite vals_cons.
  intro H. apply andb_true_iff in H as [H1 H2]. apply negb_true_iff in H1. rewrite H1. exact (IH H2).
Qed.

Lemma ordered_spoil k0 fr : ordered fr = true -> ordered (map (spoil k0) fr) = true.
Proof.
  induction fr as [|f r IH]; [reflexivity|]. cbn [map ordered].
  intro H. apply andb_true_iff in H as [H1 H2]. rewrite (IH H2), andb_true_r, no_intact_spoil.
  change (hf_key (spoil k0 f)) with (hf_key f).
  change (hf_intact (spoil k0 f)) with (hf_intact f && negb (key_eqb k0 (hf_key f))).
  rewrite (key_eqb_sym (hf_key f)). destruct (key_eqb k0 (hf_key f)); [apply orb_true_r|].
  rewrite andb_true_r. exact H1.
Qed.

Lemma spoil_id k fr :
  (forall f, In f fr -> hf_intact f = true -> key_eqb k (hf_key f) = false) -> map (spoil k) fr = fr.
Proof.
  induction fr as [|f r IH]; intro H; [reflexivity|]. cbn [map].
  rewrite IH by (intros g I; apply H; right; exact I). f_equal.
  specialize (H f (or_introl eq_refl)). destruct f as [[a b] [|]]; unfold spoil; cbn in *; [rewrite H|]; reflexivity.
Qed.

Lemma vals_hfind k fr : ordered fr = true ->
  match hfind k fr with
  | Some (v, true) => exists rest, vals k fr = v :: rest
  | _ => vals k fr = []
  end.
Proof.
  induction fr as [|f r IH]; intro O; [reflexivity|].
  cbn [ordered] in O. apply andb_true_iff in O as [O1 O2].
  cbn [hfind]. rewrite vals_cons. unfold sel. destruct (key_eqb k (hf_key f)) eqn:E; [|exact (IH O2)].
  apply key_eqb_eq in E. subst k. destruct (hf_intact f); cbn [andb]; [eauto|].
  apply no_intact_vals. exact O1.
Qed.

Lemma hfind_in k fr v i : hfind k fr = Some (v, i) -> exists f, In f fr /\ hf_key f = k /\ hf_val f = v /\ hf_intact f = i.
Proof.
  induction fr as [|f r IH]; simpl; [discriminate|].
  destruct (key_eqb k (hf_key f)) eqn:E.
  - intro H. inversion H. apply key_eqb_eq in E. exists f. auto.
  - intro H. destruct (IH H) as [g [I G]]. exists g. auto.
Qed.

Lemma aget_erase k fr : aget k (map erase fr) = option_map fst (hfind k fr).
Proof.
  induction fr as [|f r IH]; [reflexivity|]. simpl.
  destruct (key_eqb k (hf_key f)); [reflexivity | exact IH].
Qed.

Lemma intact_vals k fr :
  forallb hf_intact fr = true ->
  aget k (map erase fr) = match vals k fr with v :: _ => Some v | [] => None end.
Proof.
  induction fr as [|f r IH]; [reflexivity|]. cbn [forallb]. rewrite vals_cons.
  intro H. apply andb_true_iff in H as [H1 H2]. unfold sel. rewrite H1, andb_true_r. simpl.
  destruct (key_eqb k (hf_key f)); [reflexivity | apply IH; exact H2].
Qed.

Lemma ahas_erase_false k fr f : ahas k (map erase fr) = false -> In f fr -> key_eqb k (hf_key f) = false.
Proof.
  unfold ahas. induction fr as [|g r IH]; [contradiction|]. simpl.
  destruct (key_eqb k (hf_key g)) eqn:E; [discriminate|]. intros H [->|I]; [exact E | exact (IH H I)].
Qed.

(** each store holds the intact frames of its Var ([iv_stack]) and the Var of an intact frame
    is dynamic ([iv_live]): a pop finds what it expects *)
Record inv (x : xstate) (xs : xsstate) (a : hacc) : Prop := {
  iv_base : sp (base x) = xs_base xs;
  iv_cur : h_cur a = s_cur (xs_base xs);
  iv_dyn : forall k, aget k (h_dyn a) = dynof (xs_base xs) k;
  iv_frames : xs_frames xs = map erase (h_fr a);
  iv_mframes : mframes (bs x) = map hf_key (h_fr a);
  iv_stack : forall k, stack_of (bs x) k = vals k (h_fr a);
  iv_live : forall f, In f (h_fr a) -> hf_intact f = true -> is_dynamic (xs_base xs) (hf_key f) = true;
  iv_ord : ordered (h_fr a) = true
}.

Lemma inv_init cur nss : inv (xinit cur nss) (xsinit cur nss) (mkH cur [] []).
Proof. split; simpl; try reflexivity; intros; contradiction. Qed.

Lemma inv_step x xs a s : inv x xs a -> inv (fst (xexec x s)) (fst (xsexec xs s)) (hstep a s).
Proof.
  intros [Ib Ic Id If Im Is Il Io].
  destruct s as [s0|m n v|].
  - assert (Eb : sp (base (fst (xexec x (B s0)))) = xs_base (fst (xsexec xs (B s0)))).
    { simpl. rewrite sp_exec, Ib. reflexivity. }
    destruct (hstep_tracks (xs_base xs) a s0 Ic Id) as [Ic' Id'].
    destruct s0 as [n fl v|m|m al|m only|m n v].
    2-5: split; [exact Eb | exact Ic' | exact Id' | exact If | exact Im | exact Is | | exact Io];
         intros f I T; cbn [xsexec fst xs_base]; rewrite is_dynamic_sexec_other;
         [exact (Il f I T) | discriminate].
    set (k0 := (s_cur (xs_base xs), n)).
    assert (Edyn : forall k, key_eqb k k0 = false ->
              is_dynamic (fst (sexec (xs_base xs) (SDef n fl v))) k = is_dynamic (xs_base xs) k).
    { intros k K. apply is_dynamic_sexec_other. intros n' fl' v' E. inversion E. subst. exact K. }
    (* what the state is once the store of k0 has been replaced *)
    assert (Clear : inv (mkX (fst (exec (base x) (SDef n fl v))) (mkB (aset k0 [] (stacks (bs x))) (mframes (bs x))))
                        (fst (xsexec xs (B (SDef n fl v))))
                        (mkH (s_cur (xs_base xs)) (aset k0 (f_dyn fl) (h_dyn a)) (map (spoil k0) (h_fr a)))).
    { split; cbn [h_cur h_dyn h_fr xsexec fst xs_base xs_frames base bs stacks mframes].
      - exact Eb.
      - rewrite <- Ic. exact Ic'.
      - intro k. specialize (Id' k). cbn [hstep h_dyn] in Id'. rewrite Ic in Id'. exact Id'.
      - rewrite map_map. exact If.
      - rewrite map_map. exact Im.
      - intro k. rewrite stack_of_aset, vals_spoil. destruct (key_eqb k k0); [reflexivity | apply Is].
      - intros f I T. apply in_map_iff in I as [g [G I]]. subst f.
        cbn in T. apply andb_true_iff in T as [T1 T2]. apply negb_true_iff in T2.
        change (hf_key (spoil k0 g)) with (hf_key g).
        rewrite Edyn; [apply Il; assumption | rewrite key_eqb_sym; exact T2].
      - apply ordered_spoil. exact Io. }
    cbn [hstep xexec fst]. unfold on_def. rewrite Ic, Ib, Id. fold k0. unfold dynof.
    destruct (aget k0 (s_vars (xs_base xs))) as [r|] eqn:A; cbn [option_map].
    + destruct (Bool.eqb (f_dyn fl) (f_dyn (v_flags r))) eqn:F; cbn [negb]; [|exact Clear].
      split; try assumption.
      * rewrite <- Ic. exact Ic'.
      * intro k. specialize (Id' k). cbn [hstep h_dyn] in Id'. rewrite Ic in Id'. exact Id'.
      * intros f I T. cbn [xsexec fst xs_base]. destruct (key_eqb (hf_key f) k0) eqn:K; [|rewrite (Edyn _ K); exact (Il f I T)].
        apply key_eqb_eq in K. rewrite K, is_dynamic_dynof, dynof_sexec. fold k0. rewrite key_eqb_refl.
        pose proof (Il f I T) as D. rewrite K in D. unfold is_dynamic in D. rewrite A in D.
        apply Bool.eqb_prop in F. congruence.
    + (* a new Var: no frame of it can be intact, so spoiling changes nothing *)
      rewrite <- (spoil_id k0 (h_fr a)); [exact Clear|].
      intros f I T. destruct (key_eqb k0 (hf_key f)) eqn:K; [|reflexivity].
      apply key_eqb_eq in K. pose proof (Il f I T) as D. rewrite <- K in D.
      unfold is_dynamic in D. rewrite A in D. discriminate.
  - cbn [hstep xexec xsexec]. rewrite Ib, Id, is_dynamic_dynof.
    destruct (dynof (xs_base xs) (m, n)) as [[|]|] eqn:D; cbn [fst];
      try (split; assumption).
    split; cbn [h_cur h_dyn h_fr xs_base xs_frames base bs stacks mframes]; try assumption.
    + rewrite If. reflexivity.
    + rewrite Im. reflexivity.
    + intro k. rewrite stack_of_aset, vals_cons. unfold sel. cbn [hf_key hf_intact hf_val fst snd].
      rewrite andb_true_r. destruct (key_eqb k (m, n)) eqn:K; [|apply Is].
      apply key_eqb_eq in K. subst k. f_equal. apply Is.
    + intros f [I|I] T; [|apply Il; assumption]. subst f. cbn [hf_key fst].
      rewrite is_dynamic_dynof, D. reflexivity.
  - cbn [hstep xexec xsexec]. rewrite If, Im, Ib.
    destruct (h_fr a) as [|f r] eqn:HF; cbn [map tl].
    + cbn [fst]. split; cbn [h_cur h_dyn h_fr]; try assumption; try (rewrite <- HF; assumption).
    + cbn [ordered] in Io. apply andb_true_iff in Io as [Io1 Io2].
      assert (Il' : forall g, In g r -> hf_intact g = true -> is_dynamic (xs_base xs) (hf_key g) = true).
      { intros g I T. apply Il; [right; exact I | exact T]. }
      assert (S : forall k, stack_of (bs x) k = if sel k f then hf_val f :: vals k r else vals k r).
      { intro k. rewrite Is. apply vals_cons. }
      unfold sel in S. destruct (hf_intact f) eqn:T.
      * rewrite (Il f (or_introl eq_refl) T), (S (hf_key f)), key_eqb_refl. cbn [andb fst].
        split; cbn [h_cur h_dyn h_fr xs_base xs_frames base bs stacks mframes]; try assumption; try reflexivity.
        intro k. rewrite stack_of_aset, (S k), andb_true_r. destruct (key_eqb k (hf_key f)) eqn:K; [|reflexivity].
        apply key_eqb_eq in K. subst k. reflexivity.
      * (* its Var's marking was changed: the store is empty, pop_bindings raises *)
        simpl in Io1.
        assert (R : inv (mkX (base x) (mkB (stacks (bs x)) (map hf_key r))) (mkXS (xs_base xs) (map erase r))
                        (mkH (h_cur a) (h_dyn a) r)).
        { split; cbn [h_cur h_dyn h_fr xs_base xs_frames base bs stacks mframes]; try assumption; try reflexivity.
          intro k. specialize (S k). rewrite andb_false_r in S. exact S. }
        rewrite (S (hf_key f)), andb_false_r, (no_intact_vals _ _ Io1).
        destruct (is_dynamic (xs_base xs) (hf_key f)); exact R.
Qed.

Lemma inv_run h : forall x xs a, inv x xs a -> inv (xrun x h) (xsrun xs h) (hrun a h).
Proof.
  unfold xrun, xsrun, hrun. induction h as [|s h IH]; intros x xs a I; simpl; [exact I|].
  apply IH. apply inv_step. exact I.
Qed.

Lemma inv_after cur nss h : inv (xafter cur nss h) (xsafter cur nss h) (hrun (mkH cur [] []) h).
Proof. apply inv_run. apply inv_init. Qed.

Lemma xs_base_xsafter cur nss h : xs_base (xsafter cur nss h) = srun (init cur nss) (base_steps h).
Proof. rewrite <- (iv_base _ _ _ (inv_after cur nss h)), base_xafter. apply sp_after. Qed.

Theorem spec_frames_are_open_frames cur nss h :
  xs_frames (xsafter cur nss h) = map erase (open_frames cur h).
Proof. exact (iv_frames _ _ _ (inv_after cur nss h)). Qed.

Theorem thread_view_is_innermost cur nss h k :
  thread_view (xsafter cur nss h) k =
  if is_dynamic (xs_base (xsafter cur nss h)) k then option_map fst (innermost cur h k) else None.
Proof.
  unfold thread_view, innermost. rewrite spec_frames_are_open_frames, aget_erase. reflexivity.
Qed.

(** from any states tied by the invariant *)
Lemma hfind_dynamic x xs a k v :
  inv x xs a -> hfind k (h_fr a) = Some (v, true) -> is_dynamic (sp (base x)) k = true.
Proof.
  intros I H. destruct (hfind_in _ _ _ _ H) as [f [F [K [_ T]]]].
  pose proof (iv_live _ _ _ I f F T) as D. rewrite K, <- (iv_base _ _ _ I) in D. exact D.
Qed.

Lemma xread_inv x xs a md rns loc spl k :
  inv x xs a -> resolve (locals_of loc) (sp (base x)) rns spl = RVar k ->
  xread x md (RR rns loc spl) =
  match hfind k (h_fr a) with
  | Some (v, true) => OVal v
  | _ => read (base x) md (RR rns loc spl)
  end.
Proof.
  intros I R. pose proof (vals_hfind k _ (iv_ord _ _ _ I)) as V.
  pose proof (hfind_dynamic x xs a k) as D.
  unfold xread. rewrite R, (iv_stack _ _ _ I).
  destruct (hfind k (h_fr a)) as [[v [|]]|].
  - destruct V as [rest V]. rewrite V, (D v I eq_refl). reflexivity.
  - rewrite V. destruct (is_dynamic _ k); reflexivity.
  - rewrite V. destruct (is_dynamic _ k); reflexivity.
Qed.

Theorem innermost_is_dynamic cur nss h k v :
  innermost cur h k = Some (v, true) -> is_dynamic (sp (base (xafter cur nss h))) k = true.
Proof. exact (hfind_dynamic _ _ _ k v (inv_after cur nss h)). Qed.

(** What a compiled reference to Var [k] yields, for ALL histories: the value of the innermost
    open binding of [k] when the Var has kept its dynamic marking since that binding was
    entered; otherwise what C10/Names.v reads after the defs / root mutations of the history. *)
Theorem xread_innermost cur nss h md rns loc spl k :
  let st := xafter cur nss h in
  resolve (locals_of loc) (sp (base st)) rns spl = RVar k ->
  xread st md (RR rns loc spl) =
  match innermost cur h k with
  | Some (v, true) => OVal v
  | _ => read (after cur nss (base_steps h)) md (RR rns loc spl)
  end.
Proof.
  intros st R. rewrite <- base_xafter.
  exact (xread_inv _ _ _ md rns loc spl k (inv_after cur nss h) R).
Qed.

(** A read of a Var whose innermost open binding gave it [v] -- the Var having kept its
    dynamic marking since that binding was entered -- yields [v]: in both linking modes,
    through every spelling, whatever defs / redefinitions / root mutations / other bindings
    happened before or since. *)
Theorem read_sees_innermost_binding cur nss h md rns loc spl k v :
  let st := xafter cur nss h in
  resolve (locals_of loc) (sp (base st)) rns spl = RVar k ->
  innermost cur h k = Some (v, true) ->
  xread st md (RR rns loc spl) = OVal v.
Proof. intros st R H. unfold st. rewrite (xread_innermost _ _ _ _ _ _ _ _ R), H. reflexivity. Qed.

(** no open binding (or the Var is not dynamic): the read is the read of C10/Names.v after the
    defs / root mutations of the history *)
Theorem read_without_binding cur nss h md rq k :
  let st := xafter cur nss h in
  (let '(RR rns loc spl) := rq in resolve (locals_of loc) (sp (base st)) rns spl = RVar k) ->
  innermost cur h k = None \/ is_dynamic (sp (base st)) k = false ->
  xread st md rq = read (after cur nss (base_steps h)) md rq.
Proof.
  intros st R H. destruct rq as [rns loc spl]. unfold st. rewrite (xread_innermost _ _ _ _ _ _ _ _ R).
  destruct (innermost cur h k) as [[v [|]]|] eqn:E; try reflexivity.
  destruct H as [H|H]; [discriminate|]. unfold st in H. rewrite (innermost_is_dynamic _ _ _ _ _ E) in H. discriminate.
Qed.

(** the code as it is: a binding whose Var's dynamic marking was changed by a def is not
    seen any more (the reference semantics still shows it when the Var is dynamic again) *)
Theorem read_after_marking_change cur nss h md rq k v :
  let st := xafter cur nss h in
  (let '(RR rns loc spl) := rq in resolve (locals_of loc) (sp (base st)) rns spl = RVar k) ->
  innermost cur h k = Some (v, false) ->
  xread st md rq = read (after cur nss (base_steps h)) md rq.
Proof.
  intros st R H. destruct rq as [rns loc spl]. unfold st. rewrite (xread_innermost _ _ _ _ _ _ _ _ R), H. reflexivity.
Qed.

Lemma intact_step x xs a s :
  inv x xs a -> forallb hf_intact (h_fr a) = true -> dyn_safe xs s = true ->
  forallb hf_intact (h_fr (hstep a s)) = true.
Proof.
  intros [Ib Ic Id If Im Is Il Io] T S.
  destruct s as [s0|m n v|].
  - destruct s0 as [n fl v|m|m al|m only|m n v]; try exact T.
    cbn [hstep h_fr]. rewrite Ic, Id. unfold dynof. simpl in S.
    destruct (aget (s_cur (xs_base xs), n) (s_vars (xs_base xs))) as [r|]; cbn [option_map]; [|exact T].
    destruct (Bool.eqb (f_dyn fl) (f_dyn (v_flags r))); cbn [negb]; [exact T|].
    simpl in S. apply negb_true_iff in S. unfold has_frame in S. rewrite If in S.
    rewrite spoil_id; [exact T | intros f I _; exact (ahas_erase_false _ _ _ S I)].
  - cbn [hstep]. destruct (aget (m, n) (h_dyn a)) as [[|]|]; exact T.
  - cbn [hstep h_fr]. destruct (h_fr a) as [|f r]; [exact T|]. simpl in T. apply andb_true_iff in T as [_ T]. exact T.
Qed.

Lemma intact_run h : forall x xs a,
  inv x xs a -> forallb hf_intact (h_fr a) = true -> dyn_stable xs h = true ->
  forallb hf_intact (h_fr (hrun a h)) = true.
Proof.
  unfold hrun. induction h as [|s h IH]; intros x xs a I T S; simpl; [exact T|].
  simpl in S. apply andb_true_iff in S as [S1 S2].
  apply (IH (fst (xexec x s)) (fst (xsexec xs s))); [apply inv_step; exact I | eapply intact_step; eassumption | exact S2].
Qed.

Lemma intact_after cur nss h :
  dyn_stable (xsinit cur nss) h = true -> forallb hf_intact (open_frames cur h) = true.
Proof. intro S. unfold open_frames. eapply intact_run; [apply inv_init | reflexivity | exact S]. Qed.

Theorem steps_agree_partial cur nss h s :
  dyn_stable (xsinit cur nss) h = true ->
  snd (xexec (xafter cur nss h) s) = snd (xsexec (xsafter cur nss h) s).
Proof.
  intro S. pose proof (intact_after cur nss h S) as T. pose proof (inv_after cur nss h) as I.
  unfold open_frames in T. destruct I as [Ib Ic Id If Im Is Il Io].
  destruct s as [s0|m n v|]; simpl.
  - rewrite exec_ok, Ib. reflexivity.
  - rewrite Ib. destruct (is_dynamic (xs_base (xsafter cur nss h)) (m, n)); reflexivity.
  - rewrite Im, If, Ib. destruct (h_fr (hrun (mkH cur [] []) h)) as [|f r] eqn:HF; [reflexivity|].
    simpl. simpl in T. apply andb_true_iff in T as [T1 T2].
    rewrite (Il f (or_introl eq_refl) T1), Is, vals_cons. unfold sel.
    rewrite key_eqb_refl, T1. reflexivity.
Qed.

Theorem model_meets_spec_bind_partial cur nss h md rq :
  no_collision (minit cur nss) (base_steps h) = true ->
  priv_stable (init cur nss) (base_steps h) = true ->
  dyn_stable (xsinit cur nss) h = true ->
  bread_ok (xsafter cur nss h) md rq (xread (xafter cur nss h) md rq) = true.
Proof.
  intros N P S. pose proof (intact_after cur nss h S) as T. pose proof (inv_after cur nss h) as I.
  unfold open_frames in T.
  pose proof (model_meets_spec_partial cur nss (base_steps h) md rq N P) as M. cbv zeta in M.
  rewrite <- base_xafter in M.
  destruct rq as [rns loc spl]. unfold bread_ok, xread.
  rewrite <- (iv_base _ _ _ I).
  destruct (resolve (locals_of loc) (sp (base (xafter cur nss h))) rns spl) as [|k| | |] eqn:R; try exact M.
  destruct (is_private (sp (base (xafter cur nss h))) k && negb (str_eqb (fst k) rns)) eqn:PV.
  - exfalso. apply andb_true_iff in PV as [P1 P2]. apply negb_true_iff in P2. apply str_eqb_neq in P2.
    apply P2. rewrite base_xafter in R, P1.
    exact (private_unreachable_partial cur nss (base_steps h) (locals_of loc) rns spl k P R P1).
  - unfold thread_view. rewrite <- (iv_base _ _ _ I).
    destruct (is_dynamic (sp (base (xafter cur nss h))) k); [|exact M].
    rewrite (iv_frames _ _ _ I), (intact_vals _ _ T), (iv_stack _ _ _ I).
    destruct (vals k (h_fr (hrun (mkH cur [] []) h))) as [|v rest]; [exact M|].
    simpl. apply N.eqb_refl.
Qed.

Definition xeq (a b : xstate) : Prop :=
  base a = base b /\ mframes (bs a) = mframes (bs b) /\ forall k, stack_of (bs a) k = stack_of (bs b) k.

Lemma xeq_refl a : xeq a a.
Proof. repeat split. Qed.

Lemma xread_xeq a b md rq : xeq a b -> xread a md rq = xread b md rq.
Proof.
  intros [Eb [_ Es]]. destruct rq as [rns loc spl]. unfold xread. rewrite Eb.
  destruct (resolve (locals_of loc) (sp (base b)) rns spl); try reflexivity. rewrite Es. reflexivity.
Qed.

(** By [inv_after] the state is a function of the base steps and of the history-level reading
    [hrun], and [hrun] forgets a completed binding form: under the frame it pushes, the fold
    runs in lock step with the fold without it. *)
Definition under (g : hframe) (a : hacc) : hacc := mkH (h_cur a) (h_dyn a) (g :: h_fr a).

Lemma hstep_under g a s0 : exists g', hstep (under g a) (B s0) = under g' (hstep a (B s0)).
Proof.
  destruct s0 as [n fl v|m|m al|m only|m n v]; try (exists g; reflexivity).
  cbn [hstep under h_cur h_dyn h_fr].
  destruct (aget (h_cur a, n) (h_dyn a)) as [d|]; [destruct (negb (Bool.eqb (f_dyn fl) d))|]; eexists; reflexivity.
Qed.

Lemma hrun_under t : forallb is_base t = true -> forall g a, exists g', hrun (under g a) t = under g' (hrun a t).
Proof.
  unfold hrun. induction t as [|s t IH]; intros Bt g a; cbn [fold_left]; [exists g; reflexivity|].
  simpl in Bt. destruct s as [s0| |]; try discriminate.
  destruct (hstep_under g a s0) as [g1 E]. rewrite E. apply IH. exact Bt.
Qed.

Lemma hrun_push_pop a m n v t :
  aget (m, n) (h_dyn a) = Some true -> forallb is_base t = true ->
  hrun a (BPush m n v :: t ++ [BPop]) = hrun a t.
Proof.
  intros D Bt. change (BPush m n v :: t ++ [BPop]) with ([BPush m n v] ++ t ++ [BPop]).
  unfold hrun. rewrite !fold_left_app. cbn [fold_left].
  replace (hstep a (BPush m n v)) with (under ((m, n), v, true) a) by (cbn [hstep]; rewrite D; reflexivity).
  destruct (hrun_under t Bt ((m, n), v, true) a) as [g' E]. unfold hrun in E. rewrite E.
  cbn [hstep under h_cur h_dyn h_fr tl]. destruct (fold_left hstep t a); reflexivity.
Qed.

Lemma base_steps_app h1 h2 : base_steps (h1 ++ h2) = base_steps h1 ++ base_steps h2.
Proof. induction h1 as [|[s| |] h1 IH]; simpl; rewrite ?IH; reflexivity. Qed.

Lemma hrun_app a h1 h2 : hrun a (h1 ++ h2) = hrun (hrun a h1) h2.
Proof. apply fold_left_app. Qed.

Lemma xeq_of_hrun cur nss h1 h2 :
  base_steps h1 = base_steps h2 -> hrun (mkH cur [] []) h1 = hrun (mkH cur [] []) h2 ->
  xeq (xafter cur nss h1) (xafter cur nss h2).
Proof.
  intros Eb Eh. pose proof (inv_after cur nss h1) as I1. pose proof (inv_after cur nss h2) as I2.
  split; [rewrite !base_xafter, Eb; reflexivity|]. split.
  - rewrite (iv_mframes _ _ _ I1), (iv_mframes _ _ _ I2), Eh. reflexivity.
  - intro k. rewrite (iv_stack _ _ _ I1), (iv_stack _ _ _ I2), Eh. reflexivity.
Qed.

Lemma cut_binding cur nss h m n v t s :
  is_dynamic (sp (base (xafter cur nss h))) (m, n) = true -> forallb is_base t = true ->
  xeq (xafter cur nss (h ++ (BPush m n v :: t ++ [BPop]) ++ s)) (xafter cur nss (h ++ t ++ s)).
Proof.
  intros D Bt. pose proof (inv_after cur nss h) as I.
  rewrite (iv_base _ _ _ I), is_dynamic_dynof, <- (iv_dyn _ _ _ I) in D.
  apply xeq_of_hrun.
  - rewrite !base_steps_app. cbn [base_steps]. rewrite base_steps_app. cbn [base_steps]. rewrite app_nil_r. reflexivity.
  - rewrite !hrun_app, hrun_push_pop; [reflexivity | | exact Bt].
    destruct (aget (m, n) _) as [[|]|]; [reflexivity | discriminate | discriminate].
Qed.

(** Entering a binding of a dynamic Var, running any defs / redefinitions / root mutations /
    namespace steps [t], and leaving it: every later read -- after any continuation [s] -- is
    what it would be had the binding never been entered (root changes made by [t] included).
    [h] and [s] are arbitrary histories, so this applies to nested and enclosing bindings
    alike (innermost pair first). *)
Theorem binding_balanced cur nss h m n v t s md rq :
  is_dynamic (sp (base (xafter cur nss h))) (m, n) = true ->
  forallb is_base t = true ->
  xread (xafter cur nss (h ++ BPush m n v :: t ++ BPop :: s)) md rq
  = xread (xafter cur nss (h ++ t ++ s)) md rq.
Proof.
  intros D Bt. apply xread_xeq.
  replace (BPush m n v :: t ++ BPop :: s) with ((BPush m n v :: t ++ [BPop]) ++ s)
    by (simpl; rewrite <- app_assoc; reflexivity).
  apply cut_binding; assumption.
Qed.

(** in particular the frame stack and every store are as before when the binding form is left
    (the previous view is restored exactly) *)
Theorem binding_balanced_state cur nss h m n v t :
  is_dynamic (sp (base (xafter cur nss h))) (m, n) = true ->
  forallb is_base t = true ->
  xeq (xafter cur nss (h ++ BPush m n v :: t ++ [BPop])) (xafter cur nss (h ++ t)).
Proof.
  intros D Bt. pose proof (cut_binding cur nss h m n v t [] D Bt) as X.
  rewrite !app_nil_r in X. exact X.
Qed.
