(** C10 -- facts about [munge]: the obligations on the regenerated table, and character-level
    injectivity on names that contain neither '_' nor '-' (nor '.'). *)
From Coq Require Import List NArith Bool.
Import ListNotations.
From Verif Require Import Common.ListX Gen.Tables C10.Munge.
Local Open Scope N_scope.

(** reflective table obligations (a mutated table breaks one of these) *)
Lemma table_values_ok_true : table_values_ok = true.
Proof. vm_compute. reflexivity. Qed.
Lemma table_keys_distinct_true : table_keys_distinct = true.
Proof. vm_compute. reflexivity. Qed.
Lemma table_values_distinct_true : table_values_distinct = true.
Proof. vm_compute. reflexivity. Qed.
Lemma table_keys_ok_true : table_keys_ok = true.
Proof. vm_compute. reflexivity. Qed.
Lemma table_reserved_ok_true : table_reserved_ok = true.
Proof. vm_compute. reflexivity. Qed.

Lemma mem_str_In s l : mem_str s l = true <-> In s l.
Proof. exact (existsb_eqb_In _ str_eqb_eq s l). Qed.

Lemma tr_lookup_In t c v : tr_lookup t c = Some v -> In (c, v) t.
Proof.
  induction t as [|[k w] r IH]; simpl; [discriminate|].
  destruct (N.eqb_spec c k).
  - intro H. inversion H. subst. left. reflexivity.
  - intro H. right. apply IH. exact H.
Qed.

Lemma In_tr_lookup t c v : In (c, v) t -> tr_lookup t c <> None.
Proof.
  induction t as [|[k w] r IH]; simpl; [contradiction|].
  intros [H|H]; destruct (N.eqb_spec c k); try discriminate; auto.
  inversion H. congruence.
Qed.

Lemma strip_suffix2_spec s u : strip_suffix2 s = Some u -> s = u ++ [US; US].
Proof.
  revert u. induction s as [|c r IH]; intros u H; [discriminate|].
  destruct r as [|b r'].
  - simpl in H. discriminate.
  - destruct r' as [|d r''].
    + simpl in H.
      destruct (N.eqb_spec c US); destruct (N.eqb_spec b US); simpl in H; try discriminate.
      inversion H. subst. reflexivity.
    + change (strip_suffix2 (c :: b :: d :: r'')) with
        (match strip_suffix2 (b :: d :: r'') with Some u => Some (c :: u) | None => None end) in H.
      destruct (strip_suffix2 (b :: d :: r'')) as [u'|] eqn:E; [|discriminate].
      inversion H. subst. simpl. f_equal. apply IH. reflexivity.
Qed.

Lemma value_inner_spec v u :
  value_inner v = Some u -> v = US :: US :: u ++ [US; US] /\ forallb is_upper u = true /\ u <> [].
Proof.
  unfold value_inner. destruct v as [|a [|b r]]; try discriminate.
  destruct (N.eqb_spec a US); destruct (N.eqb_spec b US); simpl; try discriminate.
  destruct (strip_suffix2 r) as [w|] eqn:E; [|discriminate].
  destruct (forallb is_upper w) eqn:F; simpl; [|discriminate].
  destruct w as [|x w']; simpl; [discriminate|].
  intro H. inversion H. subst. apply strip_suffix2_spec in E. subst.
  split; [reflexivity|]. split; [exact F | discriminate].
Qed.

Lemma distinctb_inj {A B} (eqb : B -> B -> bool) (f : A -> B) (l : list A) x y :
  (forall b, eqb b b = true) -> distinctb eqb (map f l) = true -> In x l -> In y l -> f x = f y -> x = y.
Proof.
  intro R. induction l as [|a l IH]; cbn [map distinctb]; [contradiction|].
  intros D Hx Hy E. apply andb_true_iff in D as [D1 D2]. apply negb_true_iff in D1.
  assert (N : forall z, In z l -> f a <> f z).
  { intros z Hz Ez. rewrite (proj2 (existsb_exists _ _)) in D1; [discriminate|].
    exists (f z). split; [apply in_map; exact Hz | rewrite Ez; apply R]. }
  destruct Hx as [->|Hx], Hy as [->|Hy]; auto; exfalso; eapply N; eauto.
Qed.

Lemma distinctb_fst_inj {A} (t : list (N * A)) c v w :
  distinctb N.eqb (map fst t) = true -> In (c, v) t -> In (c, w) t -> v = w.
Proof.
  intros D H1 H2. assert (E : (c, v) = (c, w)); [|inversion E; reflexivity].
  exact (distinctb_inj N.eqb fst t _ _ N.eqb_refl D H1 H2 eq_refl).
Qed.

Lemma translate_cons c s : translate (c :: s) = tr_char munge_replacements c ++ translate s.
Proof. reflexivity. Qed.

Lemma translate_app a b : translate (a ++ b) = translate a ++ translate b.
Proof. unfold translate, translate_with. apply flat_map_app. Qed.

Definition nokey (c : N) : bool :=
  match tr_lookup munge_replacements c with None => true | Some _ => false end.

Lemma translate_id s : forallb nokey s = true -> translate s = s.
Proof.
  induction s as [|c s IH]; [reflexivity|].
  intro H. simpl in H. apply andb_true_iff in H as [H1 H2]. rewrite translate_cons, IH by assumption.
  unfold tr_char, nokey in *. destruct (tr_lookup munge_replacements c); [discriminate|reflexivity].
Qed.

(** names over characters the table does not mention are munged to themselves or get '_' *)
Lemma munge_simple f s : forallb nokey s = true ->
  munge_gen f s = s \/ munge_gen f s = s ++ [US] \/ (s = DOTDOT /\ munge_gen f s = DOTDOT_REPL).
Proof.
  intro H. unfold munge_gen. rewrite translate_id by assumption. unfold finish.
  destruct (str_eqb s DOTDOT) eqn:E.
  - right. right. apply str_eqb_eq in E. auto.
  - destruct (mem_str s py_keywords); [auto|].
    destruct (negb f && mem_str s py_builtins); auto.
Qed.

Definition clean_char (c : N) : bool := negb (N.eqb c US) && negb (N.eqb c DASH).
Definition clean (s : str) : bool := forallb clean_char s.
(** a "plain" name: no '_', no '-', no '.' *)
Definition plain_name (s : str) : bool := forallb (fun c => clean_char c && negb (N.eqb c DOT)) s.

Definition nous (u : str) : bool := forallb (fun c => negb (N.eqb c US)) u.

Lemma upper_nous u : forallb is_upper u = true -> nous u = true.
Proof.
  unfold nous. intro H. rewrite forallb_forall in *. intros c I. specialize (H _ I).
  apply negb_true_iff, N.eqb_neq. intro E. subst c. discriminate H.
Qed.

(** the first '_' delimits *)
Lemma prefix_code u1 u2 r1 r2 :
  nous u1 = true -> nous u2 = true -> u1 ++ US :: r1 = u2 ++ US :: r2 -> u1 = u2 /\ r1 = r2.
Proof.
  revert u2. induction u1 as [|a u1 IH]; intros [|b u2] N1 N2 E; simpl in *.
  - inversion E. auto.
  - inversion E. subst b. apply andb_true_iff in N2 as [N2 _]. rewrite N.eqb_refl in N2. discriminate.
  - inversion E. subst a. apply andb_true_iff in N1 as [N1 _]. rewrite N.eqb_refl in N1. discriminate.
  - inversion E. subst b. apply andb_true_iff in N1 as [_ N1]. apply andb_true_iff in N2 as [_ N2].
    destruct (IH u2 N1 N2 H1) as [-> ->]. auto.
Qed.

Lemma tr_value_app (u : str) r : (US :: US :: u ++ [US; US]) ++ r = US :: US :: (u ++ US :: US :: r).
Proof. simpl. rewrite <- app_assoc. reflexivity. Qed.

(** For ANY table [t] whose entries have the shape [entry_ok] checks and whose values are
    pairwise distinct, [str.translate] is injective on clean strings, also when an optional
    '_' follows. *)
Section Table.
  Variable t : list (N * str).
  Hypothesis Hvals : forallb entry_ok t = true.
  Hypothesis Hdist : distinctb str_eqb (map snd t) = true.

  Lemma lookup_shape_t c v :
    tr_lookup t c = Some v ->
    (c = DASH /\ v = [US]) \/
    (c <> DASH /\ exists u, v = US :: US :: u ++ [US; US] /\ forallb is_upper u = true /\ u <> []).
  Proof.
    intro H. apply tr_lookup_In in H.
    pose proof Hvals as T. rewrite forallb_forall in T. specialize (T _ H). simpl in T.
    destruct (N.eqb_spec c DASH).
    - left. apply str_eqb_eq in T. auto.
    - right. split; [assumption|].
      destruct (value_inner v) as [u|] eqn:E; [|discriminate].
      exists u. apply value_inner_spec. exact E.
  Qed.

  Lemma lookup_value_inj_t c d v :
    tr_lookup t c = Some v -> tr_lookup t d = Some v -> c = d.
  Proof.
    intros H1 H2. apply tr_lookup_In in H1. apply tr_lookup_In in H2.
    assert (E : (c, v) = (d, v)); [|inversion E; reflexivity].
    exact (distinctb_inj str_eqb snd _ _ _ str_eqb_refl Hdist H1 H2 eq_refl).
  Qed.
  Lemma tr_char_clean_t c : clean_char c = true ->
    (tr_char t c = [c] /\ c <> US) \/
    (exists u, tr_lookup t c = Some (US :: US :: u ++ [US; US]) /\
               tr_char t c = US :: US :: u ++ [US; US] /\ nous u = true).
  Proof.
    intro C. unfold clean_char in C. apply andb_true_iff in C as [C1 C2].
    apply negb_true_iff in C1, C2. apply N.eqb_neq in C1, C2.
    unfold tr_char. destruct (tr_lookup t c) as [v|] eqn:L.
    - right. destruct (lookup_shape_t _ _ L) as [[D _]|[_ [u [-> [U NE]]]]]; [congruence|].
      exists u. auto using upper_nous.
    - left. auto.
  Qed.

  Lemma tr_char_code_t c d x y : clean_char c = true -> clean_char d = true ->
    tr_char t c ++ x = tr_char t d ++ y -> c = d /\ x = y.
  Proof.
    intros Cc Cd E.
    destruct (tr_char_clean_t c Cc) as [[Tc Nc]|[u [Lc [Tc Uc]]]];
    destruct (tr_char_clean_t d Cd) as [[Td Nd]|[w [Ld [Td Ud]]]]; rewrite Tc, Td in E.
    - inversion E. auto.
    - inversion E. congruence.
    - inversion E. congruence.
    - rewrite !tr_value_app in E. inversion E as [E'].
      destruct (prefix_code _ _ _ _ Uc Ud E') as [-> R]. inversion R.
      split; [eapply lookup_value_inj_t; eauto | reflexivity].
  Qed.

  Lemma tr_char_not_end_t d r e : clean_char d = true -> e = [] \/ e = [US] -> tr_char t d ++ r <> e.
  Proof.
    intros Cd He E.
    destruct (tr_char_clean_t d Cd) as [[T N]|[u [_ [T _]]]]; rewrite T in E;
      destruct He as [-> | ->]; inversion E; congruence.
  Qed.

  Lemma translate_with_cancel a : forall b x y, clean a = true -> clean b = true ->
    x = [] \/ x = [US] -> y = [] \/ y = [US] ->
    translate_with t a ++ x = translate_with t b ++ y -> a = b /\ x = y.
  Proof.
    unfold translate_with.
    induction a as [|c a IH]; intros [|d b] x y Ca Cb Hx Hy E; cbn [clean forallb flat_map] in Ca, Cb, E.
    - split; [reflexivity | exact E].
    - apply andb_true_iff in Cb as [Cd _]. rewrite <- app_assoc in E.
      symmetry in E. exfalso. eapply tr_char_not_end_t; [exact Cd | exact Hx | exact E].
    - apply andb_true_iff in Ca as [Cc _]. rewrite <- app_assoc in E.
      exfalso. eapply tr_char_not_end_t; [exact Cc | exact Hy | exact E].
    - apply andb_true_iff in Ca as [Cc Ca]. apply andb_true_iff in Cb as [Cd Cb].
      rewrite <- !app_assoc in E.
      destruct (tr_char_code_t _ _ _ _ Cc Cd E) as [-> E'].
      destruct (IH b x y Ca Cb Hx Hy E') as [-> ->]. auto.
  Qed.

  Lemma translate_with_inj a b : clean a = true -> clean b = true ->
    translate_with t a = translate_with t b -> a = b.
  Proof.
    intros Ca Cb E. apply (translate_with_cancel a b [] [] Ca Cb); auto. rewrite !app_nil_r. exact E.
  Qed.
End Table.

Lemma lookup_shape c v :
  tr_lookup munge_replacements c = Some v ->
  (c = DASH /\ v = [US]) \/
  (c <> DASH /\ exists u, v = US :: US :: u ++ [US; US] /\ forallb is_upper u = true /\ u <> []).
Proof. exact (lookup_shape_t _ table_values_ok_true c v). Qed.

Lemma lookup_value_inj c d v :
  tr_lookup munge_replacements c = Some v -> tr_lookup munge_replacements d = Some v -> c = d.
Proof. exact (lookup_value_inj_t _ table_values_distinct_true c d v). Qed.

Lemma key_ok c v : tr_lookup munge_replacements c = Some v -> c <> US /\ c <> DOT.
Proof.
  intro E. apply tr_lookup_In in E. apply (in_map fst) in E.
  pose proof table_keys_ok_true as T. unfold table_keys_ok in T.
  apply andb_true_iff in T as [T _]. rewrite forallb_forall in T. specialize (T _ E). cbn [fst] in T.
  apply andb_true_iff in T as [T _]. apply andb_true_iff in T as [T1 T2].
  apply negb_true_iff in T1, T2. apply N.eqb_neq in T1, T2. auto.
Qed.

Lemma us_not_key : tr_lookup munge_replacements US = None.
Proof.
  destruct (tr_lookup munge_replacements US) as [v|] eqn:E; [|reflexivity].
  destruct (key_ok _ _ E) as [X _]. contradiction X; reflexivity.
Qed.

Lemma dot_not_key : tr_lookup munge_replacements DOT = None.
Proof.
  destruct (tr_lookup munge_replacements DOT) as [v|] eqn:E; [|reflexivity].
  destruct (key_ok _ _ E) as [_ X]. contradiction X; reflexivity.
Qed.

(** the source of finding F-10a is in the table: '-' is replaced by '_' *)
Lemma dash_is_key : tr_lookup munge_replacements DASH = Some [US].
Proof.
  pose proof table_keys_ok_true as T. unfold table_keys_ok in T.
  apply andb_true_iff in T as [_ T]. apply existsb_exists in T as [k [I E]].
  apply N.eqb_eq in E. subst k. apply in_map_iff in I as [[k v] [E I]]. simpl in E. subst k.
  destruct (tr_lookup munge_replacements DASH) as [w|] eqn:L.
  - destruct (lookup_shape _ _ L) as [[_ ->]|[N _]]; [reflexivity | congruence].
  - exfalso. eapply In_tr_lookup; eauto.
Qed.

Lemma translate_inj a b : clean a = true -> clean b = true -> translate a = translate b -> a = b.
Proof. exact (translate_with_inj _ table_values_ok_true table_values_distinct_true a b). Qed.

Lemma plain_clean s : plain_name s = true -> clean s = true.
Proof.
  unfold plain_name, clean. intro H. rewrite forallb_forall in *. intros c I.
  specialize (H _ I). apply andb_true_iff in H as [H _]. exact H.
Qed.

(** the image of a plain name does not begin with '.', so it is not ".." *)
Lemma translate_plain_hd s r : plain_name s = true -> translate s <> DOT :: r.
Proof.
  destruct s as [|c s]; [discriminate|]. cbn [plain_name forallb]. intros H E.
  apply andb_true_iff in H as [Hc _]. apply andb_true_iff in Hc as [Cc Nd].
  apply negb_true_iff in Nd. apply N.eqb_neq in Nd. rewrite translate_cons in E.
  destruct (tr_char_clean_t _ table_values_ok_true c Cc) as [[T _]|[u [_ [T _]]]]; rewrite T in E;
    inversion E; congruence.
Qed.

Lemma finish_plain f s : plain_name s = true ->
  exists e, (e = [] \/ e = [US]) /\ munge_gen f s = translate s ++ e.
Proof.
  intro P. unfold munge_gen, finish.
  destruct (str_eqb (translate s) DOTDOT) eqn:E.
  - apply str_eqb_eq in E. exfalso. exact (translate_plain_hd s _ P E).
  - destruct (mem_str (translate s) py_keywords); [exists [US]; auto|].
    destruct (negb f && mem_str (translate s) py_builtins); [exists [US]; auto|].
    exists []. rewrite app_nil_r. auto.
Qed.

(** [munge] (with or without allow_builtins, in any combination) is injective on plain names *)
Lemma munge_inj_plain f1 f2 a b :
  plain_name a = true -> plain_name b = true -> munge_gen f1 a = munge_gen f2 b -> a = b.
Proof.
  intros Pa Pb E.
  destruct (finish_plain f1 a Pa) as [x [Hx Ex]]. destruct (finish_plain f2 b Pb) as [y [Hy Ey]].
  rewrite Ex, Ey in E. exact (proj1 (translate_with_cancel _ table_values_ok_true table_values_distinct_true a b x y
                  (plain_clean _ Pa) (plain_clean _ Pb) Hx Hy E)).
Qed.

(** the collisions (all consequences of '-' |-> '_' and of the '_' suffix) *)
Definition s_a_dash_b : str := [97; 45; 98].           (* a-b *)
Definition s_a_us_b : str := [97; 95; 98].             (* a_b *)
Definition s_xq : str := [120; 63].                    (* x? *)
Definition s_x_Q : str := [120; 95; 95; 81; 95; 95].   (* x__Q__ *)
Definition s_plus : str := [43].                       (* + *)
Definition s_dd_PLUS : str := [45; 45; 80; 76; 85; 83; 45; 45].   (* --PLUS-- *)
Definition s_print : str := [112; 114; 105; 110; 116]. (* print *)
Definition s_print_us : str := [112; 114; 105; 110; 116; 95].     (* print_ *)
Definition s_class : str := [99; 108; 97; 115; 115].   (* class *)
Definition s_class_us : str := [99; 108; 97; 115; 115; 95].       (* class_ *)

Lemma munge_collisions :
  munge s_a_dash_b = munge s_a_us_b /\ munge s_xq = munge s_x_Q /\ munge s_plus = munge s_dd_PLUS
  /\ munge s_print = munge s_print_us /\ munge s_class = munge s_class_us.
Proof. vm_compute. repeat split. Qed.

(** non-vacuity of the injectivity lemma: real names are plain *)
Example plain_examples :
  plain_name s_xq = true /\ plain_name s_plus = true /\ plain_name s_print = true /\ plain_name s_class = true
  /\ plain_name s_a_dash_b = false /\ plain_name s_a_us_b = false.
Proof. vm_compute. repeat split. Qed.
