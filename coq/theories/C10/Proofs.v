(** C10 -- proofs over ALL histories: well-formedness of the Var store, the history-level
    reading of "the value last given", resolution facts (spellings agree, locals shadow,
    privacy), and the linking invariant that holds as long as no step stores a module
    global under an identifier another name is looked up by. *)
From Coq Require Import List Bool.
Import ListNotations.
From Verif Require Import Common.ListX Gen.Tables C10.Munge C10.MungeProofs C10.Names.
Local Open Scope N_scope.

Lemma key_eqb_eq a b : key_eqb a b = true <-> a = b.
Proof. exact (prod_eqb_spec str_eqb str_eqb str_eqb_eq str_eqb_eq a b). Qed.

Lemma key_eqb_refl a : key_eqb a a = true.
Proof. exact (eqb_refl_of _ key_eqb_eq a). Qed.

Lemma key_eqb_neq a b : key_eqb a b = false <-> a <> b.
Proof. exact (eqb_neq_of _ key_eqb_eq a b). Qed.

Lemma key_eqb_sym a b : key_eqb a b = key_eqb b a.
Proof. exact (eqb_sym_of _ key_eqb_eq a b). Qed.

Lemma aget_aset {V} k k' (v : V) l : aget k (aset k' v l) = if key_eqb k k' then Some v else aget k l.
Proof. reflexivity. Qed.

(* [simpl] leaves these folded, here and in the files that import this one; they are unfolded
   through [aget_aset], [ahas_aset], [mem_str_cons] *)
Arguments aset : simpl never.
Arguments mem_str : simpl never.
Arguments munge_gen : simpl never.
Arguments var_ns_sym : simpl never.

Lemma ahas_aset {V} k k' (v : V) l : ahas k (aset k' v l) = key_eqb k k' || ahas k l.
Proof. unfold ahas. rewrite ?aget_aset. destruct (key_eqb k k'); reflexivity. Qed.

Lemma ahas_true {V} k (l : list (key * V)) : ahas k l = true <-> exists v, aget k l = Some v.
Proof.
  unfold ahas. destruct (aget k l) as [v|]; split; intro H; try discriminate; eauto.
  destruct H as [v H]. discriminate.
Qed.

Lemma mem_str_cons x m l : mem_str x (m :: l) = str_eqb x m || mem_str x l.
Proof. reflexivity. Qed.

Lemma str_eqb_neq a b : str_eqb a b = false <-> a <> b.
Proof. exact (eqb_neq_of _ str_eqb_eq a b). Qed.

Lemma str_eqb_sym a b : str_eqb a b = str_eqb b a.
Proof. exact (ListX.str_eqb_sym a b). Qed.

Lemma aget_interned_names st m n r :
  aget (m, n) (s_vars st) = Some r -> In n (interned_names st m).
Proof.
  unfold interned_names. induction (s_vars st) as [|[k v] l IH]; simpl; [discriminate|].
  destruct (key_eqb (m, n) k) eqn:E.
  - apply key_eqb_eq in E. subst k. simpl. rewrite str_eqb_refl. intros _. left. reflexivity.
  - intro H. specialize (IH H). destruct (str_eqb (fst k) m); [right|]; exact IH.
Qed.

Lemma aget_vars_sexec st s k :
  aget k (s_vars (fst (sexec st s))) =
  match s with
  | SDef n fl v => if key_eqb k (s_cur st, n) then Some (mkVar v v fl) else aget k (s_vars st)
  | SAlter m n v =>
      if key_eqb k (m, n)
      then option_map (fun r => mkVar v (v_lastdef r) (v_flags r)) (aget k (s_vars st))
      else aget k (s_vars st)
  | _ => aget k (s_vars st)
  end.
Proof.
  destruct s as [n fl v|m|m a|m only|m n v]; cbn [sexec]; try reflexivity.
  - destruct (mem_str m (s_nss st)); reflexivity.
  - destruct (mem_str m (s_nss st)); reflexivity.
  - destruct (key_eqb k (m, n)) eqn:K.
    + apply key_eqb_eq in K. subst k. destruct (aget (m, n) (s_vars st)) eqn:E; cbn [fst s_vars option_map];
        rewrite ?aget_aset, ?key_eqb_refl, ?E; reflexivity.
    + destruct (aget (m, n) (s_vars st)); cbn [fst s_vars]; rewrite ?aget_aset, ?K; reflexivity.
Qed.

Lemma sexec_fields st s :
  s_cur (fst (sexec st s)) = match s with SInNs m => m | _ => s_cur st end /\
  s_nss (fst (sexec st s)) =
    match s with SInNs m => if mem_str m (s_nss st) then s_nss st else m :: s_nss st | _ => s_nss st end /\
  s_refers (fst (sexec st s)) =
    match s with
    | SRefer m only =>
        if mem_str m (s_nss st)
        then add_refers st m (match only with [] => interned_names st m | _ => only end) (s_refers st)
        else s_refers st
    | _ => s_refers st
    end.
Proof.
  destruct s as [n fl v|m|m a|m only|m n v]; cbn [sexec]; auto.
  - destruct (mem_str m (s_nss st)); auto.
  - destruct (mem_str m (s_nss st)); auto.
  - destruct (aget (m, n) (s_vars st)); auto.
Qed.

Lemma cur_sexec st s : s_cur (fst (sexec st s)) = match s with SInNs m => m | _ => s_cur st end.
Proof. apply sexec_fields. Qed.

Lemma mem_str_sexec st s x : mem_str x (s_nss st) = true -> mem_str x (s_nss (fst (sexec st s))) = true.
Proof.
  intro H. rewrite (proj1 (proj2 (sexec_fields st s))). destruct s; try exact H.
  destruct (mem_str m (s_nss st)); [exact H|]. rewrite mem_str_cons, H. apply orb_true_r.
Qed.

Lemma ahas_vars_sexec st s k : ahas k (s_vars st) = true -> ahas k (s_vars (fst (sexec st s))) = true.
Proof.
  unfold ahas. rewrite aget_vars_sexec. destruct (aget k (s_vars st)); [|discriminate]. intros _.
  destruct s; try reflexivity; destruct (key_eqb k _); reflexivity.
Qed.

Lemma add_refers_inv st m names : forall rf k k',
  aget k (add_refers st m names rf) = Some k' ->
  aget k rf = Some k' \/
  exists n, k = (s_cur st, n) /\ k' = (m, n) /\ interned st (m, n) = true /\ is_private st (m, n) = false.
Proof.
  unfold add_refers. induction names as [|n names IH]; intros rf k k' H; cbn [fold_left] in H; [left; exact H|].
  apply IH in H as [H|H]; [|right; exact H].
  destruct (interned st (m, n) && negb (is_private st (m, n))) eqn:E; [|left; exact H].
  rewrite aget_aset in H. destruct (key_eqb k (s_cur st, n)) eqn:K; [|left; exact H].
  right. exists n. apply key_eqb_eq in K. inversion H. apply andb_true_iff in E as [E1 E2].
  apply negb_true_iff in E2. auto.
Qed.

Lemma refers_sexec_inv st s k k' :
  aget k (s_refers (fst (sexec st s))) = Some k' ->
  aget k (s_refers st) = Some k' \/
  exists m n, k = (s_cur st, n) /\ k' = (m, n) /\ interned st (m, n) = true /\ is_private st (m, n) = false.
Proof.
  rewrite (proj2 (proj2 (sexec_fields st s))). destruct s as [| | |m only|]; auto.
  destruct (mem_str m (s_nss st)); auto.
  intro H. apply add_refers_inv in H as [H|[n H]]; [auto | right; exists m, n; exact H].
Qed.

(** refers point to interned Vars of the name they are entered under (no :rename is modelled) *)
Record wf (st : sstate) : Prop := {
  wf_cur : mem_str (s_cur st) (s_nss st) = true;
  wf_vars : forall k r, aget k (s_vars st) = Some r -> mem_str (fst k) (s_nss st) = true;
  wf_refers : forall k k', aget k (s_refers st) = Some k' -> ahas k' (s_vars st) = true /\ snd k' = snd k
}.

Lemma wf_init cur nss : wf (init cur nss).
Proof.
  unfold init. split; simpl; try discriminate.
  destruct (mem_str cur nss) eqn:E; [exact E|]. rewrite mem_str_cons, str_eqb_refl. reflexivity.
Qed.

Lemma wf_sexec st s : wf st -> wf (fst (sexec st s)).
Proof.
  intros [Wc Wv Wr]. split.
  - destruct (sexec_fields st s) as [-> [-> _]]. destruct s; try exact Wc.
    destruct (mem_str m (s_nss st)) eqn:E; [exact E|]. rewrite mem_str_cons, str_eqb_refl. reflexivity.
  - intros k r. rewrite aget_vars_sexec. intro H. apply mem_str_sexec.
    destruct s as [n fl v| | | |m n v]; try exact (Wv _ _ H).
    + destruct (key_eqb k (s_cur st, n)) eqn:E; [|exact (Wv _ _ H)]. apply key_eqb_eq in E. subst k. exact Wc.
    + destruct (key_eqb k (m, n)); [|exact (Wv _ _ H)].
      destruct (aget k (s_vars st)) eqn:A; [exact (Wv _ _ A) | discriminate].
  - intros k k' H. apply refers_sexec_inv in H as [H|[m [n [-> [-> [I _]]]]]].
    + destruct (Wr _ _ H) as [A E]. split; [apply ahas_vars_sexec; exact A | exact E].
    + split; [apply ahas_vars_sexec; exact I | reflexivity].
Qed.

Lemma wf_srun h : forall st, wf st -> wf (srun st h).
Proof.
  unfold srun. induction h as [|s h IH]; intros st W; simpl; [exact W|].
  apply IH. apply wf_sexec. exact W.
Qed.

Lemma sp_exec st s : sp (fst (exec st s)) = fst (sexec (sp st) s).
Proof. unfold exec. destruct (sexec (sp st) s). reflexivity. Qed.

Lemma sp_run h : forall st, sp (run st h) = srun (sp st) h.
Proof.
  unfold run, srun. induction h as [|s h IH]; intros st; simpl; [reflexivity|].
  rewrite IH, sp_exec. reflexivity.
Qed.

Lemma exec_ok st s : snd (exec st s) = snd (sexec (sp st) s).
Proof. unfold exec. destruct (sexec (sp st) s). reflexivity. Qed.

Lemma last_given_srun h : forall st k,
  last_given (s_cur st) h k (option_map v_root (aget k (s_vars st)))
  = option_map v_root (aget k (s_vars (srun st h))) /\
  last_def (s_cur st) h k (option_map v_lastdef (aget k (s_vars st)))
  = option_map v_lastdef (aget k (s_vars (srun st h))).
Proof.
  unfold srun. induction h as [|s h IH]; intros st k; cbn [fold_left]; [split; reflexivity|].
  destruct (IH (fst (sexec st s)) k) as [G D]. rewrite <- G, <- D, aget_vars_sexec, cur_sexec.
  destruct s as [n fl v|m|m a|m only|m n v]; cbn [last_given last_def]; try (split; reflexivity).
  - destruct (key_eqb k (s_cur st, n)); split; reflexivity.
  - destruct (key_eqb k (m, n)); [destruct (aget k (s_vars st))|]; split; reflexivity.
Qed.

Lemma last_given_run cur nss h k r :
  aget k (s_vars (srun (init cur nss) h)) = Some r ->
  last_given cur h k None = Some (v_root r) /\ last_def cur h k None = Some (v_lastdef r).
Proof. intro H. destruct (last_given_srun h (init cur nss) k) as [G D]. rewrite H in G, D. exact (conj G D). Qed.

Lemma find_some st m n k : find st m n = Some k ->
  (k = (m, n) /\ interned st (m, n) = true) \/ (interned st (m, n) = false /\ aget (m, n) (s_refers st) = Some k).
Proof. unfold find. destruct (interned st (m, n)) eqn:E; intro H; [left; inversion H|right]; auto. Qed.

Lemma find_exists st m n k : wf st -> find st m n = Some k -> exists r, aget k (s_vars st) = Some r.
Proof.
  intros W H. apply ahas_true. destruct (find_some _ _ _ _ H) as [[-> I]|[_ R]]; [exact I|].
  exact (proj1 (wf_refers _ W _ _ R)).
Qed.

(** the name of the Var a symbol denotes is the name written (no :rename is modelled) *)
Definition spelled_name (spl : spelling) : str := match spl with Bare n => n | Qual _ n => n end.

(** a local is reported for a bare name in scope only; a denoted Var was FOUND under the name
    written, in the reading namespace itself or, being public, in some other one *)
Definition denotes locals st rns spl (r : res) : Prop :=
  match r with
  | RLocal => exists n, spl = Bare n /\ mem_str n locals = true
  | RVar k => exists m, find st m (spelled_name spl) = Some k /\ (m = rns \/ is_private st k = false)
  | _ => True
  end.

Lemma check_private_denotes locals st rns spl m k :
  find st m (spelled_name spl) = Some k -> denotes locals st rns spl (check_private st k).
Proof. intro F. unfold check_private. destruct (is_private st k) eqn:P; simpl; eauto. Qed.

Lemma resolve_denotes locals st rns spl : denotes locals st rns spl (resolve locals st rns spl).
Proof.
  destruct spl as [n|q n]; cbn [resolve].
  - destruct (mem_str n locals) eqn:L; [simpl; eauto|].
    destruct (find st rns n) as [k|] eqn:F; [simpl; eauto|].
    destruct (has_dot n); [exact I|]. destruct (mem_str (munge_ab n) py_builtins); exact I.
  - destruct (if str_eqb q rns then find st rns n else None) as [k|] eqn:F1.
    { destruct (str_eqb q rns); [simpl; eauto | discriminate]. }
    destruct (if mem_str q (s_nss st) then find st q n else None) as [k|] eqn:F2.
    { destruct (mem_str q (s_nss st)); [eapply check_private_denotes; exact F2 | discriminate]. }
    destruct (has_dot n); [exact I|]. destruct (aget (rns, q) (s_aliases st)) as [m|]; [|exact I].
    destruct (find st m n) as [k|] eqn:F3; [eapply check_private_denotes; exact F3 | exact I].
Qed.

Lemma resolve_var locals st rns spl k : resolve locals st rns spl = RVar k ->
  exists m, find st m (spelled_name spl) = Some k /\ (m = rns \/ is_private st k = false).
Proof. intro H. pose proof (resolve_denotes locals st rns spl) as C. rewrite H in C. exact C. Qed.

Lemma resolve_exists locals st rns spl k :
  wf st -> resolve locals st rns spl = RVar k -> exists r, aget k (s_vars st) = Some r.
Proof. intros W H. destruct (resolve_var _ _ _ _ _ H) as [m [F _]]. eapply find_exists; eauto. Qed.

Lemma resolve_name locals st rns spl k :
  wf st -> resolve locals st rns spl = RVar k -> snd k = spelled_name spl.
Proof.
  intros W H. destruct (resolve_var _ _ _ _ _ H) as [m [F _]].
  destruct (find_some _ _ _ _ F) as [[-> _]|[_ X]]; [reflexivity | exact (proj2 (wf_refers _ W _ _ X))].
Qed.

Lemma resolve_not_local st rns spl : resolve [] st rns spl <> RLocal.
Proof.
  intro H. pose proof (resolve_denotes [] st rns spl) as C. rewrite H in C.
  destruct C as [n [_ C]]. discriminate.
Qed.

Section Spellings.
  Variable st : sstate.
  Hypothesis W : wf st.
  Variables (m n : str).
  Hypothesis I : interned st (m, n) = true.

  Lemma find_interned : find st m n = Some (m, n).
  Proof. unfold find. rewrite I. reflexivity. Qed.

  Lemma bare_own locals : mem_str n locals = false -> resolve locals st m (Bare n) = RVar (m, n).
  Proof. intro L. simpl. rewrite L, find_interned. reflexivity. Qed.

  (** qualified by its own namespace, from that namespace: no privacy check *)
  Lemma qual_own locals : resolve locals st m (Qual m n) = RVar (m, n).
  Proof. simpl. rewrite str_eqb_refl, find_interned. reflexivity. Qed.

  Lemma qual_other locals rns : rns <> m -> is_private st (m, n) = false ->
    resolve locals st rns (Qual m n) = RVar (m, n).
  Proof.
    intros N P. simpl. replace (str_eqb m rns) with false by (symmetry; apply str_eqb_neq; auto).
    destruct (proj1 (ahas_true _ _) I) as [r I']. rewrite (wf_vars _ W _ _ I' : mem_str m (s_nss st) = true), find_interned.
    unfold check_private. rewrite P. reflexivity.
  Qed.

  (** through an alias [a] of the reading namespace, provided [a] is not itself the reading
      namespace or a namespace in which [n] resolves (Var.find is tried before the aliases) *)
  Lemma qual_alias locals rns a :
    aget (rns, a) (s_aliases st) = Some m -> is_private st (m, n) = false ->
    has_dot n = false ->
    (if str_eqb a rns then find st rns n else None) = None ->
    (if mem_str a (s_nss st) then find st a n else None) = None ->
    resolve locals st rns (Qual a n) = RVar (m, n).
  Proof.
    intros A P D F1 F2. simpl. rewrite F1, F2, D, A, find_interned. unfold check_private. rewrite P. reflexivity.
  Qed.

  Lemma bare_referred locals rns :
    mem_str n locals = false -> interned st (rns, n) = false -> aget (rns, n) (s_refers st) = Some (m, n) ->
    resolve locals st rns (Bare n) = RVar (m, n).
  Proof. intros L NI R. simpl. rewrite L. unfold find. rewrite NI, R. reflexivity. Qed.
End Spellings.

Lemma locals_shadow locals st rns n : mem_str n locals = true -> resolve locals st rns (Bare n) = RLocal.
Proof. intro H. simpl. rewrite H. reflexivity. Qed.

Lemma locals_do_not_capture_qualified locals st rns q n :
  resolve locals st rns (Qual q n) = resolve [] st rns (Qual q n).
Proof. reflexivity. Qed.

Lemma locals_do_not_capture_others locals st rns n :
  mem_str n locals = false -> resolve locals st rns (Bare n) = resolve [] st rns (Bare n).
Proof. intro H. simpl. rewrite H. reflexivity. Qed.

Lemma private_only_via_refer locals st rns spl k :
  resolve locals st rns spl = RVar k -> is_private st k = true -> fst k <> rns ->
  aget (rns, spelled_name spl) (s_refers st) = Some k.
Proof.
  intros H P N. destruct (resolve_var _ _ _ _ _ H) as [m [F [->|Q]]]; [|congruence].
  destruct (find_some _ _ _ _ F) as [[-> _]|[_ R]]; [contradiction N; reflexivity | exact R].
Qed.

Definition refers_public (st : sstate) : Prop :=
  forall k k', aget k (s_refers st) = Some k' -> is_private st k' = false.

Lemma is_private_sexec st s k :
  priv_safe st s = true -> ahas k (s_vars st) = true -> is_private (fst (sexec st s)) k = is_private st k.
Proof.
  intros PS I. unfold is_private. rewrite aget_vars_sexec. apply ahas_true in I as [r A]. rewrite A.
  destruct s as [n fl v| | | |m n v]; try reflexivity.
  - destruct (key_eqb k (s_cur st, n)) eqn:E; [|reflexivity]. apply key_eqb_eq in E. subst k.
    simpl in PS. rewrite A in PS. apply Bool.eqb_prop in PS. exact PS.
  - destruct (key_eqb k (m, n)); reflexivity.
Qed.

Lemma refers_public_sexec st s : wf st -> refers_public st -> priv_safe st s = true -> refers_public (fst (sexec st s)).
Proof.
  intros W R PS k k' H.
  assert (X : ahas k' (s_vars st) = true /\ is_private st k' = false).
  { apply refers_sexec_inv in H as [H|[m [n [_ [-> X]]]]]; [|exact X]. exact (conj (proj1 (wf_refers _ W _ _ H)) (R _ _ H)). }
  destruct X as [I P]. rewrite is_private_sexec; assumption.
Qed.

Lemma refers_public_srun h : forall st, wf st -> refers_public st -> priv_stable st h = true -> refers_public (srun st h).
Proof.
  unfold srun. induction h as [|s h IH]; intros st W R P; simpl; [exact R|].
  simpl in P. apply andb_true_iff in P as [P1 P2].
  apply IH; [apply wf_sexec; exact W | apply refers_public_sexec; assumption | exact P2].
Qed.

(** The invariant behind direct linking: every Var can be linked, its own munged name holding the
    value of its last def in its namespace's module ([lk_var]); whenever a probe for the alias of an
    existing namespace hits a global of some module, that global is the namespace's module
    ([lk_ns]); only modules of existing namespaces have globals ([lk_dom]). *)
Record link (st : state) : Prop := {
  lk_var : forall m n r, aget (m, n) (s_vars (sp st)) = Some r ->
                         aget (m, munge n) (mods st) = Some (PVal (v_lastdef r));
  lk_ns : forall rns m key, mem_str m (s_nss (sp st)) = true ->
                            name_in_module st rns (var_ns_sym m) = Some key ->
                            aget (rns, key) (mods st) = Some (PMod m);
  lk_dom : forall k, ahas k (mods st) = true -> mem_str (fst k) (s_nss (sp st)) = true
}.

Lemma link_init cur nss : link (minit cur nss).
Proof.
  split; simpl; try discriminate; try (intros rns m key _; unfold name_in_module; simpl; discriminate).
Qed.

Lemma probes_fst x : mem_str (munge x) (probes x) = true.
Proof. unfold probes. rewrite mem_str_cons, str_eqb_refl. reflexivity. Qed.

Lemma probes_snd x : mem_str (munge_ab x) (probes x) = true.
Proof. unfold probes. rewrite !mem_str_cons, str_eqb_refl. simpl. apply orb_true_r. Qed.

Lemma nim_probes st m x key : name_in_module st m x = Some key -> mem_str key (probes x) = true.
Proof.
  unfold name_in_module. destruct (ahas (m, munge x) (mods st)).
  - intro H. inversion H. apply probes_fst.
  - destruct (ahas (m, munge_ab x) (mods st)); [|discriminate].
    intro H. inversion H. apply probes_snd.
Qed.

Lemma interned_forall (P : str -> bool) st m n r :
  forallb P (interned_names st m) = true -> aget (m, n) (s_vars st) = Some r -> P n = true.
Proof. intros H A. exact (proj1 (forallb_forall _ _) H _ (aget_interned_names _ _ _ _ A)). Qed.

Lemma ns_forall (P : str -> bool) nss m : forallb P nss = true -> mem_str m nss = true -> P m = true.
Proof. intros H M. exact (proj1 (forallb_forall _ _) H _ (proj1 (mem_str_In _ _) M)). Qed.

(** writing one module global: the namespace-probe half of the invariant survives if the
    written value is the right module whenever the written key is a probe of a namespace *)
Lemma lk_ns_write (st : state) sp' c wk pv :
  s_nss sp' = s_nss (sp st) -> link st ->
  (forall m, mem_str m (s_nss (sp st)) = true -> mem_str wk (probes (var_ns_sym m)) = true -> pv = PMod m) ->
  forall rns m key, mem_str m (s_nss sp') = true ->
    name_in_module (mkM sp' (aset (c, wk) pv (mods st))) rns (var_ns_sym m) = Some key ->
    aget (rns, key) (aset (c, wk) pv (mods st)) = Some (PMod m).
Proof.
  intros EN L New rns m key Hm H. pose proof (lk_ns _ L) as Old. rewrite EN in Hm. pose proof (nim_probes _ _ _ _ H) as Pk.
  rewrite aget_aset. destruct (key_eqb (rns, key) (c, wk)) eqn:K.
  - apply key_eqb_eq in K. inversion K. subst. f_equal. apply New; assumption.
  - apply Old; [exact Hm|]. revert H K. unfold name_in_module. simpl. rewrite !ahas_aset.
    destruct (key_eqb (rns, munge (var_ns_sym m)) (c, wk)) eqn:K1; simpl.
    { intros H K. inversion H. subst key. congruence. }
    destruct (ahas (rns, munge (var_ns_sym m)) (mods st)); [auto|].
    destruct (key_eqb (rns, munge_ab (var_ns_sym m)) (c, wk)) eqn:K2; simpl; [|auto].
    intros H K. inversion H. subst key. congruence.
Qed.

Lemma link_write st sp' wk pv :
  wf (sp st) -> link st -> s_nss sp' = s_nss (sp st) ->
  (forall m n r', aget (m, n) (s_vars sp') = Some r' ->
     if key_eqb (m, munge n) (s_cur (sp st), wk) then pv = PVal (v_lastdef r')
     else exists r, aget (m, n) (s_vars (sp st)) = Some r /\ v_lastdef r = v_lastdef r') ->
  (forall m, mem_str m (s_nss (sp st)) = true -> mem_str wk (probes (var_ns_sym m)) = true -> pv = PMod m) ->
  link (mkM sp' (aset (s_cur (sp st), wk) pv (mods st))).
Proof.
  intros W L EN V P. split; simpl.
  - intros m n r' H. specialize (V m n r' H).
    destruct (key_eqb (m, munge n) (s_cur (sp st), wk)); [rewrite V; reflexivity|].
    destruct V as [r [A E]]. rewrite <- E. exact (lk_var _ L _ _ _ A).
  - apply (lk_ns_write st sp'); assumption.
  - intro k. rewrite ahas_aset, EN. intro H. apply orb_true_iff in H as [H|H]; [|apply (lk_dom _ L); exact H].
    apply key_eqb_eq in H. subst k. exact (wf_cur _ W).
Qed.

(** [require] and [refer] store the same global, the module of [m] under its alias, and
    [step_safe] asks the same two things of both; the invariant does not look at the refers and
    aliases in which the two steps differ *)
Lemma link_alias st sp' m :
  wf (sp st) -> link st -> s_nss sp' = s_nss (sp st) -> s_vars sp' = s_vars (sp st) ->
  forallb (fun n' => negb (str_eqb (var_ns_sym m) (munge n')))
          (interned_names (sp st) (s_cur (sp st))) = true ->
  forallb (fun m' => str_eqb m m' || negb (mem_str (var_ns_sym m) (probes (var_ns_sym m'))))
          (s_nss (sp st)) = true ->
  link (mkM sp' (aset (s_cur (sp st), var_ns_sym m) (PMod m) (mods st))).
Proof.
  intros W L EN EV S1 S2.
  apply link_write; try assumption.
  - intros m0 n0 r'. rewrite EV. intro H.
    destruct (key_eqb (m0, munge n0) (s_cur (sp st), var_ns_sym m)) eqn:K; [exfalso | eauto].
    apply key_eqb_eq in K. injection K as Em En. subst m0.
    pose proof (interned_forall _ _ _ _ _ S1 H) as X. simpl in X. rewrite En, str_eqb_refl in X. discriminate.
  - intros m0 Hm P. pose proof (ns_forall _ _ _ S2 Hm) as X. simpl in X.
    rewrite P in X. simpl in X. rewrite orb_false_r in X. apply str_eqb_eq in X. subst. reflexivity.
Qed.

Lemma link_exec st s : wf (sp st) -> link st -> step_safe st s = true -> link (fst (exec st s)).
Proof.
  intros W L S. unfold exec.
  destruct s as [n fl v|m|m a|m only|m n v].
  - simpl in *. apply andb_true_iff in S as [S1 S2].
    apply (link_write st (mkS _ _ _ _ _)); try assumption; [reflexivity | |].
    + intros m0 n0 r'. simpl.
      destruct (key_eqb (m0, n0) (s_cur (sp st), n)) eqn:K.
      * apply key_eqb_eq in K. inversion K. subst. rewrite key_eqb_refl. intro H. inversion H. reflexivity.
      * intro H. destruct (key_eqb (m0, munge n0) (s_cur (sp st), munge n)) eqn:K2; [exfalso | eauto].
        apply key_eqb_eq in K2. injection K2 as Em En. subst m0.
        pose proof (interned_forall _ _ _ _ _ S1 H) as X. simpl in X. apply orb_true_iff in X as [X|X].
        -- apply str_eqb_eq in X. subst n0. rewrite key_eqb_refl in K. discriminate.
        -- rewrite En, str_eqb_refl in X. discriminate.
    + intros m0 Hm P. exfalso.
      pose proof (ns_forall _ _ _ S2 Hm) as X. simpl in X.
      rewrite P in X. discriminate.
  - (* a namespace created by this step must not be hit by a global that exists already *)
    destruct L as [Lv Ln Ld]. simpl in *. split; simpl.
    + exact Lv.
    + intros rns m0 key Hm.
      change (name_in_module (mkM _ (mods st)) rns (var_ns_sym m0)) with (name_in_module st rns (var_ns_sym m0)).
      intro H. destruct (mem_str m (s_nss (sp st))) eqn:E.
      * simpl in S. apply Ln; assumption.
      * simpl in S. rewrite mem_str_cons in Hm. apply orb_true_iff in Hm as [Hm|Hm]; [|apply Ln; assumption].
        apply str_eqb_eq in Hm. subst m0. exfalso.
        destruct (mem_str rns (s_nss (sp st))) eqn:R.
        -- pose proof (ns_forall _ _ _ S R) as X. simpl in X.
           rewrite H in X. discriminate.
        -- unfold name_in_module in H.
           destruct (ahas (rns, munge (var_ns_sym m)) (mods st)) eqn:A1.
           { apply Ld in A1. simpl in A1. congruence. }
           destruct (ahas (rns, munge_ab (var_ns_sym m)) (mods st)) eqn:A2; [|discriminate].
           apply Ld in A2. simpl in A2. congruence.
    + intros k H. specialize (Ld _ H). destruct (mem_str m (s_nss (sp st))); [exact Ld|].
      rewrite mem_str_cons, Ld. apply orb_true_r.
  - simpl in S. apply andb_true_iff in S as [S1 S2].
    simpl. destruct (mem_str m (s_nss (sp st))); simpl; [|destruct st; exact L].
    apply link_alias; [exact W | exact L | reflexivity | reflexivity | exact S1 | exact S2].
  - simpl in S. apply andb_true_iff in S as [S1 S2].
    simpl. destruct (mem_str m (s_nss (sp st))); simpl; [|destruct st; exact L].
    apply link_alias; [exact W | exact L | reflexivity | reflexivity | exact S1 | exact S2].
  - destruct L as [Lv Ln Ld].
    simpl in *. destruct (aget (m, n) (s_vars (sp st))) as [r|] eqn:E; simpl; [|split; assumption].
    split; simpl.
    + intros m0 n0 r'. rewrite ?aget_aset. destruct (key_eqb (m0, n0) (m, n)) eqn:K.
      * apply key_eqb_eq in K. inversion K. subst. intro H. inversion H. subst r'. simpl. apply Lv. exact E.
      * apply Lv.
    + exact Ln.
    + exact Ld.
Qed.

Lemma link_run h : forall st, wf (sp st) -> link st -> no_collision st h = true -> link (run st h).
Proof.
  unfold run. induction h as [|s h IH]; intros st W L N; simpl; [exact L|].
  simpl in N. apply andb_true_iff in N as [N1 N2].
  apply IH; [rewrite sp_exec; apply wf_sexec; exact W | apply link_exec; assumption | exact N2].
Qed.

Lemma read_var_root st md rns k r :
  aget k (s_vars (sp st)) = Some r -> uses_root md (v_flags r) = true -> read_var st md rns k = OVal (v_root r).
Proof. intros A U. unfold read_var. rewrite A, U. reflexivity. Qed.

Lemma read_var_direct st md rns k r :
  wf (sp st) -> link st -> aget k (s_vars (sp st)) = Some r -> uses_root md (v_flags r) = false ->
  read_var st md rns k = OVal (v_lastdef r) \/ read_var st md rns k = OVal (v_root r).
Proof.
  intros W [Lv Ln Ld] A U. unfold read_var. rewrite A, U. destruct k as [m n]. simpl.
  pose proof (Lv _ _ _ A) as G.
  assert (name_in_module st m n = Some (munge n)) as NM.
  { unfold name_in_module. unfold ahas. rewrite G. reflexivity. }
  rewrite NM. destruct (str_eqb m rns) eqn:E.
  - apply str_eqb_eq in E. subst rns. rewrite G. left. reflexivity.
  - destruct (name_in_module st rns (var_ns_sym m)) as [an|] eqn:NA; [|right; reflexivity].
    rewrite (Ln _ _ _ (wf_vars _ W _ _ A) NA). simpl fst. rewrite G. left. reflexivity.
Qed.

Definition roots_are_defs (st : sstate) : Prop :=
  forall k r, aget k (s_vars st) = Some r -> v_root r = v_lastdef r.

Lemma roots_are_defs_srun h : forall st, roots_are_defs st -> no_alter h = true -> roots_are_defs (srun st h).
Proof.
  unfold srun. induction h as [|s h IH]; intros st R N; simpl; [exact R|].
  simpl in N. apply andb_true_iff in N as [N1 N2]. apply IH; [|exact N2].
  intros k r. rewrite aget_vars_sexec. destruct s; try discriminate; try apply R.
  destruct (key_eqb _ _); [|apply R]. intro H. inversion H. reflexivity.
Qed.
