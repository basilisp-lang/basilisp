(** C10 extension -- thread bindings: concrete histories.  A history that meets all three
    guards and exercises nested bindings, redefinitions and root mutations inside them; and the
    kernel-checked counterexample on the model of the code as it is (finding F-10e, re-run on
    the real implementation by the correspondence check). *)
From Coq Require Import List NArith String.
Import ListNotations.
From Verif Require Import C10.Refuted C10.BNames C10.BProofs.
Local Open Scope N_scope.

Definition dv := T "*v*".
Definition dw := T "*w*".
Definition uu := T "uu".
Definition dyn : flags := mkFlags true false false.

(** (def ^:dynamic *v* 1) (def ^:dynamic *w* 7) (def v 8)
    (binding [*v* 5] (def ^:dynamic *v* 2) (binding [*w* 70] (binding [*v* 6]
       (alter-var-root #'*v* (constantly 3)) (def ^:dynamic *v* 4) <here> ))) *)
Definition h_in : list bstep :=
  [B (SDef dv dyn 1); B (SDef dw dyn 7); B (SDef v plain 8);
   BPush U dv 5; B (SDef dv dyn 2); BPush U dw 70; BPush U dv 6;
   B (SAlter U dv 3); B (SDef dv dyn 4)].
(** ... leaving the two inner forms, a root mutation, leaving the outer one, from another namespace *)
Definition h_out : list bstep :=
  h_in ++ [BPop; BPop; B (SInNs X); B (SRequire U (Some uu)); B (SAlter U dv 9); BPop; B (SDef v plain 10)].

Example bind_guards_nonvacuous :
  no_collision (minit U [U; X]) (base_steps h_out) = true /\
  priv_stable (init U [U; X]) (base_steps h_out) = true /\
  dyn_stable (xsinit U [U; X]) h_out = true.
Proof. vm_compute. repeat split; reflexivity. Qed.

Example bind_reads_inside :
  let st := xafter U [U; X] h_in in
  innermost U h_in (U, dv) = Some (6, true) /\ innermost U h_in (U, dw) = Some (70, true) /\
  innermost U h_in (U, v) = None /\
  last_given U (base_steps h_in) (U, dv) None = Some 4 /\
  xread st Direct (RR U None (Bare dv)) = OVal 6 /\ xread st Indirect (RR U None (Bare dv)) = OVal 6 /\
  xread st Direct (RR X None (Qual U dv)) = OVal 6 /\
  xread st Direct (RR U None (Bare dw)) = OVal 70 /\
  xread st Direct (RR U None (Bare v)) = OVal 8 /\
  xread st Direct (RR U (Some (dv, 77)) (Bare dv)) = OVal 77.
Proof. vm_compute. repeat split; reflexivity. Qed.

Example bind_reads_after :
  let st1 := xafter U [U; X] (h_in ++ [BPop]) in
  let st2 := xafter U [U; X] (h_in ++ [BPop; BPop]) in
  let st := xafter U [U; X] h_out in
  xread st1 Direct (RR U None (Bare dv)) = OVal 5 /\        (* the outer binding again *)
  xread st2 Direct (RR U None (Bare dw)) = OVal 7 /\
  innermost U h_out (U, dv) = None /\
  xread st Direct (RR X None (Qual uu dv)) = OVal 9 /\  (* the root given meanwhile *)
  xread st Indirect (RR X None (Qual U dv)) = OVal 9 /\
  snd (xexec st BPop) = false.                                 (* nothing left to pop *)
Proof. vm_compute. repeat split; reflexivity. Qed.

(** a non-dynamic Var cannot be bound, and nothing is recorded *)
Example push_nondynamic_fails :
  let st := xafter U [U; X] h_in in
  snd (xexec st (BPush U v 1)) = false /\ fst (xexec st (BPush U v 1)) = st /\
  snd (xsexec (xsafter U [U; X] h_in) (BPush U v 1)) = false.
Proof. vm_compute. repeat split; reflexivity. Qed.

(** F-10e: a def that changes the dynamic marking of a bound Var drops its bindings *)
(** (def ^:dynamic *v* 1) (binding [*v* 5] (def *v* 2) (def ^:dynamic *v* 3) *v* ): the Var is
    dynamic and inside its binding, yet the read yields the root 3; leaving the form raises *)
Definition h_flip : list bstep :=
  [B (SDef dv dyn 1); BPush U dv 5; B (SDef dv plain 2); B (SDef dv dyn 3)].

Lemma marking_change_drops_binding :
  let st := xafter U [U] h_flip in
  let xs := xsafter U [U] h_flip in
  resolve [] (sp (base st)) U (Bare dv) = RVar (U, dv) /\
  is_dynamic (sp (base st)) (U, dv) = true /\
  thread_view xs (U, dv) = Some 5 /\ innermost U h_flip (U, dv) = Some (5, false) /\
  xread st Direct (RR U None (Bare dv)) = OVal 3 /\ xread st Indirect (RR U None (Bare dv)) = OVal 3 /\
  bread_ok xs Direct (RR U None (Bare dv)) (OVal 3) = false /\
  snd (xsexec xs BPop) = true /\ snd (xexec st BPop) = false /\
  no_collision (minit U [U]) (base_steps h_flip) = true /\
  priv_stable (init U [U]) (base_steps h_flip) = true /\
  dyn_stable (xsinit U [U]) h_flip = false.
Proof. vm_compute. repeat split; reflexivity. Qed.

(** an enclosing binding is lost as well, and the binding form of ANOTHER Var is still left
    properly afterwards *)
Lemma marking_change_drops_outer_bindings :
  let h := [B (SDef dv dyn 1); B (SDef dw dyn 7); BPush U dv 5; BPush U dw 70; BPush U dv 6;
            B (SDef dv plain 2); B (SDef dv dyn 3); BPop] in
  let st := xafter U [U] h in
  thread_view (xsafter U [U] h) (U, dv) = Some 5 /\
  xread st Direct (RR U None (Bare dv)) = OVal 3 /\
  xread st Direct (RR U None (Bare dw)) = OVal 70 /\
  snd (xexec st BPop) = true /\
  xread (fst (xexec st BPop)) Direct (RR U None (Bare dw)) = OVal 7.
Proof. vm_compute. repeat split; reflexivity. Qed.

Lemma binding_survives_marking_change_refuted :
  exists cur nss h md rns spl k v,
    let st := xafter cur nss h in
    let xs := xsafter cur nss h in
    resolve [] (sp (base st)) rns spl = RVar k /\ is_dynamic (sp (base st)) k = true /\
    thread_view xs k = Some v /\
    xread st md (RR rns None spl) <> OVal v /\
    bread_ok xs md (RR rns None spl) (xread st md (RR rns None spl)) = false /\
    snd (xexec st BPop) <> snd (xsexec xs BPop) /\
    no_collision (minit cur nss) (base_steps h) = true /\ priv_stable (init cur nss) (base_steps h) = true.
Proof.
  exists U, [U], h_flip, Direct, U, (Bare dv), (U, dv), 5.
  destruct marking_change_drops_binding as [R [D [TV [_ [RD [_ [BO [PS [PM [NC [PR _]]]]]]]]]]].
  cbv zeta. rewrite RD, PS, PM.
  split; [exact R|]. split; [exact D|]. split; [exact TV|]. split; [discriminate|].
  split; [exact BO|]. split; [discriminate|]. split; [exact NC | exact PR].
Qed.
