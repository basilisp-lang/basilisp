(** C10 -- kernel-checked counterexamples on the model of the code as it is (each is re-run on
    the real implementation by the correspondence check: findings F-10a, F-10b, F-10c), and
    concrete histories that meet the guards of the partial theorems. *)
From Coq Require Import List NArith String Ascii.
Import ListNotations.
From Verif Require Import Common.ListX C10.Munge C10.MungeProofs C10.Names C10.Theorems.
Local Open Scope N_scope.

Definition T (s : string) : str := map N_of_ascii (list_ascii_of_string s).

Definition U := T "app.u".
Definition X := T "app.foo.bar".
Definition Y := T "app.foo-bar".
Definition Z := T "app.foo_bar".
Definition NSS := [U; X; Y; Z].
Definition v := T "v".
Definition fb := T "fb".
Definition fd := T "fd".

(** F-10a: two names of one namespace share one module global *)
(** after (def p 1) (def q 2): the symbol p denotes Var p, whose last def gave 1 and whose root
    is 1 (that is what var indirection reads), but the directly linked read yields 2 *)
Definition def_collision (p q : str) : Prop :=
  let h := [SDef p plain 1; SDef q plain 2] in
  let st := run (minit U [U]) h in
  p <> q /\
  resolve [] (sp st) U (Bare p) = RVar (U, p) /\
  last_def U h (U, p) None = Some 1 /\ last_given U h (U, p) None = Some 1 /\
  no_alter h = true /\
  read st Indirect (RR U None (Bare p)) = OVal 1 /\
  read st Direct (RR U None (Bare p)) = OVal 2 /\
  no_collision (minit U [U]) h = false.

Lemma def_collision_a_b : def_collision s_a_dash_b s_a_us_b.
Proof. unfold def_collision. vm_compute. repeat split; try reflexivity; discriminate. Qed.
Lemma def_collision_xq : def_collision s_xq s_x_Q.
Proof. unfold def_collision. vm_compute. repeat split; try reflexivity; discriminate. Qed.
Lemma def_collision_plus : def_collision s_plus s_dd_PLUS.
Proof. unfold def_collision. vm_compute. repeat split; try reflexivity; discriminate. Qed.
Lemma def_collision_print : def_collision s_print s_print_us.
Proof. unfold def_collision. vm_compute. repeat split; try reflexivity; discriminate. Qed.
Lemma def_collision_class : def_collision s_class s_class_us.
Proof. unfold def_collision. vm_compute. repeat split; try reflexivity; discriminate. Qed.

(** the unresolvable partner of a defined name trips the analyzer's assertion instead of the
    "unable to resolve symbol" error *)
Lemma undefined_partner_asserts :
  read (run (minit U [U]) [SDef s_print plain 1]) Direct (RR U None (Bare s_print_us)) = OErr E_ASSERT.
Proof. vm_compute. reflexivity. Qed.

(** F-10b: namespaces whose names differ only in '.', '-', '_' share one module alias *)
Definition h_ns : list step :=
  [SInNs X; SDef v plain 1; SInNs Y; SDef v plain 2; SInNs Z; SDef v plain 3; SInNs U;
   SRequire X (Some fb); SRequire Y (Some fd); SRequire Z (Some (T "fu"))].

Lemma ns_collision :
  let st := run (minit U NSS) h_ns in
  var_ns_sym X = var_ns_sym Y /\ var_ns_sym Y = var_ns_sym Z /\
  resolve [] (sp st) U (Qual fb v) = RVar (X, v) /\
  resolve [] (sp st) U (Qual X v) = RVar (X, v) /\
  last_def U h_ns (X, v) None = Some 1 /\ no_alter h_ns = true /\
  read st Indirect (RR U None (Qual fb v)) = OVal 1 /\
  read st Direct (RR U None (Qual fb v)) = OVal 3 /\
  read st Direct (RR U None (Qual X v)) = OVal 3 /\
  read st Direct (RR U None (Qual fd v)) = OVal 3 /\
  no_collision (minit U NSS) h_ns = false.
Proof. vm_compute. repeat split; reflexivity. Qed.

(** the last required namespace need not even define the name: AttributeError at run time *)
Lemma ns_collision_attribute_error :
  let h := [SInNs X; SDef v plain 1; SInNs U; SRequire X (Some fb); SRequire Y (Some fd)] in
  let st := run (minit U NSS) h in
  resolve [] (sp st) U (Qual fb v) = RVar (X, v) /\
  read st Indirect (RR U None (Qual fb v)) = OVal 1 /\
  read st Direct (RR U None (Qual fb v)) = OErr E_ATTR.
Proof. vm_compute. repeat split; reflexivity. Qed.

(** a Var whose munged name is the module alias of a required namespace replaces the module *)
Lemma ns_alias_clobbered_by_def :
  let h := [SInNs X; SDef v plain 1; SInNs U; SRequire X (Some (T "fb")); SDef (T "app-foo-bar") plain 5] in
  let st := run (minit U NSS) h in
  read st Indirect (RR U None (Qual (T "fb") v)) = OVal 1 /\
  read st Direct (RR U None (Qual (T "fb") v)) = OErr E_ATTR.
Proof. vm_compute. repeat split; reflexivity. Qed.

(** F-10c: a Var made private after it was referred stays reachable *)
Definition h_priv : list step :=
  [SInNs X; SDef v plain 1; SInNs U; SRefer X [v]; SInNs X; SDef v (mkFlags false false true) 2; SInNs U].

Lemma private_reachable_via_stale_refer :
  let st := sp (run (minit U NSS) h_priv) in
  resolve [] st U (Bare v) = RVar (X, v) /\ is_private st (X, v) = true /\ X <> U /\
  resolve [] st U (Qual X v) = RPrivate /\
  priv_stable (init U NSS) h_priv = false.
Proof. vm_compute. repeat split; try reflexivity; discriminate. Qed.

(** non-vacuity of the guards *)
Definition W := T "app.w".
Definition h_good : list step :=
  [SInNs X; SDef v plain 1; SDef s_xq plain 2; SDef s_print (mkFlags false true false) 3;
   SDef (T "secret") (mkFlags false false true) 4; SDef s_plus (mkFlags true false false) 5;
   SInNs W; SDef v plain 6; SDef s_class plain 7;
   SInNs U; SRequire X (Some (T "fb")); SRequire W (Some (T "w")); SRefer X [s_xq; T "secret"]; SRefer W [];
   SDef v plain 8; SAlter X v 9; SAlter X s_print 10; SDef s_xq plain 11; SInNs X; SDef v plain 12;
   SAlter W s_class 13].

Example guards_nonvacuous :
  no_collision (minit U [U; X]) h_good = true /\ priv_stable (init U [U; X]) h_good = true.
Proof. vm_compute. split; reflexivity. Qed.

(** on that history a plain Var altered behind the compiler's back shows the permitted
    difference between the modes, a ^:redef one does not *)
Example good_history_reads :
  let st := run (minit U [U; X]) h_good in
  read st Direct (RR U None (Qual (T "fb") v)) = OVal 12 /\
  read st Indirect (RR U None (Qual (T "fb") v)) = OVal 12 /\
  read st Direct (RR U None (Qual (T "fb") s_print)) = OVal 10 /\
  read st Direct (RR U None (Bare s_xq)) = OVal 11 /\
  read st Direct (RR U None (Qual X s_xq)) = OVal 2 /\
  read st Direct (RR U None (Qual (T "fb") (T "secret"))) = OErr E_PRIVATE /\
  read st Direct (RR U None (Bare s_class)) = OVal 7 /\
  read st Indirect (RR U None (Bare s_class)) = OVal 13 /\
  read st Direct (RR U (Some (v, 77)) (Bare v)) = OVal 77 /\
  read st Direct (RR U (Some (v, 77)) (Qual U v)) = OVal 8.
Proof. vm_compute. repeat split; reflexivity. Qed.

Definition h_good_defs_only : list step := filter (fun s => negb (is_alter s)) h_good.
Example modes_agree_nonvacuous :
  no_collision (minit U [U; X]) h_good_defs_only = true /\ no_alter h_good_defs_only = true.
Proof. vm_compute. split; reflexivity. Qed.

(** the refutations in the form quoted by Properties/C10.v *)
Lemma munge_collision_refuted :
  exists cur nss h rns spl k v,
    let st := after cur nss h in
    no_alter h = true /\
    resolve [] (sp st) rns spl = RVar k /\ last_def cur h k None = Some v /\
    read st Indirect (RR rns None spl) = OVal v /\ read st Direct (RR rns None spl) <> OVal v /\
    (exists p q fl1 fl2 v1 v2, h = [SDef p fl1 v1; SDef q fl2 v2] /\ p <> q /\ munge p = munge q).
Proof.
  exists U, [U], [SDef s_a_dash_b plain 1; SDef s_a_us_b plain 2], U, (Bare s_a_dash_b), (U, s_a_dash_b), 1.
  destruct def_collision_a_b as [NE [R [LD [_ [NA [RI [RD _]]]]]]].
  split; [exact NA|]. split; [exact R|]. split; [exact LD|]. split; [exact RI|]. split.
  - unfold after. rewrite RD. discriminate.
  - exists s_a_dash_b, s_a_us_b, plain, plain, 1, 2.
    split; [reflexivity|]. split; [exact NE | exact (proj1 munge_collisions)].
Qed.

Lemma ns_collision_refuted :
  exists cur nss h rns spl k v,
    let st := after cur nss h in
    no_alter h = true /\
    resolve [] (sp st) rns spl = RVar k /\ last_def cur h k None = Some v /\
    read st Indirect (RR rns None spl) = OVal v /\ read st Direct (RR rns None spl) <> OVal v /\
    (exists m1 m2, m1 <> m2 /\ mem_str m1 nss = true /\ mem_str m2 nss = true /\ var_ns_sym m1 = var_ns_sym m2).
Proof.
  exists U, NSS, h_ns, U, (Qual fb v), (X, v), 1.
  destruct ns_collision as [E1 [_ [R [_ [LD [NA [RI [RD _]]]]]]]].
  split; [exact NA|]. split; [exact R|]. split; [exact LD|]. split; [exact RI|]. split.
  - unfold after. rewrite RD. discriminate.
  - exists X, Y. split; [vm_compute; discriminate|]. split; [vm_compute; reflexivity|].
    split; [vm_compute; reflexivity | exact E1].
Qed.

Lemma private_unreachable_refuted :
  exists cur nss h rns spl k,
    let st := sp (after cur nss h) in
    resolve [] st rns spl = RVar k /\ is_private st k = true /\ fst k <> rns.
Proof.
  exists U, NSS, h_priv, U, (Bare v), (X, v).
  destruct private_reachable_via_stale_refer as [A [B [C _]]]. exact (conj A (conj B C)).
Qed.
