(** C10 -- the theorems, stated over ALL histories from an initial state with no Vars. *)
From Coq Require Import List NArith Bool.
Import ListNotations.
From Verif Require Import Common.ListX C10.Munge C10.MungeProofs C10.Names C10.Proofs.
Local Open Scope N_scope.

Definition after (cur : str) (nss : list str) (h : list step) : state := run (minit cur nss) h.

Lemma sp_after cur nss h : sp (after cur nss h) = srun (init cur nss) h.
Proof. unfold after. rewrite sp_run. reflexivity. Qed.

Lemma wf_after cur nss h : wf (sp (after cur nss h)).
Proof. rewrite sp_after. apply wf_srun. apply wf_init. Qed.

(** two different bare names never denote the same Var *)
Theorem names_distinct cur nss h locals rns n1 n2 k :
  let st := sp (after cur nss h) in
  resolve locals st rns (Bare n1) = RVar k -> resolve locals st rns (Bare n2) = RVar k -> n1 = n2.
Proof.
  intros st H1 H2. pose proof (wf_after cur nss h) as W.
  apply (resolve_name _ _ _ _ _ W) in H1. apply (resolve_name _ _ _ _ _ W) in H2. simpl in *. congruence.
Qed.

Lemma refers_public_after cur nss h : priv_stable (init cur nss) h = true -> refers_public (sp (after cur nss h)).
Proof. intro P. rewrite sp_after. apply refers_public_srun; [apply wf_init | | exact P]. intros a b X. discriminate X. Qed.

(** what the guard buys is [refers_public], in any state *)
Lemma private_unreachable_of_public locals st rns spl k :
  refers_public st -> resolve locals st rns spl = RVar k -> is_private st k = true -> fst k = rns.
Proof.
  intros P H Pk. destruct (str_eqb (fst k) rns) eqn:E; [apply str_eqb_eq; exact E|]. exfalso.
  apply str_eqb_neq in E. pose proof (private_only_via_refer _ _ _ _ _ H Pk E) as R.
  pose proof (P _ _ R). congruence.
Qed.

Theorem private_unreachable_partial cur nss h locals rns spl k :
  let st := sp (after cur nss h) in
  priv_stable (init cur nss) h = true ->
  resolve locals st rns spl = RVar k -> is_private st k = true -> fst k = rns.
Proof. intros st P. exact (private_unreachable_of_public locals st rns spl k (refers_public_after cur nss h P)). Qed.

(** from ANY state with a well-formed Var store: the Var a symbol denotes exists, and its
    record holds the values the history gave last *)
Lemma denoted_record_from st0 h locals rns spl k :
  wf (sp st0) ->
  resolve locals (sp (run st0 h)) rns spl = RVar k ->
  exists r, aget k (s_vars (sp (run st0 h))) = Some r /\
    last_def (s_cur (sp st0)) h k (option_map v_lastdef (aget k (s_vars (sp st0)))) = Some (v_lastdef r) /\
    last_given (s_cur (sp st0)) h k (option_map v_root (aget k (s_vars (sp st0)))) = Some (v_root r).
Proof.
  intros W H. assert (W' : wf (sp (run st0 h))) by (rewrite sp_run; apply wf_srun, W).
  destruct (resolve_exists _ _ _ _ _ W' H) as [r A]. exists r. split; [exact A|].
  rewrite sp_run in A. destruct (last_given_srun h (sp st0) k) as [G D]. rewrite A in G, D.
  exact (conj D G).
Qed.

Lemma roots_are_defs_after cur nss h : no_alter h = true -> roots_are_defs (sp (after cur nss h)).
Proof. intro NA. rewrite sp_after. apply roots_are_defs_srun; [|exact NA]. intros k r X. discriminate X. Qed.

(** With var indirection, and for ^:dynamic / ^:redef Vars in either mode, a read yields the
    value most recently given to the denoted Var by def or root mutation: NO condition on the
    history (munge plays no role). *)
Theorem read_root cur nss h md rns loc spl k :
  let st := after cur nss h in
  resolve (locals_of loc) (sp st) rns spl = RVar k ->
  exists r, aget k (s_vars (sp st)) = Some r /\
            last_given cur h k None = Some (v_root r) /\
            (uses_root md (v_flags r) = true -> read st md (RR rns loc spl) = OVal (v_root r)).
Proof.
  intros st H. destruct (denoted_record_from (minit cur nss) h _ _ _ _ (wf_init cur nss) H) as [r [A [_ G]]].
  exists r. split; [exact A|]. split; [exact G|].
  intro U. unfold read. fold st. rewrite H. apply read_var_root; assumption.
Qed.

Theorem read_indirect cur nss h rns loc spl k :
  let st := after cur nss h in
  resolve (locals_of loc) (sp st) rns spl = RVar k ->
  exists v, last_given cur h k None = Some v /\ read st Indirect (RR rns loc spl) = OVal v.
Proof.
  intros st H. destruct (read_root cur nss h Indirect rns loc spl k H) as [r [_ [G R]]].
  exists (v_root r). split; [exact G | apply R; reflexivity].
Qed.

(** From ANY state with a well-formed Var store in which the linking invariant holds, under
    the guard, in either mode: a read of a symbol denoting Var k yields the value last
    given to k -- by def, and, when the Var is dynamic/redef or indirection is on, also by root
    mutation; a directly linked plain Var yields the value of its last def, or its root when
    no link could be made. *)
Theorem read_after_def_from st0 h md rns loc spl k :
  let st := run st0 h in
  wf (sp st0) -> link st0 -> no_collision st0 h = true ->
  resolve (locals_of loc) (sp st) rns spl = RVar k ->
  exists r, aget k (s_vars (sp st)) = Some r /\
    last_def (s_cur (sp st0)) h k (option_map v_lastdef (aget k (s_vars (sp st0)))) = Some (v_lastdef r) /\
    last_given (s_cur (sp st0)) h k (option_map v_root (aget k (s_vars (sp st0)))) = Some (v_root r) /\
    (if uses_root md (v_flags r)
     then read st md (RR rns loc spl) = OVal (v_root r)
     else read st md (RR rns loc spl) = OVal (v_lastdef r) \/
          read st md (RR rns loc spl) = OVal (v_root r)).
Proof.
  intros st W L N H. destruct (denoted_record_from _ _ _ _ _ _ W H) as [r [A [D G]]].
  exists r. split; [exact A|]. split; [exact D|]. split; [exact G|].
  unfold read. fold st in A. rewrite H.
  destruct (uses_root md (v_flags r)) eqn:U.
  - apply read_var_root; assumption.
  - apply read_var_direct; try assumption; [unfold st; rewrite sp_run; apply wf_srun, W | apply link_run; assumption].
Qed.

Theorem read_after_def_partial cur nss h md rns loc spl k :
  let st := after cur nss h in
  no_collision (minit cur nss) h = true ->
  resolve (locals_of loc) (sp st) rns spl = RVar k ->
  exists r, aget k (s_vars (sp st)) = Some r /\
            last_def cur h k None = Some (v_lastdef r) /\
            last_given cur h k None = Some (v_root r) /\
            (if uses_root md (v_flags r)
             then read st md (RR rns loc spl) = OVal (v_root r)
             else read st md (RR rns loc spl) = OVal (v_lastdef r) \/
                  read st md (RR rns loc spl) = OVal (v_root r)).
Proof. exact (read_after_def_from (minit cur nss) h md rns loc spl k (wf_init cur nss) (link_init cur nss)). Qed.

Theorem read_is_last_def_partial cur nss h md rns loc spl k :
  let st := after cur nss h in
  no_collision (minit cur nss) h = true -> no_alter h = true ->
  resolve (locals_of loc) (sp st) rns spl = RVar k ->
  exists v, last_def cur h k None = Some v /\ read st md (RR rns loc spl) = OVal v.
Proof.
  intros st N NA H.
  destruct (read_after_def_partial cur nss h md rns loc spl k N H) as [r [A [D [_ R]]]].
  fold st in A, R. exists (v_lastdef r). split; [exact D|].
  pose proof (roots_are_defs_after cur nss h NA _ _ A) as E.
  destruct (uses_root md (v_flags r)); [rewrite <- E; exact R|].
  destruct R as [R|R]; rewrite R; [|rewrite E]; reflexivity.
Qed.

(** hence, when roots are changed only through def, both linking modes read the same: the
    mode matters only for a symbol that denotes a Var, and then both read its last def *)
Theorem modes_agree_partial cur nss h rq :
  let st := after cur nss h in
  no_collision (minit cur nss) h = true -> no_alter h = true ->
  read st Direct rq = read st Indirect rq.
Proof.
  intros st N NA. destruct rq as [rns loc spl].
  destruct (resolve (locals_of loc) (sp st) rns spl) as [|k| | |] eqn:H;
    try (unfold read; rewrite H; reflexivity).
  destruct (read_is_last_def_partial cur nss h Direct rns loc spl k N NA H) as [v1 [D1 R1]].
  destruct (read_is_last_def_partial cur nss h Indirect rns loc spl k N NA H) as [v2 [D2 R2]].
  fold st in R1, R2. rewrite R1, R2. congruence.
Qed.

(** the model's reads always satisfy the specification's acceptance predicate under the
    guards (this is what the correspondence run evaluates per case) *)
Theorem model_meets_spec_partial cur nss h md rq :
  let st := after cur nss h in
  no_collision (minit cur nss) h = true -> priv_stable (init cur nss) h = true ->
  read_ok (sp st) md rq (read st md rq) = true.
Proof.
  intros st N P. destruct rq as [rns loc spl]. unfold read_ok, read.
  destruct (resolve (locals_of loc) (sp st) rns spl) as [|k| | |] eqn:H.
  - destruct loc as [[x v]|].
    + simpl. apply N.eqb_refl.
    + exfalso. exact (resolve_not_local _ _ _ H).
  - destruct (is_private (sp st) k && negb (str_eqb (fst k) rns)) eqn:PV.
    + exfalso. apply andb_true_iff in PV as [P1 P2]. apply negb_true_iff in P2. apply str_eqb_neq in P2.
      apply P2. eapply (private_unreachable_partial cur nss h); eauto.
    + destruct (read_after_def_partial cur nss h md rns loc spl k N H) as [r [A [_ [_ R]]]].
      fold st in A, R. unfold read in R. rewrite H in R. rewrite A.
      destruct (uses_root md (v_flags r)).
      * rewrite R. simpl. rewrite N.eqb_refl. reflexivity.
      * destruct R as [R|R]; rewrite R; simpl; rewrite N.eqb_refl; simpl; [apply orb_true_r | reflexivity].
  - reflexivity.
  - reflexivity.
  - destruct spl as [n|q n]; [|reflexivity].
    destruct (negb (has_dot n) && ahas (rns, munge_ab n) (mods st)); reflexivity.
Qed.

(** the guard is not vacuous: it holds for EVERY history of defs and alter-var-roots of
    plain names (no '_', '-', '.') in one namespace, provided no defined name munges to
    the module alias of an existing namespace *)
Definition def_only (s : step) : bool :=
  match s with SDef n _ _ => plain_name n | SAlter _ _ _ => true | _ => false end.
Definition avoids_aliases (nss : list str) (s : step) : bool :=
  match s with
  | SDef n _ _ => forallb (fun m => negb (mem_str (munge n) (probes (var_ns_sym m)))) nss
  | _ => true
  end.

Lemma interned_names_aset st k r c :
  interned_names (mkS (s_cur st) (s_nss st) (aset k r (s_vars st)) (s_refers st) (s_aliases st)) c
  = if str_eqb (fst k) c then snd k :: interned_names st c else interned_names st c.
Proof. unfold interned_names, aset. simpl. destruct (str_eqb (fst k) c); reflexivity. Qed.

Lemma plain_defs_no_collision h : forall st,
  forallb def_only h = true ->
  forallb (avoids_aliases (s_nss (sp st))) h = true ->
  forallb plain_name (interned_names (sp st) (s_cur (sp st))) = true ->
  no_collision st h = true.
Proof.
  induction h as [|s h IH]; intros st D A P; [reflexivity|].
  simpl in D, A. apply andb_true_iff in D as [D1 D2]. apply andb_true_iff in A as [A1 A2].
  destruct s as [n fl v|m|m a|m only|m n v]; simpl in D1; try discriminate.
  - cbn [no_collision]. apply andb_true_iff. split.
    + cbn [step_safe]. apply andb_true_iff. split; [|exact A1].
      apply forallb_forall. intros n' I.
      pose proof (proj1 (forallb_forall _ _) P _ I) as Pn'.
      destruct (str_eqb (munge n) (munge n')) eqn:E.
      * apply str_eqb_eq in E. apply (munge_inj_plain false false) in E; try assumption.
        subst. rewrite str_eqb_refl. reflexivity.
      * apply orb_true_r.
    + apply IH; [exact D2 | | ].
      * rewrite sp_exec. exact A2.
      * rewrite sp_exec. cbn [sexec fst s_cur]. rewrite interned_names_aset. cbn [fst snd].
        rewrite str_eqb_refl. cbn [forallb]. rewrite D1. exact P.
  - cbn [no_collision step_safe]. cbn [andb]. apply IH; [exact D2 | | ].
    + rewrite sp_exec. cbn [sexec]. destruct (aget (m, n) (s_vars (sp st))); exact A2.
    + rewrite sp_exec. cbn [sexec]. destruct (aget (m, n) (s_vars (sp st))) as [r|] eqn:E; [|exact P].
      cbn [fst s_cur]. rewrite interned_names_aset. cbn [fst snd].
      destruct (str_eqb m (s_cur (sp st))) eqn:M; [|exact P].
      apply str_eqb_eq in M. subst m. cbn [forallb]. rewrite P.
      rewrite (interned_forall _ _ _ _ _ P E). reflexivity.
Qed.

Corollary plain_defs_guard cur h :
  forallb def_only h = true -> forallb (avoids_aliases [cur]) h = true ->
  no_collision (minit cur [cur]) h = true.
Proof.
  intros D A. apply plain_defs_no_collision; [exact D | | reflexivity].
  simpl. unfold init. simpl. rewrite mem_str_cons, str_eqb_refl. exact A.
Qed.
