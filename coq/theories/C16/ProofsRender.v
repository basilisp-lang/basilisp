(** C16 -- plain text (Spec.pform) is read back exactly, with the spans its sub-forms really
    occupy; text that stops where a plain form is still owed (Spec.pctx) gives an unexpected-EOF
    error.  All statements are "for every fuel: out of fuel or the stated answer" ([upto]); the
    top-level theorems combine them with read_all_terminates. *)
From Coq Require Import List NArith ZArith Bool Lia.
Import ListNotations.
From Verif Require Import Common.ListX C16.Reader C16.Spec C16.ProofsLoc C16.ProofsTerm.
Local Open Scope N_scope.

Definition letters : list N := map N.of_nat (seq 97 26).
Lemma letter_in c : is_letter c = true -> In c letters.
Proof.
  unfold is_letter. intros H. apply andb_true_iff in H as [H1 H2].
  apply N.leb_le in H1, H2. unfold letters. apply in_map_iff. exists (N.to_nat c).
  split; [apply N2Nat.id|]. apply in_seq. lia.
Qed.
Definition letter_props (c : N) : bool :=
  negb (is_ws c) && negb (is_term c) && negb (is_begin_num c) && (dispatch_code c =? 255)
  && is_begin_name c && negb (c =? 58) && negb (is_udigit c) && negb (c =? 47) && negb (c =? 35)
  && negb (c =? 41) && negb (c =? 93) && negb (c =? 34).
Lemma letters_ok : forallb letter_props letters = true.
Proof. vm_compute. reflexivity. Qed.
Lemma letter_ok c : is_letter c = true -> letter_props c = true.
Proof. intros H. apply letter_in in H. pose proof letters_ok as A. rewrite forallb_forall in A. auto. Qed.

Lemma letter_facts c : is_letter c = true ->
  is_ws c = false /\ is_term c = false /\ is_begin_num c = false /\ dispatch_code c = 255 /\
  is_begin_name c = true /\ (c =? 58) = false /\ is_udigit c = false /\ (c =? 47) = false /\
  (c =? 35) = false /\ (c =? 41) = false /\ (c =? 93) = false /\ (c =? 34) = false.
Proof.
  intros H. pose proof (letter_ok c H) as P. unfold letter_props in P.
  repeat match goal with
         | X : _ && _ = true |- _ => apply andb_true_iff in X; destruct X
         end.
  repeat match goal with
         | X : negb _ = true |- _ => apply negb_true_iff in X
         end.
  match goal with X : (dispatch_code c =? 255) = true |- _ => apply N.eqb_eq in X end.
  repeat split; assumption.
Qed.
(** [lfacts c H]: the facts of [letter_facts] about [c], named Lws Lterm Lnum Ldisp Lname Ldig (whitespace,
    terminator, number start, dispatch, name start, digit) and L58 L47 L35 L41 L93 L34 (the characters
    : / # ) ] and the double quote) *)
Ltac lfacts c H :=
  destruct (letter_facts c H) as (Lws & Lterm & Lnum & Ldisp & Lname & L58 & Ldig & L47 & L35 & L41 & L93 & L34).

Definition tcond (r : list N) : Prop :=
  r = [] \/ exists c r', r = c :: r' /\ (is_ws c || is_term c) = true.

Lemma take_token_letters name : forall r s acc n,
  rest s = name ++ r -> forallb is_letter name = true -> tcond r -> (length name <= n)%nat ->
  take_token n s acc = (rev acc ++ name, adv_n (length name) s).
Proof.
  induction name as [|c t IH]; intros r s acc n E F T L.
  - simpl in *. rewrite app_nil_r. destruct n; simpl; [reflexivity|].
    destruct T as [->|(d & r' & -> & W)].
    + rewrite (peek_nil _ E). reflexivity.
    + rewrite (peek_rest _ _ _ E). rewrite W. reflexivity.
  - simpl in F. apply andb_true_iff in F as [Fc Ft]. destruct n; [simpl in L; lia|].
    simpl. rewrite (peek_rest _ _ _ E). lfacts c Fc.
    rewrite Lws, Lterm. cbn [orb].
    erewrite IH; [|eapply adv_rest; exact E|exact Ft|exact T|simpl in L; lia].
    simpl. rewrite <- app_assoc. reflexivity.
Qed.

Lemma after_last_slash_none l acc : forallb is_letter l = true -> after_last_slash acc l = acc.
Proof.
  revert acc. induction l as [|c t IH]; intros acc F; simpl; [reflexivity|].
  simpl in F. apply andb_true_iff in F as [Fc Ft]. lfacts c Fc. rewrite L47. apply IH. exact Ft.
Qed.
Lemma split_slash_none l : forallb is_letter l = true -> split_slash l = None.
Proof.
  induction l as [|c t IH]; intros F; simpl; [reflexivity|].
  simpl in F. apply andb_true_iff in F as [Fc Ft]. lfacts c Fc. rewrite L47, (IH Ft). reflexivity.
Qed.
Lemma ident_ok_letters name :
  name <> [] -> forallb is_letter name = true -> ident_ok name = true /\ split_ident name = (None, name).
Proof.
  intros NE F. destruct name as [|c t]; [congruence|]. pose proof F as F0.
  simpl in F. apply andb_true_iff in F as [Fc Ft]. lfacts c Fc.
  assert (N47 : c <> 47) by (apply N.eqb_neq; assumption).
  assert (S47 : str_eqb (c :: t) [47] = false).
  { unfold str_eqb. cbn [list_eqb]. rewrite L47. reflexivity. }
  split.
  - unfold ident_ok. rewrite S47. rewrite (after_last_slash_none _ None F0).
    unfold name_start. rewrite Ldig, L47. reflexivity.
  - unfold split_ident. rewrite S47. rewrite (split_slash_none _ F0). reflexivity.
Qed.

Lemma ends_with_letters name c0 : forallb is_letter name = true -> is_letter c0 = false -> ends_with c0 name = false.
Proof.
  intros F NL. unfold ends_with. destruct (rev name) as [|d l] eqn:E; [reflexivity|].
  assert (I : In d name) by (apply in_rev; rewrite E; left; reflexivity).
  rewrite forallb_forall in F. specialize (F _ I).
  destruct (N.eqb_spec d c0); [subst; congruence|reflexivity].
Qed.

Lemma read_sym_render cx name r s :
  sq cx = false -> rest s = name ++ r -> wf (PSym name) = true -> tcond r ->
  read_sym cx false s = Ok (FSym None name (mkloc s (adv_n (length name) s))) (adv_n (length name) s).
Proof.
  intros SQ E W T. simpl in W. apply andb_true_iff in W as [W R]. apply andb_true_iff in W as [NE F].
  assert (NE' : name <> []) by (destruct name; [discriminate|congruence]).
  destruct (ident_ok_letters name NE' F) as [IO SI].
  unfold read_sym, read_namespaced, token.
  rewrite (take_token_letters name r s [] (length (rest s)) E F T) by (rewrite E, app_length; lia).
  simpl. rewrite IO. simpl. rewrite SI. rewrite SQ. simpl.
  rewrite (ends_with_letters name 35 F eq_refl).
  apply negb_true_iff in R. unfold reserved in R.
  apply orb_false_iff in R as [R R3]. apply orb_false_iff in R as [R1 R2].
  unfold s_nil, s_true, s_false. rewrite R1, R2, R3. reflexivity.
Qed.

Definition upto {A} (r e : res A) : Prop := r = Err EFuel \/ r = e.
Lemma upto_trans {A} (a b c : res A) : upto a b -> upto b c -> upto a c.
Proof. intros [->| ->]; [left; reflexivity|exact (fun H => H)]. Qed.
Lemma upto_bind {A B} (r : res A) a s' (f : A -> st -> res B) e :
  upto r (Ok a s') -> upto (f a s') e -> upto (bind r f) e.
Proof. intros [->| ->]; [left; reflexivity|exact (fun H => H)]. Qed.

Definition upto_eof {A} (r : res A) : Prop := r = Err EFuel \/ exists l c, r = Err (EEof l c).
Lemma upto_eof_eof {A} s : @upto_eof A (eof s).
Proof. right. eexists _, _. reflexivity. Qed.
Lemma upto_eof_bind {A B} (r : res A) (f : A -> st -> res B) : upto_eof r -> upto_eof (bind r f).
Proof. intros [->|(l & c & ->)]; [left|right; eexists _, _]; reflexivity. Qed.
Lemma upto_eof_upto {A} (r r' : res A) : upto r r' -> upto_eof r' -> upto_eof r.
Proof. intros [->| ->]; [left; reflexivity|exact (fun H => H)]. Qed.

Definition strchars_ok (c : list N) : bool := forallb (fun x => negb (x =? 34) && negb (x =? 92)) c.

Lemma str_loop_char c n s acc r :
  rest (adv s) = c :: r -> (c =? 34) = false -> (c =? 92) = false ->
  str_loop false (S n) s acc = str_loop false n (adv s) (c :: acc).
Proof. intros E W34 W92. cbn [str_loop]. rewrite (peek_rest _ _ _ E), W92, W34. reflexivity. Qed.

Lemma str_loop_render chars : forall r s acc n,
  rest (adv s) = chars ++ 34 :: r -> strchars_ok chars = true ->
  upto (str_loop false n s acc) (Ok (rev acc ++ chars) (adv (adv_n (length chars) (adv s)))).
Proof.
  induction chars as [|c t IH]; intros r s acc n E W; (destruct n; [left; reflexivity|]).
  - right. cbn [str_loop]. rewrite (peek_rest _ _ _ E). rewrite app_nil_r. reflexivity.
  - simpl in W. apply andb_true_iff in W as [Wc Wt].
    apply andb_true_iff in Wc as [W34 W92]. apply negb_true_iff in W34, W92.
    rewrite (str_loop_char c n s acc _ E W34 W92).
    eapply upto_trans; [apply (IH r); [eapply adv_rest; exact E|exact Wt]|].
    right. simpl. rewrite <- app_assoc. reflexivity.
Qed.

Lemma str_loop_open chars : forall s acc n,
  rest (adv s) = chars -> strchars_ok chars = true -> upto_eof (str_loop false n s acc).
Proof.
  induction chars as [|c t IH]; intros s acc n E W; (destruct n; [left; reflexivity|]).
  - cbn [str_loop]. rewrite (peek_nil _ E). apply upto_eof_eof.
  - simpl in W. apply andb_true_iff in W as [Wc Wt].
    apply andb_true_iff in Wc as [W34 W92]. apply negb_true_iff in W34, W92.
    rewrite (str_loop_char c n s acc _ E W34 W92).
    apply IH; [eapply adv_rest; exact E|exact Wt].
Qed.

Fixpoint reify (f : pform) (s : st) : form :=
  let e := adv_n (length (render f)) s in
  let fix seq (l : list pform) (s : st) : list form :=
    match l with
    | [] => []
    | x :: r => reify x s :: seq r (adv_n (S (length (render x))) s)
    end in
  match f with
  | PSym n => FSym None n (mkloc s e)
  | PStr c => FStr c
  | PList l => FList (seq l (adv s)) (mkloc s e)
  | PVec l => FVec (seq l (adv s)) (mkloc s e)
  | PQuote g => FList [FSym None s_quote None; reify g (adv s)] (mkloc s e)
  | PDeref g => FList [FSym (Some s_core) s_deref None; reify g (adv s)] (mkloc s e)
  end.
Fixpoint reify_seq (l : list pform) (s : st) : list form :=
  match l with
  | [] => []
  | x :: r => reify x s :: reify_seq r (adv_n (S (length (render x))) s)
  end.

(** Lists and vectors, and the two prefixes, differ in their delimiters only: [true] is the list
    and the quote. *)
Definition opener (p : bool) : N := if p then 40 else 91.
Definition closer (p : bool) : N := if p then 41 else 93.
Definition pcoll (p : bool) : list pform -> pform := if p then PList else PVec.
Definition fcoll (p : bool) : list form -> option span -> form := if p then FList else FVec.
Definition prefix (q : bool) : N := if q then 39 else 64.
Definition ppre (q : bool) : pform -> pform := if q then PQuote else PDeref.
Definition fhead (q : bool) : form := if q then FSym None s_quote None else FSym (Some s_core) s_deref None.

Lemma render_seq_eq l :
  (fix seq (l : list pform) : list N :=
     match l with [] => [] | [x] => render x | x :: r => render x ++ 32 :: seq r end) l = render_seq l.
Proof.
  induction l as [|x r IH]; [reflexivity|]. destruct r as [|y r]; [reflexivity|].
  change (render_seq (x :: y :: r)) with (render x ++ 32 :: render_seq (y :: r)). rewrite <- IH. reflexivity.
Qed.
Lemma render_coll p l : render (pcoll p l) = opener p :: render_seq l ++ [closer p].
Proof. destruct p; cbn [pcoll render]; rewrite render_seq_eq; reflexivity. Qed.
Lemma render_coll_length p l : length (render (pcoll p l)) = S (S (length (render_seq l))).
Proof. rewrite render_coll. cbn [length]. rewrite app_length. cbn [length]. lia. Qed.
Definition sep (t : list pform) (tail : list N) : list N :=
  match t with [] => tail | _ => 32 :: render_seq t ++ tail end.
Lemma render_seq_cons x t tail : render_seq (x :: t) ++ tail = render x ++ sep t tail.
Proof. destruct t; [reflexivity|]. cbn [render_seq sep]. rewrite <- app_assoc. reflexivity. Qed.

Lemma reify_seq_eq l : forall s,
  (fix seq (l : list pform) (s : st) : list form :=
     match l with [] => [] | x :: r => reify x s :: seq r (adv_n (S (length (render x))) s) end) l s
  = reify_seq l s.
Proof. induction l as [|x r IH]; intros s; [reflexivity|]. cbn [reify_seq]. rewrite IH. reflexivity. Qed.
Lemma reify_coll p l s :
  reify (pcoll p l) s = fcoll p (reify_seq l (adv s)) (mkloc s (adv_n (length (render (pcoll p l))) s)).
Proof. destruct p; cbn [pcoll reify]; rewrite reify_seq_eq; reflexivity. Qed.
Lemma reify_pre q g s :
  reify (ppre q g) s = FList [fhead q; reify g (adv s)] (mkloc s (adv_n (S (length (render g))) s)).
Proof. destruct q; reflexivity. Qed.

Lemma reify_not_rcond f s : match reify f s with FRCond _ _ => False | _ => True end.
Proof. destruct f; exact I. Qed.

Definition form_head (c : N) : Prop :=
  is_ws c = false /\ (c =? 41) = false /\ (c =? 93) = false.
Lemma render_head f : wf f = true -> exists c t, render f = c :: t /\ form_head c.
Proof.
  destruct f; intros W; [|eexists _, _; (split; [reflexivity|]); repeat split; reflexivity..].
  simpl in W. apply andb_true_iff in W as [W _]. apply andb_true_iff in W as [NE F].
  destruct name as [|c t]; [discriminate|]. exists c, t. split; [reflexivity|].
  simpl in F. apply andb_true_iff in F as [Fc _]. lfacts c Fc. repeat split; assumption.
Qed.

Section PInd.
  Variable P : pform -> Prop.
  Hypothesis HSym : forall n, P (PSym n).
  Hypothesis HStr : forall c, P (PStr c).
  Hypothesis HList : forall l, Forall P l -> P (PList l).
  Hypothesis HVec : forall l, Forall P l -> P (PVec l).
  Hypothesis HQ : forall g, P g -> P (PQuote g).
  Hypothesis HD : forall g, P g -> P (PDeref g).
  Fixpoint pform_ind' (f : pform) : P f :=
    match f with
    | PSym n => HSym n
    | PStr c => HStr c
    | PList l => HList l ((fix go (l : list pform) : Forall P l :=
                             match l with [] => Forall_nil _ | x :: r => Forall_cons _ (pform_ind' x) (go r) end) l)
    | PVec l => HVec l ((fix go (l : list pform) : Forall P l :=
                           match l with [] => Forall_nil _ | x :: r => Forall_cons _ (pform_ind' x) (go r) end) l)
    | PQuote g => HQ g (pform_ind' g)
    | PDeref g => HD g (pform_ind' g)
    end.
End PInd.

Lemma skipws_nonws s c : peek s = Some c -> is_ws c = false -> skipws s = s.
Proof.
  intros P W. unfold skipws. apply peek_some in P as [r E]. rewrite E. simpl.
  rewrite (peek_rest _ _ _ E), W. reflexivity.
Qed.

Lemma tcond_nil : tcond [].
Proof. left. reflexivity. Qed.
Lemma tcond_closer p r : tcond (closer p :: r).
Proof. right. eexists _, _. split; [reflexivity|]. destruct p; reflexivity. Qed.
Lemma tcond_space r : tcond (32 :: r).
Proof. right. eexists _, _. split; reflexivity. Qed.
Lemma tcond_sep t tail : tcond tail -> tcond (sep t tail).
Proof. intros T. destruct t; [exact T|apply tcond_space]. Qed.

Section Core.
  Variable orc : N -> list N -> bool.
  Notation form_ r := (bind r (fun f s' => Ok (IForm f) s')).

  Lemma read_next_letter k cx s c r : rest s = c :: r -> is_letter c = true ->
    read_next orc (S k) cx s = form_ (read_sym cx false s).
  Proof.
    intros E F. lfacts c F. cbn [read_next]. rewrite (peek_rest _ _ _ E), Lnum, Lws, Ldisp, Lname, L58.
    reflexivity.
  Qed.
  Lemma read_next_str k cx s r : rest s = 34 :: r ->
    read_next orc (S k) cx s = form_ (bind (read_str false s) (fun p s' => Ok (FStr p) s')).
  Proof. intros E. cbn [read_next]. rewrite (peek_rest _ _ _ E). reflexivity. Qed.
  Lemma read_next_coll p k cx s r : rest s = opener p :: r ->
    read_next orc (S k) cx s =
    form_ (bind (read_elems orc (read_next orc k) cx (closer p) (adv s))
                (fun l s' => Ok (fcoll p l (mkloc s s')) s')).
  Proof. intros E. cbn [read_next]. rewrite (peek_rest _ _ _ E). destruct p; reflexivity. Qed.
  Lemma read_next_prefix q k cx s r : rest s = prefix q :: r ->
    read_next orc (S k) cx s =
    form_ (bind (req (read_next orc k) cx (adv s)) (fun f s' => Ok (FList [fhead q; f] (mkloc s s')) s')).
  Proof. intros E. cbn [read_next]. rewrite (peek_rest _ _ _ E). destruct q; reflexivity. Qed.

  Definition reads_back (f : pform) : Prop :=
    wf f = true -> forall fuel cx s r,
      sq cx = false -> rest s = render f ++ r -> tcond r ->
      upto (read_next orc fuel cx s) (Ok (IForm (reify f s)) (adv_n (length (render f)) s)).

  Section Coll.
    Variables (k : nat) (cx : ctx) (p : bool).
    Hypothesis SQ : sq cx = false.
    Notation loop := (coll_loop orc (read_next orc k) cx (closer p)).

    Lemma coll_loop_space n s acc r : rest s = 32 :: r -> loop (S n) s acc = loop n (adv s) acc.
    Proof. intros E. cbn [coll_loop]. rewrite (peek_rest _ _ _ E). reflexivity. Qed.

    Lemma coll_loop_close n s acc r : rest s = closer p :: r -> loop (S n) s acc = Ok (rev acc) (adv s).
    Proof.
      intros E. cbn [coll_loop]. rewrite (peek_rest _ _ _ E), N.eqb_refl. destruct p; reflexivity.
    Qed.

    Lemma coll_loop_elem x after n s acc :
      wf x = true -> reads_back x -> rest s = render x ++ after -> tcond after ->
      upto (loop (S n) s acc) (loop n (adv_n (length (render x)) s) (reify x s :: acc)).
    Proof.
      intros Wx Rx E TC. destruct (render_head x Wx) as (c & tl & HX & HW & H41 & H93).
      assert (P : peek s = Some c) by (eapply peek_rest; rewrite E, HX; reflexivity).
      assert (NC : (c =? closer p) = false) by (destruct p; assumption).
      cbn [coll_loop]. rewrite P, HW, NC.
      destruct (Rx Wx k cx s after SQ E TC) as [H|H]; rewrite H; [left; reflexivity|]. right.
      pose proof (reify_not_rcond x s) as NR. destruct (reify x s); try contradiction; reflexivity.
    Qed.

    (** the complete elements [l], whatever follows them: the loop arrives behind them with the
        forms they stand for *)
    Lemma coll_loop_seq l : Forall reads_back l -> forallb wf l = true ->
      forall tail, tcond tail -> forall n s acc, rest s = render_seq l ++ tail ->
      exists n', upto (loop n s acc) (loop n' (adv_n (length (render_seq l)) s) (rev (reify_seq l s) ++ acc)).
    Proof.
      induction l as [|x t IH]; intros FA W tail TT n s acc E; [exists n; right; reflexivity|].
      inversion FA as [|? ? Rx Rt]; subst. simpl in W. apply andb_true_iff in W as [Wx Wt].
      destruct n as [|n]; [exists O; left; reflexivity|].
      rewrite render_seq_cons in E.
      pose proof (coll_loop_elem x _ n s acc Wx Rx E (tcond_sep t tail TT)) as H1.
      set (s1 := adv_n (length (render x)) s) in *.
      assert (E1 : rest s1 = sep t tail) by (apply adv_n_app; exact E).
      destruct t as [|y t'].
      - exists n. cbn [render_seq reify_seq rev app]. exact H1.
      - destruct n as [|n]; [exists O; eapply upto_trans; [exact H1|left; reflexivity]|].
        rewrite (coll_loop_space n s1 _ _ E1) in H1.
        destruct (IH Rt Wt tail TT n (adv s1) (reify x s :: acc)) as [n' H2].
        { rewrite (adv_rest _ _ _ E1). reflexivity. }
        exists n'. eapply upto_trans; [exact H1|]. eapply upto_trans; [exact H2|]. right.
        assert (A1 : adv s1 = adv_n (S (length (render x))) s) by (unfold s1; rewrite adv_n_S; reflexivity).
        rewrite A1.
        replace (adv_n (length (render_seq (y :: t'))) (adv_n (S (length (render x))) s))
          with (adv_n (length (render_seq (x :: y :: t'))) s).
        2:{ rewrite <- adv_n_add. f_equal.
            change (render_seq (x :: y :: t')) with (render x ++ 32 :: render_seq (y :: t')).
            rewrite app_length. cbn [length]. lia. }
        change (reify_seq (x :: y :: t') s)
          with (reify x s :: reify_seq (y :: t') (adv_n (S (length (render x))) s)).
        cbn [rev]. rewrite <- app_assoc. reflexivity.
    Qed.

    Lemma coll_render l : Forall reads_back l -> forallb wf l = true ->
      forall n s r, rest s = render_seq l ++ closer p :: r ->
      upto (loop n s []) (Ok (reify_seq l s) (adv_n (S (length (render_seq l))) s)).
    Proof.
      intros FA W n s r E.
      destruct (coll_loop_seq l FA W _ (tcond_closer p r) n s [] E) as [n' H].
      eapply upto_trans; [exact H|]. destruct n'; [left; reflexivity|]. right.
      rewrite (coll_loop_close n' _ _ r) by (apply adv_n_app; exact E).
      rewrite app_nil_r, rev_involutive, adv_n_S. reflexivity.
    Qed.
  End Coll.

  Lemma req_render k cx g s r :
    reads_back g -> wf g = true -> sq cx = false -> rest s = render g ++ r -> tcond r ->
    upto (req (read_next orc k) cx s) (Ok (reify g s) (adv_n (length (render g)) s)).
  Proof.
    intros R W SQ E T. unfold req. cbn [req_loop].
    destruct (render_head g W) as (c & tl & HX & HW & _).
    assert (P : peek s = Some c) by (eapply peek_rest; rewrite E, HX; reflexivity).
    rewrite (skipws_nonws _ _ P HW), P.
    destruct (R W k cx s r SQ E T) as [H|H]; rewrite H; [left|right]; reflexivity.
  Qed.

  Lemma read_render_sym n : reads_back (PSym n).
  Proof.
    intros W fuel cx s r SQ E T. destruct fuel as [|k]; [left; reflexivity|]. right.
    pose proof W as W0. simpl in W. apply andb_true_iff in W as [W _]. apply andb_true_iff in W as [NE F].
    destruct n as [|c t]; [discriminate|]. simpl in F. apply andb_true_iff in F as [Fc _].
    rewrite (read_next_letter k cx s c _ E Fc), (read_sym_render cx (c :: t) r s SQ E W0 T). reflexivity.
  Qed.
  Lemma read_render_str c : strchars_ok c = true -> forall fuel cx s r, rest s = render (PStr c) ++ r ->
    upto (read_next orc fuel cx s) (Ok (IForm (reify (PStr c) s)) (adv_n (length (render (PStr c))) s)).
  Proof.
    intros W fuel cx s r E. destruct fuel as [|k]; [left; reflexivity|].
    cbn [render] in E. rewrite (read_next_str k cx s _ E). unfold read_str.
    assert (E1 : rest (adv s) = c ++ 34 :: r).
    { apply (adv_rest s 34). rewrite E. cbn [app]. rewrite <- app_assoc. reflexivity. }
    eapply upto_bind; [eapply upto_bind; [apply (str_loop_render c r); [exact E1|exact W]|right; reflexivity]|].
    right. cbn [rev app reify render length]. rewrite app_length. cbn [length].
    rewrite Nat.add_1_r, <- adv_n_S. reflexivity.
  Qed.
  Lemma read_render_coll p l : Forall reads_back l -> wf (pcoll p l) = true ->
    forall fuel cx s r, sq cx = false -> rest s = render (pcoll p l) ++ r ->
    upto (read_next orc fuel cx s) (Ok (IForm (reify (pcoll p l) s)) (adv_n (length (render (pcoll p l))) s)).
  Proof.
    intros FA W fuel cx s r SQ E. destruct fuel as [|k]; [left; reflexivity|].
    assert (Wl : forallb wf l = true) by (destruct p; exact W).
    rewrite render_coll in E. cbn [app] in E. rewrite <- app_assoc in E.
    rewrite (read_next_coll p k cx s _ E). unfold read_elems.
    eapply upto_bind; [eapply upto_bind; [|right; reflexivity]|].
    - apply (coll_render k cx p SQ l FA Wl _ _ r). eapply adv_rest. exact E.
    - right. rewrite reify_coll, render_coll_length. reflexivity.
  Qed.
  Lemma read_render_pre q g : reads_back g -> reads_back (ppre q g).
  Proof.
    intros Rg W fuel cx s r SQ E T. destruct fuel as [|k]; [left; reflexivity|].
    assert (Wg : wf g = true) by (destruct q; exact W).
    assert (E' : rest s = prefix q :: render g ++ r) by (destruct q; exact E).
    rewrite (read_next_prefix q k cx s _ E').
    eapply upto_bind; [eapply upto_bind; [|right; reflexivity]|].
    - apply (req_render k cx g (adv s) r Rg Wg SQ); [eapply adv_rest; exact E'|exact T].
    - right. rewrite reify_pre. destruct q; reflexivity.
  Qed.

  Theorem read_render f : reads_back f.
  Proof.
    induction f using pform_ind'.
    - apply read_render_sym.
    - intros W fuel cx s r _ E _. exact (read_render_str c W fuel cx s r E).
    - intros W fuel cx s r SQ E _. exact (read_render_coll true l H W fuel cx s r SQ E).
    - intros W fuel cx s r SQ E _. exact (read_render_coll false l H W fuel cx s r SQ E).
    - apply (read_render_pre true). assumption.
    - apply (read_render_pre false). assumption.
  Qed.

  Lemma read_top_form fuel n s f s' acc :
    read_next orc fuel ctx0 s = Ok (IForm f) s' -> match f with FRCond _ _ => False | _ => True end ->
    read_top orc fuel (S n) s acc = read_top orc fuel n s' (f :: acc).
  Proof. intros H NR. cbn [read_top]. rewrite H. destruct f; try contradiction; reflexivity. Qed.
  Lemma read_top_eof fuel n s acc : rest s = [] -> read_top orc (S fuel) (S n) s acc = Ok (rev acc) s.
  Proof. intros E. cbn [read_top read_next]. rewrite (peek_nil _ E). reflexivity. Qed.

  Theorem read_all_render f : wf f = true ->
    read_all orc (render f) =
      Ok [reify f (init (render f))] (adv_n (length (render f)) (init (render f))).
  Proof.
    intros W. pose proof (read_all_terminates orc (render f)) as NF. unfold read_all in *.
    assert (E0 : rest (init (render f)) = render f ++ []) by (rewrite app_nil_r; reflexivity).
    assert (L : exists m, length (render f) = S m).
    { destruct (render_head f W) as (c & t & -> & _). simpl. eauto. }
    destruct L as [m L].
    destruct (read_render f W (S (length (render f))) ctx0 _ [] eq_refl E0 tcond_nil) as [H|H];
      rewrite L in NF, H |- *.
    - exfalso. apply NF. cbn [read_top]. rewrite H. reflexivity.
    - rewrite (read_top_form _ _ _ _ _ _ H (reify_not_rcond f _)). apply read_top_eof.
      rewrite <- L. apply (adv_n_app _ (render f) []). exact E0.
  Qed.
End Core.

Section Owed.
  Variable orc : N -> list N -> bool.

  Lemma ctx_head k : exists c t, render_ctx k = c :: t /\ form_head c.
  Proof.
    destruct k; try destruct paren; eexists _, _; (split; [reflexivity|]); repeat split; reflexivity.
  Qed.

  Section Coll.
    Variables (k : nat) (cx : ctx) (p : bool).
    Hypothesis SQ : sq cx = false.
    Notation loop := (coll_loop orc (read_next orc k) cx (closer p)).

    Lemma coll_owed done tail : forallb wf done = true -> tcond tail ->
      (forall n s acc, rest s = tail -> upto_eof (loop n s acc)) ->
      forall n s acc, rest s = render_seq done ++ tail -> upto_eof (loop n s acc).
    Proof.
      intros W TT TB n s acc E.
      assert (FA : Forall (reads_back orc) done) by (apply Forall_forall; intros; apply read_render).
      destruct (coll_loop_seq orc k cx p SQ done FA W tail TT n s acc E) as [n' H].
      eapply upto_eof_upto; [exact H|]. apply TB. apply adv_n_app. exact E.
    Qed.

    Lemma coll_tail_eof n s acc : rest s = [] -> upto_eof (loop n s acc).
    Proof.
      intros E. destruct n; [left; reflexivity|]. cbn [coll_loop]. rewrite (peek_nil _ E). apply upto_eof_eof.
    Qed.

    Lemma coll_tail_inner inner :
      (forall s, rest s = render_ctx inner -> upto_eof (read_next orc k cx s)) ->
      forall n s acc, rest s = render_ctx inner -> upto_eof (loop n s acc).
    Proof.
      intros HI n s acc E. destruct n; [left; reflexivity|].
      destruct (ctx_head inner) as (c & t & EC & HW & H41 & H93).
      assert (P : peek s = Some c) by (eapply peek_rest; rewrite E, EC; reflexivity).
      assert (NC : (c =? closer p) = false) by (destruct p; assumption).
      cbn [coll_loop]. rewrite P, HW, NC.
      destruct (HI s E) as [H|(l & c0 & H)]; rewrite H; [left; reflexivity|right; eexists _, _; reflexivity].
    Qed.
  End Coll.

  Lemma req_owed_end k cx s : rest s = [] -> upto_eof (req (read_next orc k) cx s).
  Proof.
    intros E. unfold req. cbn [req_loop].
    assert (SW : skipws s = s) by (unfold skipws; rewrite E; reflexivity).
    rewrite SW, (peek_nil _ E). apply upto_eof_eof.
  Qed.
  Lemma req_owed_inner k cx inner s :
    (forall s, rest s = render_ctx inner -> upto_eof (read_next orc k cx s)) ->
    rest s = render_ctx inner -> upto_eof (req (read_next orc k) cx s).
  Proof.
    intros HI E. unfold req. cbn [req_loop].
    destruct (ctx_head inner) as (c & t & EC & HW & _).
    assert (P : peek s = Some c) by (eapply peek_rest; rewrite E, EC; reflexivity).
    rewrite (skipws_nonws _ _ P HW), P.
    destruct (HI s E) as [H|(l & c0 & H)]; rewrite H; [left; reflexivity|right; eexists _, _; reflexivity].
  Qed.

  Lemma owed_pre q k cx s tail : rest s = prefix q :: tail ->
    (forall s1, rest s1 = tail -> upto_eof (req (read_next orc k) cx s1)) -> upto_eof (read_next orc (S k) cx s).
  Proof.
    intros E H. rewrite (read_next_prefix orc q k cx s _ E). apply upto_eof_bind, upto_eof_bind, H.
    eapply adv_rest. exact E.
  Qed.

  Theorem read_owed k0 :
    wf_ctx k0 = true -> forall fuel cx s, sq cx = false -> rest s = render_ctx k0 ->
    upto_eof (read_next orc fuel cx s).
  Proof.
    induction k0; intros W fuel cx s SQ E; (destruct fuel as [|k]; [left; reflexivity|]);
      cbn [render_ctx wf_ctx] in *.
    - rewrite (read_next_str orc k cx s _ E). apply upto_eof_bind, upto_eof_bind.
      apply (str_loop_open chars); [eapply adv_rest; exact E|exact W].
    - rewrite (read_next_coll orc paren k cx s _ E). apply upto_eof_bind, upto_eof_bind.
      apply (coll_owed k cx paren SQ done [] W tcond_nil (coll_tail_eof k cx paren)).
      rewrite app_nil_r. eapply adv_rest. exact E.
    - apply andb_true_iff in W as [Wd Wi].
      assert (HI : forall s1, rest s1 = render_ctx k0 -> upto_eof (read_next orc k cx s1)).
      { intros s1 E1. apply IHk0; assumption. }
      rewrite (read_next_coll orc paren k cx s _ E). apply upto_eof_bind, upto_eof_bind.
      pose proof (adv_rest _ _ _ E) as E1. destruct done as [|x t].
      + apply (coll_tail_inner k cx paren k0 HI). exact E1.
      + apply (coll_owed k cx paren SQ (x :: t) (32 :: render_ctx k0) Wd (tcond_space _)); [|exact E1].
        intros n s2 acc E2. destruct n; [left; reflexivity|].
        rewrite (coll_loop_space orc k cx paren n s2 acc _ E2).
        apply (coll_tail_inner k cx paren k0 HI). eapply adv_rest. exact E2.
    - apply (owed_pre true k cx s [] E). intros. apply req_owed_end. assumption.
    - apply (owed_pre true k cx s _ E). intros. apply (req_owed_inner k cx k0); [|assumption].
      intros. apply IHk0; assumption.
    - apply (owed_pre false k cx s [] E). intros. apply req_owed_end. assumption.
    - apply (owed_pre false k cx s _ E). intros. apply (req_owed_inner k cx k0); [|assumption].
      intros. apply IHk0; assumption.
  Qed.

  Theorem read_all_owed k : wf_ctx k = true ->
    exists l c, read_all orc (render_ctx k) = Err (EEof l c).
  Proof.
    intros W. pose proof (read_all_terminates orc (render_ctx k)) as NF.
    unfold read_all in *. cbn [read_top] in *.
    destruct (read_owed k W (S (length (render_ctx k))) ctx0 (init (render_ctx k)) eq_refl eq_refl)
      as [H|(l & c & H)]; rewrite H in *; [congruence|]. eauto.
  Qed.
End Owed.

Lemma feq_coll wl p x y l1 l2 :
  feq wl (fcoll p x l1) (fcoll p y l2) = forms_eq wl x y && loc_eq wl l1 l2.
Proof.
  destruct p; cbn [fcoll feq]; f_equal; unfold forms_eq; revert y;
    induction x as [|a x IH]; intros [|b y]; cbn [list_eqb]; try reflexivity; rewrite <- IH; reflexivity.
Qed.

Lemma reify_seq_shape l : Forall (fun g => forall a b, feq false (reify g a) (reify g b) = true) l ->
  forall a b, forms_eq false (reify_seq l a) (reify_seq l b) = true.
Proof.
  induction 1 as [|x t Hx Ht IH]; intros a b; [reflexivity|].
  cbn [reify_seq]. unfold forms_eq. cbn [list_eqb]. rewrite Hx. apply IH.
Qed.

Theorem reify_shape g : forall a b, feq false (reify g a) (reify g b) = true.
Proof.
  assert (C : forall p l, Forall (fun g => forall a b, feq false (reify g a) (reify g b) = true) l ->
                          forall a b, feq false (reify (pcoll p l) a) (reify (pcoll p l) b) = true).
  { intros p l H a b. rewrite !reify_coll, feq_coll, (reify_seq_shape l H). reflexivity. }
  assert (Q : forall q h, (forall a b, feq false (reify h a) (reify h b) = true) ->
                          forall a b, feq false (reify (ppre q h) a) (reify (ppre q h) b) = true).
  { intros q h H a b. rewrite !reify_pre, (feq_coll false true). unfold forms_eq. cbn [list_eqb]. rewrite H.
    destruct q; cbn [fhead feq]; rewrite !str_eqb_refl; reflexivity. }
  induction g using pform_ind'; intros a b.
  - cbn [reify feq]. rewrite str_eqb_refl. reflexivity.
  - cbn [reify feq]. apply str_eqb_refl.
  - apply (C true). assumption.
  - apply (C false). assumption.
  - apply (Q true). assumption.
  - apply (Q false). assumption.
Qed.

Definition form_loc (f : form) : option span :=
  match f with
  | FSym _ _ l | FList _ l | FVec _ l | FMap _ l | FSet _ l => l
  | _ => None
  end.
Lemma reify_loc g s :
  form_loc (reify g s) =
    match g with
    | PStr _ => None
    | _ => let e := adv_n (length (render g)) s in Some (line s, col s, line e, col e)
    end.
Proof. destruct g; reflexivity. Qed.

Section Statements.
  Variable orc : N -> list N -> bool.

  Theorem incomplete_is_eof k : wf_ctx k = true ->
    exists c, read_all orc (render_ctx k) = Err (EEof (fst (spec_loc (render_ctx k) (length (render_ctx k)))) c).
  Proof.
    intros W. destruct (read_all_owed orc k W) as (l & c & H).
    destruct (eof_only_at_end_spec orc _ _ _ H) as (n & E). inversion E; subst. eauto.
  Qed.

  Theorem span_fidelity f : wf f = true ->
    read_all orc (render f) = Ok [reify f (init (render f))] (adv_n (length (render f)) (init (render f))) /\
    forall g s, wf g = true ->
      read_all orc (render g) = Ok [reify g (init (render g))] (adv_n (length (render g)) (init (render g))) /\
      feq false (reify g s) (reify g (init (render g))) = true.
  Proof.
    intros W. split; [apply read_all_render; exact W|].
    intros g s Wg. split; [apply read_all_render; exact Wg|apply reify_shape].
  Qed.
End Statements.

Definition ex_ctx : pctx :=
  KCollIn true [PSym [97]; PStr [98]] (KQuoteIn (KCollEnd false [PSym [99]])).
Lemma ex_ctx_ok : wf_ctx ex_ctx = true /\
  render_ctx ex_ctx = [40; 97; 32; 34; 98; 34; 32; 39; 91; 99].       (* (a "b" '[c *)
Proof. split; reflexivity. Qed.
Definition ex_form : pform :=
  PList [PSym [97]; PVec [PQuote (PSym [98]); PDeref (PSym [99])]; PStr [120; 10; 121]].
Lemma ex_form_ok : wf ex_form = true /\
  render ex_form = [40; 97; 32; 91; 39; 98; 32; 64; 99; 93; 32; 34; 120; 10; 121; 34; 41].
Proof. split; reflexivity. Qed.
