(** C16 -- concrete witnesses (evaluated on the model; each is re-run on the real reader by the
    correspondence check as the witness of a finding). *)
From Coq Require Import List ZArith.
Import ListNotations.
From Verif Require Import C16.Reader C16.Spec.
Local Open Scope N_scope.

Definition no_orc : N -> list N -> bool := fun _ _ => false.

(** F-16h: `(unquote)  -- the syntax-quote expansion indexes past the end of a one-element
    (unquote) list: IndexError, neither a SyntaxError nor forms *)
Definition w_sq : list N := [96; 40; 117; 110; 113; 117; 111; 116; 101; 41].
Lemma other_sq_refuted : forall orc, read_all orc w_sq = Err (EOther 1).
Proof. intros orc. vm_compute. reflexivity. Qed.

(** F-16b (residual): ## , #b , #? , and a string ending in a backslash, at the end of input: a form or the rest of a string is
    owed, the answer is a plain syntax error *)
Lemma owed_macro_refuted :
  forall orc,
    owed [35; 35] = true /\ read_all orc [35; 35] = Err (ESyntax 1 2) /\
    owed [35; 98] = true /\ read_all orc [35; 98] = Err (ESyntax 1 2) /\
    owed [35; 63] = true /\ read_all orc [35; 63] = Err (ESyntax 1 2) /\
    owed [34; 92] = true /\ read_all orc [34; 92] = Err (ESyntax 1 2).
Proof. intros orc. vm_compute. repeat split; reflexivity. Qed.

(** F-16g: the set #{a} is tagged with the span (1,1)-(1,4), the text of which is {a}: a map
    literal with one form (a syntax error), not the set *)
Definition w_set : list N := [35; 123; 97; 125].
Lemma span_set_refuted :
  forall orc,
    read_all orc w_set = Ok [FSet [FSym None [97] (Some (1, 2, 1, 3))] (Some (1, 1, 1, 4))]
                            (mkst [] 1 4) /\
    slice w_set 1 1 1 4 = Some [123; 97; 125] /\
    read_all orc [123; 97; 125] = Err (ESyntax 1 3).
Proof. intros orc. vm_compute. repeat split; reflexivity. Qed.

(** F-16i: '#?@(:a 1)  -- a splicing reader conditional after a prefix is handed on as an object *)
Definition w_rcond : list N := [39; 35; 63; 64; 40; 58; 97; 32; 49; 41].
Lemma rcond_leak_refuted :
  forall orc, exists loc st',
    read_all orc w_rcond =
      Ok [FList [FSym None s_quote None; FRCond true [FKw None [97]; FNum (NInt 1)]] loc] st'.
Proof. intros orc. eexists. eexists. vm_compute. reflexivity. Qed.

(** after the repairs: the prefixes of F-16a/F-16b answer with an unexpected-EOF error at the end
    of the input, and so do \ (F-16f) and #:a (F-16e) *)
Lemma repaired_prefixes :
  forall orc,
    read_all orc [39] = Err (EEof 1 1) /\ read_all orc [64] = Err (EEof 1 1) /\
    read_all orc [126] = Err (EEof 1 1) /\ read_all orc [126; 64] = Err (EEof 1 2) /\
    read_all orc [96] = Err (EEof 1 1) /\ read_all orc [94] = Err (EEof 1 1) /\
    read_all orc [35; 39] = Err (EEof 1 2) /\ read_all orc [35; 95] = Err (EEof 1 2) /\
    read_all orc [92] = Err (EEof 1 1) /\ read_all orc [35; 58; 97] = Err (EEof 1 3).
Proof. intros orc. vm_compute. repeat split; reflexivity. Qed.
