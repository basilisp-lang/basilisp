(** C16 -- one walk through all readers of the model. With fuel above the length of the unread
    input no reader runs out of fuel, every form read consumes at least one character ([plt]), and
    every answer is tied to a position reached by advancing the stream ([inv], ProofsLoc.v). The
    two are carried together as [good]; termination, true error locations, EOF only at the end
    and "another exception class needs a backquote" are read off at the end. *)
From Coq Require Import List ZArith Bool Lia.
Import ListNotations.
From Verif Require Import Common.ListX C16.Reader C16.Spec C16.ProofsLoc.
Local Open Scope N_scope.

Definition len (s : st) : nat := length (rest s).

Lemma adv_le s : (len (adv s) <= len s)%nat.
Proof.
  unfold len, adv. destruct (rest s) as [|c r]; simpl; [lia|].
  destruct ((c =? 10) || _); simpl; lia.
Qed.
Lemma adv_lt s c : peek s = Some c -> S (len (adv s)) = len s.
Proof. intros H. apply peek_some in H as [r E]. unfold len. rewrite (adv_rest _ _ _ E), E. reflexivity. Qed.
Lemma adv_some s c : peek (adv s) = Some c -> (len (adv s) < len s)%nat.
Proof.
  intros P. destruct (peek s) eqn:P0.
  - pose proof (adv_lt _ _ P0). lia.
  - apply peek_none in P0. rewrite (adv_end _ P0) in P. discriminate.
Qed.
Lemma reach_len s s' : reach s s' -> (len s' <= len s)%nat.
Proof. induction 1; [lia|]. pose proof (adv_le s). lia. Qed.

Lemma skip_ws_not_ws n s c : (len s <= n)%nat -> peek (skip_ws n s) = Some c -> is_ws c = false.
Proof.
  revert s. induction n; intros s L; simpl.
  - intros P. apply peek_some in P as [r E]. unfold len in L. rewrite E in L. simpl in L. lia.
  - destruct (peek s) eqn:P0; [|congruence].
    destruct (is_ws n0) eqn:W.
    + apply IHn. pose proof (adv_lt _ _ P0). lia.
    + intros P. congruence.
Qed.
Lemma skipws_not_ws s c : peek (skipws s) = Some c -> is_ws c = false.
Proof. apply skip_ws_not_ws. unfold len. lia. Qed.
Lemma skipws_lt s c : peek s = Some c -> is_ws c = true -> (len (skipws s) < len s)%nat.
Proof.
  intros P W. pose proof (adv_lt _ _ P) as A. apply peek_some in P as [r E].
  unfold skipws. rewrite E. simpl. rewrite (peek_rest _ _ _ E), W.
  pose proof (reach_len _ _ (skip_ws_reach (length r) (adv s))). lia.
Qed.

Definition nofuel {A} (r : res A) : Prop := match r with Err EFuel => False | _ => True end.
Definition ple {A} (b : nat) (r : res A) : Prop :=
  match r with Ok _ s' => (len s' <= b)%nat | Err e => e <> EFuel end.
Definition plt {A} (b : nat) (r : res A) : Prop :=
  match r with Ok _ s' => (len s' < b)%nat | Err e => e <> EFuel end.

Lemma ple_plt {A} b (r : res A) : ple b r -> plt (S b) r.
Proof. destruct r; simpl; [lia|auto]. Qed.
Lemma bind_plt {A B} b b' (r : res A) (f : A -> st -> res B) :
  ple b r -> (forall a s', (len s' <= b)%nat -> plt b' (f a s')) -> plt b' (bind r f).
Proof. destruct r; simpl; intros H1 H2; auto. Qed.
Lemma bind_ple {A B} b b' (r : res A) (f : A -> st -> res B) :
  ple b r -> (forall a s', (len s' <= b)%nat -> ple b' (f a s')) -> ple b' (bind r f).
Proof. destruct r; simpl; intros H1 H2; auto. Qed.
Lemma form_plt b (r : res form) : plt b r -> plt b (bind r (fun f s' => Ok (IForm f) s')).
Proof. destruct r; simpl; auto. Qed.

Definition good {A} (s0 : st) (b : nat) (r : res A) : Prop := inv s0 r /\ plt b r.

Lemma good_ok {A} s0 b (a : A) s' : reach s0 s' -> (len s' < b)%nat -> good s0 b (Ok a s').
Proof. split; assumption. Qed.
Lemma good_syn {A} s0 b s' : reach s0 s' -> @good A s0 b (syn s').
Proof. split; [apply inv_syn; assumption|discriminate]. Qed.
Lemma good_eof {A} s0 b s' : reach s0 s' -> peek s' = None -> @good A s0 b (eof s').
Proof. split; [apply inv_eof; assumption|discriminate]. Qed.
Lemma good_bind {A B} s0 b b' (r : res A) (f : A -> st -> res B) :
  good s0 b r -> (forall a s', reach s0 s' -> (len s' < b)%nat -> good s0 b' (f a s')) ->
  good s0 b' (bind r f).
Proof. destruct r as [a s'|e]; simpl; intros [H1 H2] H; [apply H; assumption|split; assumption]. Qed.
Lemma good_form s0 b (r : res form) : good s0 b r -> good s0 b (bind r (fun f s' => Ok (IForm f) s')).
Proof. intros H. eapply good_bind; [exact H|]. intros. apply good_ok; assumption. Qed.
Lemma good_mono {A} s0 b b' (r : res A) : good s0 b r -> (b <= b')%nat -> good s0 b' r.
Proof. intros [H1 H2] L. split; [assumption|]. destruct r; simpl in *; [lia|auto]. Qed.
Lemma good_reach {A} s0 s1 b (r : res A) : reach s0 s1 -> good s1 b r -> good s0 b r.
Proof. intros R [H1 H2]. split; [eapply inv_reach; eauto|assumption]. Qed.
(** [lia], after recalling for the states in sight that [adv] does not lengthen the input and
    shortens it by one where [peek] sees a character *)
Ltac lens :=
  repeat match goal with
         | P : peek (adv ?x) = Some _ |- _ =>
             lazymatch goal with _ : (len (adv x) < len x)%nat |- _ => fail | _ => pose proof (adv_some _ _ P) end
         | P : peek ?x = Some _ |- _ =>
             lazymatch goal with _ : S (len (adv x)) = len x |- _ => fail | _ => pose proof (adv_lt _ _ P) end
         | |- context [len (adv ?x)] =>
             lazymatch goal with _ : (len (adv x) <= len x)%nat |- _ => fail | _ => pose proof (adv_le x) end
         | _ : context [len (adv ?x)] |- _ =>
             lazymatch goal with _ : (len (adv x) <= len x)%nat |- _ => fail | _ => pose proof (adv_le x) end
         end; lia.

(** splits the answer in the goal along its outermost [if]s and [match]es and closes the leaves
    [syn] / [eof] / [Ok] by good_syn / good_eof / good_ok, their states by [rch]; it leaves the bounds
    [len s' < b] of the [Ok] leaves (for [lens]) and the leaves which are calls *)
Ltac leaves :=
  repeat (cbv beta iota;
          match goal with |- good _ _ (match ?x with _ => _ end) => destruct x end);
  try first [apply good_syn | apply good_eof | apply good_ok]; auto 6 with rch.

(** post-processing at [s] which does not move the stream *)
Definition stay {A} (s : st) (r : res A) : Prop :=
  match r with Ok _ s' => s' = s | Err (ESyntax l c) => l = line s /\ c = col s | Err _ => False end.
Lemma good_stay {A} s0 b s (r : res A) : reach s0 s -> (len s < b)%nat -> stay s r -> good s0 b r.
Proof.
  intros R L. destruct r as [a s'|[l c|l c|t|]]; simpl; try contradiction.
  - intros ->. apply good_ok; assumption.
  - intros [-> ->]. apply (@good_syn A). exact R.
Qed.
Lemma map_of_stay ns l loc s : stay s (map_of ns l loc s).
Proof. unfold map_of. destruct (Nat.odd _); [split; reflexivity|]. destruct (_ || _); [split|]; reflexivity. Qed.
Lemma set_of_stay l loc s : stay s (set_of l loc s).
Proof. unfold set_of. destruct (_ || _); [split|]; reflexivity. Qed.
Lemma rcond_branch_stay orc items s : stay s (rcond_branch orc items s).
Proof.
  unfold rcond_branch. destruct (rcond_select items); [|reflexivity].
  destruct (resolve_tl orc f); [|split]; reflexivity.
Qed.

(** A [match] on a character literal is a tree over the binary digits of the numeral: only
    destructing it bit by bit shows that every other character takes the default branch. *)
Lemma both_lit {B} (P : B -> Prop) (o : option N) (a b : B) : P b ->
  ((o = Some 58 -> P a) -> P (match o with Some 58 => a | _ => b end)) /\
  ((o = Some 64 -> P a) -> P (match o with Some 64 => a | _ => b end)) /\
  ((o = Some 125 -> P a) -> P (match o with Some 125 => a | _ => b end)).
Proof.
  intros Hb. repeat split; intros Ha; destruct o as [[|p]|]; try exact Hb;
    do 7 (try destruct p as [p|p|]; try exact Hb); apply Ha; reflexivity.
Qed.

Lemma take_token_spec n s acc t s' :
  take_token n s acc = (t, s') -> reach s s' /\ (len s' + length t = len s + length acc)%nat.
Proof.
  revert s acc. induction n; intros s acc; simpl.
  all: assert (STOP : (rev acc, s) = (t, s') -> reach s s' /\ (len s' + length t = len s + length acc)%nat)
    by (intros E; inversion E; subst; rewrite rev_length; auto with rch).
  - exact STOP.
  - destruct (peek s) as [c|] eqn:P; [|exact STOP].
    destruct (is_ws c || is_term c); [exact STOP|].
    intros E. apply IHn in E as [R L]. simpl in L. split; [apply reach_step; exact R|lens].
Qed.

Lemma read_namespaced_good s : good s (len s) (read_namespaced s).
Proof.
  unfold read_namespaced, token. destruct (take_token _ s []) as [t s'] eqn:E.
  apply take_token_spec in E as [R L]. destruct (ident_ok t) eqn:I; [|apply good_syn; exact R].
  destruct t; [discriminate I|]. simpl in L. apply good_ok; [exact R|lia].
Qed.

Lemma then_namespaced {B} s0 s1 b (f : option (list N) * list N -> st -> res B) :
  reach s0 s1 ->
  (forall p s', reach s0 s' -> (len s' < len s1)%nat -> good s0 b (f p s')) ->
  good s0 b (bind (read_namespaced s1) f).
Proof.
  intros R H. eapply good_bind; [eapply good_reach; [exact R|apply read_namespaced_good]|exact H].
Qed.

Lemma read_sym_good cx rms s : good s (len s) (read_sym cx rms s).
Proof.
  unfold read_sym. apply then_namespaced; [apply reach_refl|]. intros [ns name] s' R L. leaves; lia.
Qed.

Lemma scan_num_spec n s acc t s' :
  scan_num n s acc = NumTok t s' -> reach s s' /\ (len s' + length t = len s + length acc)%nat.
Proof.
  revert s acc. induction n; intros s acc; simpl.
  - intros E. inversion E; subst. rewrite rev_length. auto with rch.
  - destruct (peek s) as [c|] eqn:P; [|intros E; inversion E; subst; rewrite rev_length; auto with rch].
    assert (STEP : scan_num n (adv s) (c :: acc) = NumTok t s' ->
                   reach s s' /\ (len s' + length t = len s + length acc)%nat).
    { intros E. apply IHn in E as [R L]. simpl in L. split; [apply reach_step; exact R|lens]. }
    destruct (c =? 45).
    + destruct (peek (adv s)) as [d|]; [|discriminate]. destruct (is_begin_num d); [exact STEP|discriminate].
    + destruct (is_maybe_num c); [exact STEP|].
      intros E. inversion E; subst. rewrite rev_length. auto with rch.
Qed.

Lemma read_num_good cx s : good s (len s) (read_num cx s).
Proof.
  unfold read_num. destruct (scan_num _ s []) as [t s'|k] eqn:E.
  - apply scan_num_spec in E as [R L]. simpl in L.
    destruct t; [apply good_syn; exact R|]. simpl in L.
    destruct (classify_num (n :: t)); leaves; lia.
  - destruct (k <=? 2)%nat; [apply read_sym_good|]. apply good_syn, reach_adv_n.
Qed.

Lemma hex_run_reach n prev cur acc hs p s :
  reach s prev -> reach s cur -> hex_run n prev cur acc = (hs, p) -> reach s p.
Proof.
  revert prev cur acc. induction n; intros prev cur acc R1 R2; simpl.
  - intros E; inversion E; subst; auto.
  - destruct (peek cur) as [c|]; [|intros E; inversion E; subst; auto].
    destruct (is_hex c); [|intros E; inversion E; subst; auto].
    intros E. eapply IHn; [| |exact E]; auto with rch.
Qed.
Lemma uni_escape_good su : good su (S (len su)) (uni_escape su).
Proof.
  unfold uni_escape. destruct (hex_run _ su (adv su) []) as [hs p] eqn:E.
  eapply hex_run_reach in E; [|apply reach_refl|apply reach_adv].
  pose proof (reach_len _ _ E). leaves; lia.
Qed.

(** The loops of the string readers stand at a character already consumed: all they return lies
    behind the next one, whence the bound; no assumption on what is left at [s]. *)
Lemma str_loop_good raw n s0 s acc b :
  reach s0 s -> (len s < n)%nat -> (len (adv (adv s)) < b)%nat -> good s0 b (str_loop raw n s acc).
Proof.
  revert s acc. induction n; intros s acc R L B; [lia|]. simpl.
  destruct (peek (adv s)) as [c1|] eqn:P1; [|leaves].
  assert (IH : forall s2 acc2, reach s0 s2 -> (len s2 <= len (adv s))%nat ->
                 (len (adv (adv s2)) < b)%nat -> good s0 b (str_loop raw n s2 acc2)).
  { intros s2 acc2 R2 L2 B2. apply IHn; [exact R2|lens|exact B2]. }
  destruct (c1 =? 92); [destruct raw|]; [leaves; try apply IH; auto with rch; lens| |leaves; try apply IH; auto with rch; lens].
  destruct (peek (adv (adv s))) as [d|]; [|leaves].
  destruct (assoc d str_escapes); [apply IH; auto with rch; lens|].
  destruct ((d =? 117) || (d =? 85)); [|leaves].
  destruct (good_reach s0 _ _ _ (reach_adv_r _ _ (reach_adv_r _ _ R)) (uni_escape_good (adv (adv s)))) as [U1 U2].
  destruct (uni_escape (adv (adv s))) as [code p|e]; [|split; assumption]. simpl in U1, U2.
  apply IH; [exact U1|lens|lens].
Qed.
Lemma read_str_good raw s c : peek s = Some c -> good s (len s) (read_str raw s).
Proof. intros P. unfold read_str. apply str_loop_good; [apply reach_refl|unfold len; lia|lens]. Qed.

Lemma bytes_loop_good n s0 s acc b :
  reach s0 s -> (len s < n)%nat -> (len (adv (adv s)) < b)%nat -> good s0 b (bytes_loop n s acc).
Proof.
  revert s acc. induction n; intros s acc R L B; [lia|]. simpl.
  destruct (peek (adv s)) as [c1|] eqn:P1; [|leaves].
  leaves; try (apply IHn; auto with rch); lens.
Qed.
Lemma read_bytes_good s : good s (S (len s)) (read_bytes s).
Proof.
  unfold read_bytes. pose proof (reach_len _ _ (skipws_reach s)).
  destruct (peek (skipws s)) as [c|]; [destruct (c =? 34)|]; [|leaves..].
  apply bytes_loop_good; [auto with rch|unfold len; lia|lens].
Qed.

Lemma take_while_reach p n s acc t s' : take_while p n s acc = (t, s') -> reach s s'.
Proof.
  revert s acc. induction n; intros s acc; simpl.
  - intros E; inversion E; subst; auto with rch.
  - destruct (peek s) as [c|]; [|intros E; inversion E; subst; auto with rch].
    destruct (p c); [|intros E; inversion E; subst; auto with rch].
    intros E. apply reach_step. eapply IHn; eauto.
Qed.

Lemma read_char_good s c : peek s = Some c -> good s (len s) (read_char s).
Proof.
  intros P. unfold read_char.
  destruct (peek (adv s)) as [c1|] eqn:P1; [|leaves].
  destruct (take_while _ _ _ _) as [more s2] eqn:E. apply take_while_reach in E.
  pose proof (reach_len _ _ E).
  assert (R : reach s s2) by (eapply reach_trans; [|exact E]; auto with rch).
  assert (B : (len s2 < len s)%nat) by lens.
  leaves.
Qed.

Lemma read_kw_good s c : peek s = Some c -> good s (len s) (read_kw s).
Proof.
  intros P. unfold read_kw.
  assert (X : forall s1 (f : option (list N) * list N -> st -> res form), reach s s1 -> (len s1 < len s)%nat ->
              (forall p s', stay s' (f p s')) -> good s (len s) (bind (read_namespaced s1) f)).
  { intros s1 f R1 L1 H. apply then_namespaced; [exact R1|]. intros. eapply good_stay; eauto. lia. }
  destruct (peek (adv s)) as [d|] eqn:P1.
  - destruct (d =? 58).
    + apply X; [auto with rch|lens|]. intros p s'. destruct (fst p); simpl; auto.
    + destruct (is_numeric d).
      * destruct (take_while _ _ _ _) as [t s'] eqn:E. apply take_while_reach in E.
        pose proof (reach_len _ _ E). apply good_ok; [eapply reach_trans; [|exact E]; auto with rch|lens].
      * apply X; [auto with rch|lens|reflexivity].
  - apply X; [auto with rch|lens|reflexivity].
Qed.

Lemma comment_loop_reach n s : reach s (comment_loop n s).
Proof.
  revert s. induction n; intros s; simpl; [auto with rch|].
  destruct (peek s) as [c|]; [|auto with rch]. destruct ((c =? 10) || (c =? 13)); [auto with rch|].
  apply reach_step. apply IHn.
Qed.
Lemma read_comment_good {A} (a : A) s c : peek s = Some c -> good s (len s) (Ok a (read_comment s)).
Proof.
  intros P. unfold read_comment.
  pose proof (comment_loop_reach (length (rest s)) (adv s)) as R. pose proof (reach_len _ _ R).
  apply good_ok; [apply reach_step; exact R|lens].
Qed.

Lemma read_numconst_good s c : peek s = Some c -> good s (len s) (read_numconst s).
Proof.
  intros P. unfold read_numconst.
  apply then_namespaced; [auto with rch|]. intros p s' R L.
  assert (B : (len s' < len s)%nat) by lens. leaves.
Qed.

(** as [good s (len s)], but "end of input" may leave the stream where it is *)
Definition goodi (s : st) (r : res item) : Prop :=
  match r with
  | Ok IEof s' => (len s' < len s)%nat \/ (s' = s /\ rest s = [])
  | Ok _ s' => (len s' < len s)%nat
  | Err e => e <> EFuel
  end.
Definition goodn (s : st) (r : res item) : Prop := inv s r /\ goodi s r.

Lemma good_goodn s r : good s (len s) r -> goodn s r.
Proof. intros [H1 H2]. split; [exact H1|]. destruct r as [[| |] s'|e]; simpl in *; auto. Qed.
Lemma goodn_lt s s1 r : reach s s1 -> (len s1 < len s)%nat -> goodn s1 r -> goodn s r.
Proof.
  intros R L [H1 H2]. split; [eapply inv_reach; eauto|].
  destruct r as [[| |] s'|e]; simpl in *; try lia; auto. left. destruct H2 as [H2|[-> _]]; lia.
Qed.

Section Rn.
  Variable orc : N -> list N -> bool.
  Variable rn : ctx -> st -> res item.
  Variable k : nat.
  Hypothesis Hrn : forall cx s, (len s < k)%nat -> goodn s (rn cx s).

  Lemma rn_some cx s0 s c :
    reach s0 s -> peek s = Some c -> (len s < k)%nat -> good s0 (len s) (rn cx s).
  Proof.
    intros R P K. destruct (Hrn cx s K) as [H1 H2]. split; [eapply inv_reach; eauto|].
    destruct (rn cx s) as [[| |] s'|e]; simpl in *; auto.
    destruct H2 as [H2|[_ E]]; [exact H2|]. apply peek_some in P as [r E']. congruence.
  Qed.

  Lemma coll_loop_good cx closer n s0 s acc :
    reach s0 s -> (len s < n)%nat -> (len s < k)%nat ->
    good s0 (len s) (coll_loop orc rn cx closer n s acc).
  Proof.
    revert s acc. induction n; intros s acc R L K; [lia|]. simpl.
    destruct (peek s) as [c|] eqn:P; [|leaves].
    assert (IH : forall s2 acc2, reach s0 s2 -> (len s2 < len s)%nat ->
                                 good s0 (len s) (coll_loop orc rn cx closer n s2 acc2)).
    { intros s2 acc2 R2 L2. eapply good_mono; [apply IHn; [exact R2|lia|lia]|lia]. }
    destruct (is_ws c); [apply IH; [auto with rch|lens]|].
    destruct (c =? closer); [leaves; lens|].
    destruct (rn_some cx s0 s c R P K) as [G1 G2].
    destruct (rn cx s) as [i s'|e]; [|split; assumption]. simpl in G1, G2.
    destruct i as [f| |]; auto.
    destruct f; auto. destruct splicing; auto.
    pose proof (rcond_branch_stay orc l s') as B.
    destruct (rcond_branch orc l s') as [o s''|e]; simpl in B; [subst s''|].
    - destruct o as [g|]; auto. destruct g; auto; apply good_syn; exact G1.
    - eapply good_stay; eauto.
  Qed.

  Lemma then_elems {B} cx closer s0 s c (f : list form -> st -> res B) :
    reach s0 s -> peek s = Some c -> (len s <= k)%nat ->
    (forall l s', reach s0 s' -> (len s' < len s)%nat -> good s0 (len s) (f l s')) ->
    good s0 (len s) (bind (read_elems orc rn cx closer (adv s)) f).
  Proof.
    intros R P K H.
    eapply (good_bind _ (len s)); [eapply good_mono; [apply coll_loop_good; [auto with rch|unfold len; lia|lens]|lens]|].
    intros; apply H; [assumption|lens].
  Qed.

  Lemma req_loop_good cx n s0 s :
    reach s0 s -> (len s < n)%nat -> (len s < k)%nat -> good s0 (len s) (req_loop rn cx n s).
  Proof.
    revert s. induction n; intros s R L K; [lia|]. simpl.
    pose proof (reach_len _ _ (skipws_reach s)) as W.
    destruct (peek (skipws s)) as [c|] eqn:P; [|leaves].
    destruct (rn_some cx s0 (skipws s) c ltac:(auto with rch) P ltac:(lia)) as [G1 G2].
    destruct (rn cx (skipws s)) as [i s'|e]; [|split; assumption]. simpl in G1, G2.
    destruct i; [leaves; lia| |]; (eapply good_mono; [apply IHn; [exact G1|lia|lia]|lia]).
  Qed.

  Lemma then_req {B} cx s0 s1 b (f : form -> st -> res B) :
    reach s0 s1 -> (len s1 < k)%nat ->
    (forall a s', reach s0 s' -> (len s' < len s1)%nat -> good s0 b (f a s')) ->
    good s0 b (bind (req rn cx s1) f).
  Proof.
    intros R K H. eapply good_bind; [|exact H].
    apply req_loop_good; [exact R|unfold len; lia|exact K].
  Qed.
  Lemma then_req_stay {B} cx s0 s1 b (f : form -> st -> res B) :
    reach s0 s1 -> (len s1 < k)%nat -> (len s1 <= b)%nat ->
    (forall a s', stay s' (f a s')) -> good s0 b (bind (req rn cx s1) f).
  Proof. intros R K L H. apply then_req; auto. intros. eapply good_stay; eauto. lia. Qed.

  Section At.
    Variables (cx : ctx) (s0 s : st) (c : N).
    Hypothesis R : reach s0 s.
    Hypothesis P : peek s = Some c.
    Hypothesis K : (len s <= k)%nat.

    Lemma then_elems_stay {B} closer (f : list form -> st -> res B) :
      (forall l s', stay s' (f l s')) -> good s0 (len s) (bind (read_elems orc rn cx closer (adv s)) f).
    Proof. intros H. eapply then_elems; eauto. intros. eapply good_stay; eauto. Qed.

    Lemma read_list_good : good s0 (len s) (read_list orc rn cx s).
    Proof. apply then_elems_stay. reflexivity. Qed.
    Lemma read_vec_good : good s0 (len s) (read_vec orc rn cx s).
    Proof. apply then_elems_stay. reflexivity. Qed.
    Lemma read_map_good ns : good s0 (len s) (read_map orc rn cx ns s).
    Proof. apply then_elems_stay. intros. apply map_of_stay. Qed.
    Lemma read_set_good : good s0 (len s) (read_set orc rn cx s).
    Proof. apply then_elems_stay. intros. apply set_of_stay. Qed.

    Lemma read_quoted_good : good s0 (len s) (read_quoted rn cx s).
    Proof. apply then_req_stay; [auto with rch|lens|lens|reflexivity]. Qed.
    Lemma read_deref_good : good s0 (len s) (read_deref rn cx s).
    Proof. apply then_req_stay; [auto with rch|lens|lens|reflexivity]. Qed.
    Lemma read_unquote_good : good s0 (len s) (read_unquote rn cx s).
    Proof.
      unfold read_unquote.
      apply both_lit; [|intros _]; (apply then_req_stay; [auto with rch|lens|lens|reflexivity]).
    Qed.
    Lemma read_meta_good : good s0 (len s) (read_meta rn cx s).
    Proof.
      apply then_req; [auto with rch|lens|]. intros m s1 R1 L1.
      assert (X : good s0 (len s) (bind (req rn cx s1) (fun f s2 => if with_meta_ok f then Ok f s2 else syn s2))).
      { apply then_req_stay; [exact R1|lens|lens|]. intros f s2. destruct (with_meta_ok f); simpl; auto. }
      destruct m; try exact X; apply good_syn; exact R1.
    Qed.
  End At.

  Lemma read_nsmap_good cx s0 s c :
    reach s0 s -> peek s = Some c -> (len s <= k)%nat -> good s0 (len s) (read_nsmap orc rn cx s).
  Proof.
    intros R P K. unfold read_nsmap.
    eapply (good_bind _ (len s)).
    - apply both_lit; [|intros _; leaves; lens].
      apply then_namespaced; [auto with rch|]. intros p s' R' L'.
      assert (B : (len s' < len s)%nat) by lens. leaves.
    - intros ns s2 R2 L2. pose proof (reach_len _ _ (skipws_reach s2)).
      destruct (peek (skipws s2)) as [d|] eqn:P2; [|leaves].
      destruct (d =? 123); [|leaves].
      eapply good_mono; [eapply read_map_good; [auto with rch|exact P2|lia]|lia].
  Qed.

  Lemma read_fn_good cx s0 s c :
    reach s0 s -> peek s = Some c -> (len s <= k)%nat -> good s0 (len s) (read_fn orc rn cx s).
  Proof.
    intros R P K. unfold read_fn. destruct (anon cx); [leaves|].
    eapply good_bind; [eapply read_list_good; eauto|]. intros. leaves.
  Qed.

  (** the only place where another exception class arises: [s] is at the backquote *)
  Lemma read_sq_good cx s0 s :
    reach s0 s -> peek s = Some 96 -> (len s <= k)%nat -> good s0 (len s) (read_sq rn cx s).
  Proof.
    intros R P K. unfold read_sq. apply then_req; [auto with rch|lens|].
    intros f s' R' L'. unfold sq_process.
    assert (O : forall t, @good form s0 (len s) (Err (EOther t))).
    { intros t. split; [simpl; eauto|discriminate]. }
    assert (B : (len s' < len s)%nat) by lens.
    leaves.
  Qed.

  Lemma read_var_good cx s0 s c :
    reach s0 s -> peek s = Some c -> (len s <= k)%nat -> good s0 (len s) (read_var rn cx s).
  Proof.
    intros R P K. unfold read_var.
    destruct (peek (adv s)) as [d|] eqn:P1; [|leaves].
    eapply (good_bind _ (len s)); [|intros; leaves].
    destruct (d =? 126).
    - eapply good_mono; [eapply read_unquote_good; [auto with rch|exact P1|lens]|lens].
    - eapply good_mono; [eapply good_reach; [|apply read_sym_good]; auto with rch|lens].
  Qed.

  Lemma fstr_loop_good cx n s0 s ex acc b :
    reach s0 s -> (len s < n)%nat -> (len s <= k)%nat -> (len (adv (adv s)) < b)%nat ->
    good s0 b (fstr_loop rn cx n s ex acc).
  Proof.
    revert s ex acc. induction n; intros s ex acc R L K B; [lia|]. simpl.
    destruct (peek (adv s)) as [c1|] eqn:P1; [|leaves].
    assert (IH : forall s2 ex2 acc2, reach s0 s2 -> (len s2 <= len (adv s))%nat ->
                   (len (adv (adv s2)) < b)%nat -> good s0 b (fstr_loop rn cx n s2 ex2 acc2)).
    { intros s2 ex2 acc2 R2 L2 B2. apply IHn; [exact R2|lens|lens|exact B2]. }
    destruct (c1 =? 92).
    - destruct (peek (adv (adv s))) as [d|]; [|leaves].
      destruct (assoc d str_escapes); [apply IH; [auto with rch|lens|lens]|].
      destruct ((d =? 117) || (d =? 85)); [|destruct (d =? 123); [apply IH; [auto with rch|lens|lens]|leaves]].
      destruct (good_reach s0 _ _ _ (reach_adv_r _ _ (reach_adv_r _ _ R)) (uni_escape_good (adv (adv s)))) as [U1 U2].
      destruct (uni_escape (adv (adv s))) as [code p|e]; [|split; assumption]. simpl in U1, U2.
      apply IH; [exact U1|lens|lens].
    - destruct (c1 =? 34); [leaves; lens|].
      destruct (c1 =? 123); [|apply IH; [auto with rch|lens|lens]].
      destruct (Hrn cx (adv (adv s)) ltac:(lens)) as [G1 G2].
      apply (inv_reach s0) in G1; [|auto with rch].
      assert (G3 : ple (len (adv (adv s))) (rn cx (adv (adv s)))).
      { destruct (rn cx (adv (adv s))) as [[| |] s3|e]; simpl in *; try lia; auto.
        destruct G2 as [G2|[-> _]]; lia. }
      destruct (rn cx (adv (adv s))) as [i s3|e]; [|split; assumption]. simpl in G1, G3.
      pose proof (reach_len _ _ (skipws_reach s3)).
      apply both_lit; [leaves|intros _; apply IH; [auto with rch|lens|lens]].
  Qed.
  Lemma read_fstr_good cx s0 s : reach s0 s -> (len s <= k)%nat -> good s0 (S (len s)) (read_fstr rn cx s).
  Proof.
    intros R K. unfold read_fstr. pose proof (reach_len _ _ (skipws_reach s)).
    apply fstr_loop_good; [auto with rch|unfold len; lia|lia|lens].
  Qed.

  Lemma rcond_body_good cx sp s0 s2 :
    reach s0 s2 -> (len s2 <= k)%nat -> good s0 (len s2) (rcond_body orc rn cx sp s2).
  Proof.
    intros R K. unfold rcond_body. destruct (peek s2) as [d|] eqn:P2; [|leaves].
    destruct (d =? 40); [|leaves].
    eapply then_elems; eauto. intros items s' R' L'.
    destruct (rcond_ok [] items); [|leaves]. destruct sp; [leaves|].
    pose proof (rcond_branch_stay orc items s') as B.
    destruct (rcond_branch orc items s') as [o s''|e]; simpl in B; [subst s''|eapply good_stay; eauto].
    simpl. destruct o; leaves.
  Qed.
  Lemma read_rcond_good cx s0 s c :
    reach s0 s -> peek s = Some c -> (len s <= k)%nat -> good s0 (len s) (read_rcond orc rn cx s).
  Proof.
    intros R P K. unfold read_rcond.
    destruct (peek (adv s)) as [d|]; [|leaves].
    destruct (d =? 64); [|destruct (d =? 40); [|leaves]];
      (eapply good_mono; [apply rcond_body_good; [auto with rch|lens]|lens]).
  Qed.

  Lemma read_tagged_good cx s0 s1 :
    reach s0 s1 -> (len s1 < k)%nat -> good s0 (len s1) (read_tagged orc rn cx s1).
  Proof.
    intros R K. unfold read_tagged.
    eapply good_bind; [eapply good_reach; [exact R|apply read_sym_good]|].
    intros t s2 R2 L2. destruct t; try (apply good_syn; exact R2).
    destruct (_ && str_eqb name [98]).
    { apply good_form. eapply good_mono; [eapply good_reach; [exact R2|apply read_bytes_good]|lia]. }
    destruct (_ && str_eqb name [102]).
    { apply good_form. eapply good_mono; [apply read_fstr_good; [exact R2|lia]|lia]. }
    apply then_req_stay; [exact R2|lia|lia|]. intros v s3.
    destruct (ptl cx); [destruct (resolve_tag _ _ _)|]; simpl; auto.
  Qed.

  Lemma read_macro_good cx s0 s c :
    reach s0 s -> peek s = Some c -> (len s <= k)%nat -> good s0 (len s) (read_macro orc rn cx s).
  Proof.
    intros R P K. unfold read_macro.
    destruct (peek (adv s)) as [d|] eqn:P1; [|leaves].
    assert (R1 : reach s0 (adv s)) by auto with rch.
    assert (K1 : (len (adv s) <= k)%nat) by lens.
    assert (L1 : (len (adv s) <= len s)%nat) by lens.
    assert (M : forall r : res form, good s0 (len (adv s)) r ->
                good s0 (len s) (bind r (fun f s' => Ok (IForm f) s'))).
    { intros r H. apply good_form. eapply good_mono; [exact H|exact L1]. }
    (* as in read_next_good below: one fact per handler, then the numeral of the code is destructed *)
    assert (D : good s0 (len s) (if is_begin_name d then read_tagged orc rn cx (adv s) else syn (adv s))).
    { destruct (is_begin_name d); [|leaves].
      eapply good_mono; [apply read_tagged_good; [exact R1|lens]|exact L1]. }
    assert (B1 := M _ (read_set_good cx _ _ _ R1 P1 K1)).
    assert (B2 := M _ (read_fn_good cx _ _ _ R1 P1 K1)).
    assert (B3 := M _ (read_nsmap_good cx _ _ _ R1 P1 K1)).
    assert (B4 := M _ (read_var_good cx _ _ _ R1 P1 K1)).
    assert (B5 : good s0 (len s) (bind (bind (read_str true (adv s))
                   (fun p s' => if orc 0 p then Ok (FRegex p) s' else syn s'))
                   (fun f s' => Ok (IForm f) s'))).
    { apply M. eapply good_bind; [eapply good_reach; [exact R1|eapply read_str_good; eauto]|].
      intros p s' R' L'. leaves. }
    assert (B6 : good s0 (len s) (bind (req rn cx (adv (adv s))) (fun _ s' => Ok IComment s'))).
    { apply then_req_stay; [auto with rch|lens|lens|reflexivity]. }
    assert (B7 : good s0 (len s) (Ok IComment (read_comment (adv s)))).
    { eapply good_mono; [eapply good_reach; [exact R1|eapply read_comment_good; eauto]|exact L1]. }
    assert (B8 : good s0 (len s) (read_rcond orc rn cx (adv s))).
    { eapply good_mono; [eapply read_rcond_good; eauto|exact L1]. }
    assert (B9 := M _ (good_reach _ _ _ _ R1 (read_numconst_good _ _ P1))).
    clear M. cbv zeta.
    destruct (macro_code d) as [|p]; [exact D|].
    repeat (destruct p as [p|p|]; try assumption).
  Qed.
End Rn.

Lemma dispatch_10 c : dispatch_code c = 10 -> c = 96.
Proof.
  unfold dispatch_code.
  repeat match goal with
         | |- context [if ?c =? ?k then _ else _] => destruct (N.eqb_spec c k); [try discriminate|]
         end; try discriminate; auto.
Qed.

Section Main.
  Variable orc : N -> list N -> bool.

  Lemma read_next_good fuel : forall cx s, (len s < fuel)%nat -> goodn s (read_next orc fuel cx s).
  Proof.
    induction fuel as [|k IH]; intros cx s L; [lia|]. simpl.
    destruct (peek s) as [c|] eqn:P.
    2:{ split; [apply reach_refl|]. right. split; [reflexivity|]. apply peek_none. exact P. }
    assert (K : (len s <= k)%nat) by lia.
    assert (R : reach s s) by apply reach_refl.
    assert (F : forall r : res form, good s (len s) r -> goodn s (bind r (fun f s' => Ok (IForm f) s'))).
    { intros r H. apply good_goodn, good_form, H. }
    destruct (is_begin_num c). { apply F, read_num_good. }
    destruct (is_ws c) eqn:W.
    { pose proof (skipws_lt _ _ P W).
      eapply goodn_lt; [apply skipws_reach|assumption|]. apply IH. lia. }
    (* D, B1..B12: one fact per handler of _read_dispatch; the [match] on the code is then split by
       destructing the numeral.  Only the backquote (B10) must know its character: code 10 means c = 96. *)
    assert (D : goodn s (if is_begin_name c
                         then (if c =? 58 then bind (read_kw s) (fun f s' => Ok (IForm f) s')
                               else bind (read_sym cx false s) (fun f s' => Ok (IForm f) s'))
                         else syn s)).
    { destruct (is_begin_name c); [|apply good_goodn, good_syn, R].
      destruct (c =? 58); apply F; [eapply read_kw_good; eauto|apply read_sym_good]. }
    assert (B1 := F _ (read_list_good orc _ k IH cx _ _ _ R P K)).
    assert (B2 := F _ (read_vec_good orc _ k IH cx _ _ _ R P K)).
    assert (B3 := F _ (read_map_good orc _ k IH cx _ _ _ R P K None)).
    assert (B4 : goodn s (bind (bind (read_str false s) (fun p s' => Ok (FStr p) s'))
                               (fun f s' => Ok (IForm f) s'))).
    { apply F. eapply good_bind; [eapply read_str_good; eauto|]. intros. leaves. }
    assert (B5 := F _ (read_quoted_good _ k IH cx _ _ _ R P K)).
    assert (B6 := F _ (read_char_good _ _ P)).
    assert (B7 := good_goodn _ _ (read_macro_good orc _ k IH cx _ _ _ R P K)).
    assert (B8 := F _ (read_meta_good _ k IH cx _ _ _ R P K)).
    assert (B9 := good_goodn _ _ (read_comment_good IComment _ _ P)).
    assert (B10 : dispatch_code c = 10 ->
                  goodn s (bind (read_sq (read_next orc k) cx s) (fun f s' => Ok (IForm f) s'))).
    { intros E. apply dispatch_10 in E. subst c. apply F. apply (read_sq_good _ k IH); auto. }
    assert (B11 := F _ (read_unquote_good _ k IH cx _ _ _ R P K)).
    assert (B12 := F _ (read_deref_good _ k IH cx _ _ _ R P K)).
    clear F IH. cbv zeta.
    destruct (dispatch_code c) as [|p] eqn:DC; [exact D|].
    repeat (destruct p as [p|p|]; try assumption; try (apply B10; reflexivity)).
  Qed.

  Lemma read_next_nofuel fuel cx s : (len s < fuel)%nat -> read_next orc fuel cx s <> Err EFuel.
  Proof.
    intros L E. destruct (read_next_good fuel cx s L) as [_ G]. rewrite E in G. apply G. reflexivity.
  Qed.

  Lemma read_top_good fuel n s0 s acc :
    reach s0 s -> (len s < fuel)%nat -> (len s < n)%nat ->
    good s0 (S (len s)) (read_top orc fuel n s acc).
  Proof.
    revert s acc. induction n; intros s acc R LF LN; [lia|]. simpl.
    destruct (read_next_good fuel ctx0 s LF) as [G1 G2]. apply (inv_reach s0) in G1; [|exact R].
    assert (IH : forall s' acc', reach s0 s' -> (len s' < len s)%nat ->
                                 good s0 (S (len s)) (read_top orc fuel n s' acc')).
    { intros s' acc' R' L'. eapply good_mono; [apply IHn; [exact R'|lia|lia]|lia]. }
    destruct (read_next orc fuel ctx0 s) as [[f| |] s'|e]; simpl in G1, G2; [| | |split; assumption].
    - destruct f; auto. apply good_syn. exact G1.
    - auto.
    - apply good_ok; [exact G1|]. destruct G2 as [G2|[-> _]]; lia.
  Qed.

  Theorem read_all_good inp : good (init inp) (S (length inp)) (read_all orc inp).
  Proof. unfold read_all. apply read_top_good; [apply reach_refl|unfold len, init; simpl; lia..]. Qed.

  Theorem read_all_inv inp : inv (init inp) (read_all orc inp).
  Proof. exact (proj1 (read_all_good inp)). Qed.

  Theorem read_all_terminates inp : read_all orc inp <> Err EFuel.
  Proof. intros E. destruct (read_all_good inp) as [_ G]. rewrite E in G. apply G. reflexivity. Qed.

  Theorem errors_carry_spec_loc s l c :
    read_all orc s = Err (ESyntax l c) \/ read_all orc s = Err (EEof l c) ->
    (exists n, (n <= length s)%nat /\ (l, c) = spec_loc s n) \/
    (exists k, (l, c) = (fst (spec_loc s (length s)), snd (spec_loc s (length s)) + N.of_nat k)).
  Proof. apply inv_error_loc, read_all_inv. Qed.

  Theorem eof_only_at_end_spec s l c :
    read_all orc s = Err (EEof l c) ->
    exists k, (l, c) = (fst (spec_loc s (length s)), snd (spec_loc s (length s)) + N.of_nat k).
  Proof. apply inv_eof_at_end, read_all_inv. Qed.

  Theorem only_syntax_errors_partial s t :
    no_backquote s = true -> read_all orc s <> Err (EOther t).
  Proof. apply inv_other_backquote, read_all_inv. Qed.
End Main.
