(** C16 -- positions of the input.  [reach s s']: the stream state [s'] is obtained from [s] by
    advancing.  [inv s r]: the answer [r] of a reader started at [s] is tied to a position: the
    state it returns, the location an error carries, the position where an unexpected-EOF error is
    raised (always the end of input) and the character which is being read when another exception
    class arises (always a backquote) are all reached from [s].  The second half relates the (line,
    col) of a reached state to the index-based definition of Spec.v.  That every reader satisfies
    [inv] is proved in ProofsTerm.v. *)
From Coq Require Import List ZArith Bool Lia.
Import ListNotations.
From Verif Require Import Common.ListX C16.Reader C16.Spec.
Local Open Scope N_scope.

Lemma peek_some s c : peek s = Some c <-> exists r, rest s = c :: r.
Proof.
  unfold peek. destruct (rest s) as [|d r]; simpl; split.
  - discriminate.
  - intros [r' E]. discriminate.
  - intros E. inversion E. eauto.
  - intros [r' E]. inversion E. reflexivity.
Qed.
Lemma peek_none s : peek s = None <-> rest s = [].
Proof. unfold peek. destruct (rest s); simpl; split; intros E; congruence. Qed.
Lemma peek_rest s c r : rest s = c :: r -> peek s = Some c.
Proof. intros E. apply peek_some. eauto. Qed.
Lemma peek_nil s : rest s = [] -> peek s = None.
Proof. apply peek_none. Qed.

Lemma adv_rest s c r : rest s = c :: r -> rest (adv s) = r.
Proof. intros E. unfold adv. rewrite E. destruct ((c =? 10) || _); reflexivity. Qed.
Lemma adv_end s : rest s = [] -> adv s = mkst [] (line s) (col s + 1).
Proof. intros E. unfold adv. rewrite E. reflexivity. Qed.

Lemma adv_n_add a b s : adv_n (a + b) s = adv_n b (adv_n a s).
Proof. revert s. induction a; intros; simpl; auto. Qed.
Lemma adv_n_S n s : adv_n (S n) s = adv (adv_n n s).
Proof. replace (S n) with (n + 1)%nat by lia. apply adv_n_add. Qed.
Lemma adv_n_rest n s : rest (adv_n n s) = skipn n (rest s).
Proof.
  revert s. induction n; intros s; simpl; [reflexivity|].
  rewrite IHn. unfold adv. destruct (rest s) as [|c r]; simpl.
  - destruct n; reflexivity.
  - destruct ((c =? 10) || _); reflexivity.
Qed.
Lemma adv_n_app s a b : rest s = a ++ b -> rest (adv_n (length a) s) = b.
Proof.
  intros E. rewrite adv_n_rest, E. apply skipn_length_app.
Qed.
Lemma adv_n_past s k : rest s = [] -> adv_n k s = mkst [] (line s) (col s + N.of_nat k).
Proof.
  revert s. induction k; intros s E; simpl.
  - destruct s; simpl in *; subst. f_equal. lia.
  - rewrite IHk; rewrite adv_end by exact E; simpl; [|reflexivity]. f_equal. lia.
Qed.

Inductive reach : st -> st -> Prop :=
| reach_refl s : reach s s
| reach_step s s' : reach (adv s) s' -> reach s s'.

Lemma reach_adv s : reach s (adv s).
Proof. apply reach_step, reach_refl. Qed.
Lemma reach_trans a b c : reach a b -> reach b c -> reach a c.
Proof. intros H1; induction H1; intros H2; [exact H2|]. apply reach_step. auto. Qed.
Lemma reach_adv_r a b : reach a b -> reach a (adv b).
Proof. intros H. eapply reach_trans; [exact H|apply reach_adv]. Qed.
Lemma reach_adv_n n s : reach s (adv_n n s).
Proof. revert s. induction n; intros s; simpl; [apply reach_refl|]. apply reach_step. apply IHn. Qed.
Lemma reach_is_adv_n a b : reach a b -> exists n, b = adv_n n a.
Proof. induction 1 as [s|s s' _ [n IH]]; [exists O; reflexivity|]. exists (S n). simpl. exact IH. Qed.
#[export] Hint Resolve reach_refl reach_adv reach_adv_r : rch.

Lemma skip_ws_reach n s : reach s (skip_ws n s).
Proof.
  revert s. induction n; intros s; simpl; [apply reach_refl|].
  destruct (peek s) as [c|]; [|apply reach_refl]. destruct (is_ws c); [|apply reach_refl].
  apply reach_step. apply IHn.
Qed.
Lemma skipws_reach s : reach s (skipws s).
Proof. apply skip_ws_reach. Qed.
Lemma reach_skipws a b : reach a b -> reach a (skipws b).
Proof. intros H. eapply reach_trans; [exact H|apply skipws_reach]. Qed.
#[export] Hint Resolve skipws_reach reach_skipws : rch.

Definition inv {A} (s : st) (r : res A) : Prop :=
  match r with
  | Ok _ s' => reach s s'
  | Err (ESyntax l c) => exists s', reach s s' /\ l = line s' /\ c = col s'
  | Err (EEof l c) => exists s', reach s s' /\ rest s' = [] /\ l = line s' /\ c = col s'
  | Err (EOther _) => exists s', reach s s' /\ peek s' = Some 96
  | Err EFuel => True
  end.

Lemma inv_reach {A} s s1 (r : res A) : reach s s1 -> inv s1 r -> inv s r.
Proof.
  intros R. destruct r as [a s'|[l c|l c|t|]]; simpl; auto.
  1: intros H; eapply reach_trans; eauto.
  all: intros (s' & H & E); exists s'; (split; [eapply reach_trans; eauto|exact E]).
Qed.
Lemma inv_syn {A} s s' : reach s s' -> @inv A s (syn s').
Proof. intros R. simpl. exists s'. auto. Qed.
Lemma inv_eof {A} s s' : reach s s' -> peek s' = None -> @inv A s (eof s').
Proof. intros R P. simpl. exists s'. apply peek_none in P. auto. Qed.
Lemma inv_ok {A} s s' (a : A) : reach s s' -> inv s (Ok a s').
Proof. auto. Qed.

Lemma last_start_le s j : (last_start s j <= j)%nat.
Proof. induction j; cbn [last_start]; [lia|]. destruct (line_start s (S j)); lia. Qed.

Lemma spec_loc_S s n :
  spec_loc s (S n) = if line_start s (S n) then (fst (spec_loc s n) + 1, 0)
                     else (fst (spec_loc s n), snd (spec_loc s n) + 1).
Proof.
  unfold spec_loc. cbn [count_starts last_start fst snd]. pose proof (last_start_le s n).
  destruct (line_start s (S n)); f_equal; lia.
Qed.

Lemma line_start_skipn s n c r : skipn n s = c :: r ->
  line_start s (S n) = ((c =? 10) || ((c =? 13) && negb (match r with 10 :: _ => true | _ => false end))).
Proof.
  intros E.
  assert (Ec : nth_error s n = Some c) by (rewrite <- (Nat.add_0_r n), <- nth_error_skipn, E; reflexivity).
  assert (Er : nth_error s (S n) = nth_error r 0) by (rewrite <- (Nat.add_1_r n), <- nth_error_skipn, E; reflexivity).
  unfold line_start, nth_c. rewrite Ec, Er.
  assert (R10 : match nth_error r 0 with Some 10 => true | _ => false end
                = match r with 10 :: _ => true | _ => false end) by (destruct r; reflexivity).
  rewrite R10.
  destruct (N.eqb_spec c 10) as [->|N10]; [reflexivity|].
  destruct (N.eqb_spec c 13) as [->|N13]; [reflexivity|]. cbn [orb andb].
  (* [c] is neither 10 nor 13: the match on these literals falls through *)
  destruct c as [|p]; [reflexivity|]. do 4 (destruct p as [p|p|]; try reflexivity); exfalso; auto.
Qed.

(** the reader's incremental line/column bookkeeping equals the true location *)
Theorem update_loc_is_spec s n : (n <= length s)%nat ->
  (line (adv_n n (init s)), col (adv_n n (init s))) = spec_loc s n.
Proof.
  induction n as [|n IH]; intros L; [reflexivity|].
  specialize (IH ltac:(lia)). rewrite spec_loc_S, <- IH, adv_n_S. cbn [fst snd].
  pose proof (adv_n_rest n (init s)) as E. cbn [init rest] in E.
  destruct (skipn n s) as [|c r] eqn:E2.
  { apply (f_equal (@length N)) in E2. rewrite skipn_length in E2. simpl in E2. lia. }
  rewrite (line_start_skipn s n c r E2). unfold adv. rewrite E.
  destruct ((c =? 10) || _); reflexivity.
Qed.

Lemma locs_from_adv n : forall st, (n <= length (rest st))%nat ->
  nth_error (locs_from (rest st) (line st) (col st)) n = Some (line (adv_n n st), col (adv_n n st)).
Proof.
  induction n; intros st L.
  - simpl. destruct (rest st); reflexivity.
  - destruct (rest st) as [|c r] eqn:E; [simpl in L; lia|].
    simpl in L. change (adv_n (S n) st) with (adv_n n (adv st)).
    specialize (IHn (adv st)). rewrite (adv_rest _ _ _ E) in IHn. specialize (IHn ltac:(lia)).
    rewrite <- IHn. simpl. unfold adv. rewrite E.
    destruct ((c =? 10) || _); reflexivity.
Qed.
Lemma update_loc_spec s n : (n <= length s)%nat ->
  nth_error (locs s) n = Some (line (adv_n n (init s)), col (adv_n n (init s))).
Proof. intros L. unfold locs. apply (locs_from_adv n (init s)). exact L. Qed.
Lemma locs_spec s j : (j <= length s)%nat -> nth_error (locs s) j = Some (spec_loc s j).
Proof. intros L. rewrite update_loc_spec, update_loc_is_spec by exact L. reflexivity. Qed.

Lemma locs_from_last l : forall st d, rest st = l ->
  last (locs_from l (line st) (col st)) d = (line (adv_n (length l) st), col (adv_n (length l) st)).
Proof.
  induction l as [|c r IH]; intros st d E; [reflexivity|].
  specialize (IH (adv st) d (adv_rest _ _ _ E)). cbn [length adv_n]. rewrite <- IH.
  unfold adv. rewrite E. cbn [locs_from].
  destruct ((c =? 10) || _); cbn [line col]; destruct r; reflexivity.
Qed.
Lemma end_loc_is_spec s : end_loc s = spec_loc s (length s).
Proof. unfold end_loc, locs. rewrite (locs_from_last s (init s) _ eq_refl). apply update_loc_is_spec. lia. Qed.

Lemma adv_n_init_past s n : (length s <= n)%nat ->
  adv_n n (init s) =
  mkst [] (fst (spec_loc s (length s))) (snd (spec_loc s (length s)) + N.of_nat (n - length s)).
Proof.
  intros L. replace n with (length s + (n - length s))%nat at 1 by lia.
  rewrite adv_n_add, adv_n_past by (rewrite adv_n_rest; apply skipn_all).
  rewrite <- (update_loc_is_spec s (length s)) by lia. reflexivity.
Qed.

Lemma reach_loc s st : reach (init s) st ->
  (exists n, (n <= length s)%nat /\ (line st, col st) = spec_loc s n) \/
  (exists k, (line st, col st) = (fst (spec_loc s (length s)), snd (spec_loc s (length s)) + N.of_nat k)).
Proof.
  intros R. apply reach_is_adv_n in R as [n ->].
  destruct (Nat.le_gt_cases n (length s)) as [L|L].
  - left. exists n. split; [exact L|]. apply update_loc_is_spec. exact L.
  - right. exists (n - length s)%nat. rewrite adv_n_init_past by lia. reflexivity.
Qed.

Lemma reach_at_end s st : reach (init s) st -> rest st = [] ->
  exists k, (line st, col st) = (fst (spec_loc s (length s)), snd (spec_loc s (length s)) + N.of_nat k).
Proof.
  intros R E. apply reach_is_adv_n in R as [n ->].
  assert (L : (length s <= n)%nat).
  { rewrite adv_n_rest in E. apply (f_equal (@length N)) in E. rewrite skipn_length in E. simpl in E. lia. }
  exists (n - length s)%nat. rewrite adv_n_init_past by exact L. reflexivity.
Qed.

Lemma reach_peek_in s st c : reach (init s) st -> peek st = Some c -> In c s.
Proof.
  intros R P. apply reach_is_adv_n in R as [n ->]. apply peek_some in P as [r E].
  rewrite adv_n_rest in E. simpl in E.
  rewrite <- (firstn_skipn n s), E. apply in_or_app. right. left. reflexivity.
Qed.

Definition no_backquote (s : list N) : bool := forallb (fun c => negb (c =? 96)) s.

Section Answers.
  Context {A : Type} (s : list N) (r : res A).
  Hypothesis H : inv (init s) r.

  Lemma inv_error_loc l c : r = Err (ESyntax l c) \/ r = Err (EEof l c) ->
    (exists n, (n <= length s)%nat /\ (l, c) = spec_loc s n) \/
    (exists k, (l, c) = (fst (spec_loc s (length s)), snd (spec_loc s (length s)) + N.of_nat k)).
  Proof.
    intros [E|E]; rewrite E in H; simpl in H.
    - destruct H as (st & R & -> & ->). apply reach_loc. exact R.
    - destruct H as (st & R & _ & -> & ->). apply reach_loc. exact R.
  Qed.

  Lemma inv_eof_at_end l c : r = Err (EEof l c) ->
    exists k, (l, c) = (fst (spec_loc s (length s)), snd (spec_loc s (length s)) + N.of_nat k).
  Proof.
    intros E. rewrite E in H. simpl in H. destruct H as (st & R & E0 & -> & ->).
    apply reach_at_end; assumption.
  Qed.

  Lemma inv_other_backquote t : no_backquote s = true -> r <> Err (EOther t).
  Proof.
    intros G E. rewrite E in H. simpl in H. destruct H as (st & R & P).
    pose proof (reach_peek_in _ _ _ R P) as I.
    unfold no_backquote in G. rewrite forallb_forall in G. specialize (G _ I).
    rewrite N.eqb_refl in G. discriminate.
  Qed.
End Answers.
