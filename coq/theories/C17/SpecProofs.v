(** C17: [compare] is the reference comparison of Spec.v; without equivalent keys any ordered
    permutation is what [sort] returns. *)
From Coq Require Import List NArith Permutation Sorted.
Import ListNotations.
From Verif Require Import Common.Order C17.Model C17.Spec C17.Proofs.

Lemma lex_ext {A} (f g : A -> A -> bool) : (forall a b, f a b = g a b) ->
  forall l1 l2, lex f l1 l2 = lex g l1 l2.
Proof.
  intros E. induction l1 as [|x t IH]; intros [|y t2]; simpl; auto.
  rewrite !E, IH. reflexivity.
Qed.

Lemma lt_is_ref t : forall a b, lt t a b = ref_lt t a b.
Proof.
  induction t as [| | | |t IH]; simpl; intros a b; auto.
  - apply kw_lt_ref.
  - apply sym_lt_ref.
  - unfold vec_lt. rewrite (lex_ext _ _ IH). reflexivity.
Qed.

Theorem compare_is_ref t x y : compare t x y = ref_compare t x y.
Proof.
  destruct x as [a|], y as [b|]; simpl; auto.
  unfold cmp3. rewrite gt_is_lt_flip, <- !lt_is_ref.
  destruct (lt t a b) eqn:A.
  - rewrite (swo_asym (family_swo t) a b I I A). reflexivity.
  - destruct (lt t b a); reflexivity.
Qed.

Theorem any_stable_sort_agrees t l l' :
  Permutation l' l -> StronglySorted (Sort.ord (key_lt t)) l' ->
  Sort.distinct (key_eqb t) l -> l' = sort t l.
Proof. exact (by_any_sort_agrees t (fun x => x) l l'). Qed.

Example nonvacuous :
  sort TKw [Some (Some [98%N], [97%N]); Some (Some [97%N], [98%N]); Some (None, [122%N]); None]
  = [None; Some (None, [122%N]); Some (Some [97%N], [98%N]); Some (Some [98%N], [97%N])].
Proof. vm_compute. reflexivity. Qed.
