(** C17: every family of [Model.ty] is strictly weakly ordered by the model's [lt] (induction on
    the type); [compare] adds nil as least element, [sort] / [sort_by] are Common/Sort.v's stable
    sort for a key function. *)
From Coq Require Import List QArith Lia Permutation Sorted.
From Verif Require Import Common.ListX Common.Order Common.Sort Gen.Prims Gen.Tables C17.Model C17.Spec.

(** Obligation on the regenerated tables: the source's [__lt__] is the reference order. *)
Lemma kw_lt_ref a b : kw_lt (fst a) (snd a) (fst b) (snd b) = name_lt_ref a b.
Proof.
  destruct a as [[n1|] s1], b as [[n2|] s2]; reflexivity.
Qed.

(** [Symbol.__lt__] is regenerated as the same text as [Keyword.__lt__] *)
Lemma sym_lt_ref a b : sym_lt (fst a) (snd a) (fst b) (snd b) = name_lt_ref a b.
Proof. exact (kw_lt_ref a b). Qed.

(** shape 1: the shorter vector first, otherwise the first strictly ordered pair decides --
    what [vec_lt] computes *)
Lemma vector_shape_ok : vector_lt_shape = 1%N.
Proof. reflexivity. Qed.

Definition whole {A} (_ : A) : Prop := True.

Lemma name_eqb_eq a b : name_eqb a b = true <-> a = b.
Proof. exact (prod_eqb_spec ostr_eqb str_eqb (option_eqb_spec str_eqb str_eqb_eq) str_eqb_eq a b). Qed.

Lemma name_swo : swo whole name_lt_ref name_eqb.
Proof.
  constructor.
  - intros [[n1|] s1] [[n2|] s2] [[n3|] s3] _ _ _; unfold name_lt_ref; simpl; try discriminate; auto.
    + rewrite !orb_true_iff, !andb_true_iff, !str_eqb_eq.
      intros A B. destruct A as [A|[EA A]], B as [B|[EB B]]; subst.
      * left. eapply str_ltb_trans; eauto.
      * left. exact A.
      * left. exact B.
      * right. split; [reflexivity|]. eapply str_ltb_trans; eauto.
    + apply str_ltb_trans.
  - intros a b _ _. rewrite name_eqb_eq. split.
    + intros ->. destruct b as [[n|] s]; unfold name_lt_ref; simpl;
        rewrite ?str_ltb_irrefl, ?str_eqb_refl; simpl; rewrite ?str_ltb_irrefl; auto.
    + destruct a as [[n1|] s1], b as [[n2|] s2]; unfold name_lt_ref; simpl; intros [A B]; try discriminate.
      * apply orb_false_iff in A as [A1 A2]. apply orb_false_iff in B as [B1 B2].
        assert (n1 = n2) by (apply str_ltb_total; auto). subst.
        rewrite str_eqb_refl in A2, B2. simpl in *. assert (s1 = s2) by (apply str_ltb_total; auto). subst. reflexivity.
      * f_equal. apply str_ltb_total; auto.
  - intros x y z _ _ _. rewrite !name_eqb_eq. congruence.
  - intros [[n1|] s1] [[n2|] s2] _ _; unfold name_lt_ref; simpl; try discriminate; auto.
    + rewrite orb_true_iff, andb_true_iff, str_eqb_eq. intros [A|[-> A]].
      * rewrite (str_ltb_asym _ _ A). simpl.
        destruct (str_eqb n2 n1) eqn:E; [|reflexivity]. apply str_eqb_eq in E. subst.
        rewrite str_ltb_irrefl in A. discriminate.
      * rewrite str_ltb_irrefl, str_eqb_refl. simpl. apply str_ltb_asym; auto.
    + apply str_ltb_asym.
Qed.

Lemma Qltb_lt a b : Qltb a b = true <-> (a < b)%Q.
Proof. unfold Qltb, Qlt. apply Z.ltb_lt. Qed.

Lemma Qltb_nlt a b : Qltb a b = false <-> ~ (a < b)%Q.
Proof. rewrite <- Qltb_lt. destruct (Qltb a b); split; congruence. Qed.

Lemma num_swo : swo whole Qltb Qeq_bool.
Proof.
  constructor.
  - intros x y z _ _ _. rewrite !Qltb_lt. apply Qlt_trans.
  - intros x y _ _. rewrite Qeq_bool_iff, !Qltb_nlt. split.
    + intros E. rewrite E. split; apply Qlt_irrefl.
    + intros [A B]. apply Qnot_lt_le in A, B. apply Qle_antisym; auto.
  - intros x y z _ _ _. rewrite !Qeq_bool_iff. apply Qeq_trans.
  - intros x y _ _. rewrite Qltb_lt, Qltb_nlt. intros A B. eapply Qlt_irrefl, Qlt_trans; eauto.
Qed.

Lemma swo_ext {A} (P : A -> Prop) lt1 lt2 eqb :
  (forall a b, lt1 a b = lt2 a b) -> swo P lt2 eqb -> swo P lt1 eqb.
Proof.
  intros E [t e et a]. constructor; intros; rewrite ?E in *; eauto.
Qed.

Theorem family_swo (t : ty) : swo (fun _ : val t => True) (lt t) (eqb t).
Proof.
  induction t as [| | | |t IH]; simpl.
  - exact num_swo.
  - exact str_swo.
  - eapply swo_ext; [exact kw_lt_ref|exact name_swo].
  - eapply swo_ext; [exact sym_lt_ref|exact name_swo].
  - apply (swo_weaken (Forall whole)); [intros l _; apply Forall_True|exact (vec_swo _ _ _ IH)].
Qed.

Lemma gt_is_lt_flip t a b : gt t a b = lt t b a.
Proof.
  destruct t; try reflexivity; exact (gt_total_native _ _ _ (family_swo _) a b I I).
Qed.

Lemma gt_flip_whole t : forall x y : val t, whole x -> whole y -> gt t x y = lt t y x.
Proof. intros; apply gt_is_lt_flip. Qed.

(** [compare t] is [ocmp (lt t) (gt t)] of Common/Order.v by computation *)
Lemma OP_whole {A} (x : option A) : OP whole x.
Proof. destruct x; exact I. Qed.

Theorem compare_antisym t x y : compare t x y = (- compare t y x)%Z.
Proof. apply (ocmp_antisym whole _ _ (gt_flip_whole t)); apply OP_whole. Qed.

Theorem compare_range t x y : (compare t x y = -1 \/ compare t x y = 0 \/ compare t x y = 1)%Z.
Proof. apply (ocmp_range whole _ _ (gt_flip_whole t)); apply OP_whole. Qed.

Definition oeqb t (x y : option (val t)) : bool :=
  match x, y with
  | None, None => true
  | Some a, Some b => eqb t a b
  | _, _ => false
  end.

Theorem compare_zero_iff_eq t x y : compare t x y = 0%Z <-> oeqb t x y = true.
Proof. apply (ocmp_zero_iff whole _ _ _ (family_swo t) (gt_flip_whole t)); apply OP_whole. Qed.

Theorem compare_trans t x y z :
  (compare t x y <= 0 -> compare t y z <= 0 -> compare t x z <= 0)%Z.
Proof. apply (ocmp_trans whole _ _ _ (family_swo t) (gt_flip_whole t)); apply OP_whole. Qed.

Theorem compare_trans_strict t x y z :
  (compare t x y < 0 -> compare t y z < 0 -> compare t x z < 0)%Z.
Proof. apply (ocmp_trans_strict whole _ _ _ (family_swo t) (gt_flip_whole t)); apply OP_whole. Qed.

Theorem nil_least t (v : val t) : compare t None (Some v) = (-1)%Z /\ compare t (Some v) None = 1%Z
                                  /\ compare t None None = 0%Z.
Proof. simpl; auto. Qed.

Lemma name_cmp3 (n1 n2 s1 s2 : str) :
  (b2z (name_lt_ref (Some n2, s2) (Some n1, s1)) - b2z (name_lt_ref (Some n1, s1) (Some n2, s2)))%Z =
    if str_ltb n1 n2 then (-1)%Z else if str_ltb n2 n1 then 1%Z
    else if str_ltb s1 s2 then (-1)%Z else if str_ltb s2 s1 then 1%Z else 0%Z.
Proof.
  unfold name_lt_ref; cbn [fst snd].
  destruct (str_ltb n1 n2) eqn:A.
  - rewrite (str_ltb_asym _ _ A). simpl.
    destruct (str_eqb n2 n1) eqn:E; [apply str_eqb_eq in E; subst; rewrite str_ltb_irrefl in A; discriminate|reflexivity].
  - destruct (str_ltb n2 n1) eqn:B; simpl.
    + destruct (str_eqb n1 n2) eqn:E; [apply str_eqb_eq in E; subst; rewrite str_ltb_irrefl in B; discriminate|reflexivity].
    + assert (n1 = n2) by (apply str_ltb_total; auto). subst. rewrite str_eqb_refl. simpl.
      destruct (str_ltb s1 s2) eqn:C.
      * rewrite (str_ltb_asym _ _ C). reflexivity.
      * destruct (str_ltb s2 s1); reflexivity.
Qed.

Theorem kw_ns_then_name (n1 n2 : str) (s1 s2 : str) :
  compare TKw (Some (Some n1, s1)) (Some (Some n2, s2)) =
    if str_ltb n1 n2 then (-1)%Z else if str_ltb n2 n1 then 1%Z
    else if str_ltb s1 s2 then (-1)%Z else if str_ltb s2 s1 then 1%Z else 0%Z.
Proof. unfold compare, cmp3. rewrite (gt_is_lt_flip TKw). cbn [lt]. rewrite !kw_lt_ref. apply name_cmp3. Qed.

Theorem sym_ns_then_name (n1 n2 : str) (s1 s2 : str) :
  compare TSym (Some (Some n1, s1)) (Some (Some n2, s2)) =
    if str_ltb n1 n2 then (-1)%Z else if str_ltb n2 n1 then 1%Z
    else if str_ltb s1 s2 then (-1)%Z else if str_ltb s2 s1 then 1%Z else 0%Z.
Proof. exact (kw_ns_then_name n1 n2 s1 s2). Qed.

Theorem key_swo t : swo whole (key_lt t) (key_eqb t).
Proof.
  apply (swo_weaken (OP whole)); [intros x _; apply OP_whole|].
  exact (ocmp_swo whole _ _ _ (family_swo t) (gt_flip_whole t)).
Qed.

Lemma ord_key_lt t a b : Sort.ord (key_lt t) a b <-> (compare t a b <= 0)%Z.
Proof. unfold Sort.ord, key_lt. rewrite Z.ltb_ge, (compare_antisym t a b). lia. Qed.

Lemma StronglySorted_impl {A} (R R' : A -> A -> Prop) l :
  (forall a b, R a b -> R' a b) -> StronglySorted R l -> StronglySorted R' l.
Proof.
  intros HR S. induction S as [|a r S IH F]; constructor; auto.
  eapply Forall_impl; [|exact F]. intros b. apply HR.
Qed.

(** Sorting by a key function [g]: [sort] is the case [g = id], [sort_by] the case [g = fst]. *)
Section ByKey.
  Context (t : ty) {B : Type} (g : B -> option (val t)).
  Let ltg (a b : B) := key_lt t (g a) (g b).
  Let le (a b : B) := (compare t (g a) (g b) <= 0)%Z.
  Let S := swo_preimage g _ _ _ (key_swo t).

  Lemma by_ordered l : StronglySorted le (Sort.sort ltg l).
  Proof.
    apply (StronglySorted_impl (Sort.ord ltg)); [intros a b; apply ord_key_lt|].
    apply (Sort.sort_sorted _ _ _ S l (Forall_True l)).
  Qed.

  Lemma by_stable x l :
    filter (fun e => key_eqb t (g x) (g e)) (Sort.sort ltg l) = filter (fun e => key_eqb t (g x) (g e)) l.
  Proof. apply (Sort.sort_stable _ _ _ S x l I (Forall_True l)). Qed.

  Lemma by_of_ordered l : StronglySorted le l -> Sort.sort ltg l = l.
  Proof.
    intro H. apply Sort.sort_fixed.
    apply (StronglySorted_impl le); [intros a b; apply ord_key_lt|exact H].
  Qed.

  Lemma by_idempotent l : Sort.sort ltg (Sort.sort ltg l) = Sort.sort ltg l.
  Proof. apply by_of_ordered, by_ordered. Qed.

  Lemma by_any_sort_agrees l l' : Permutation l' l -> StronglySorted (Sort.ord ltg) l' ->
    Sort.distinct (fun a b => key_eqb t (g a) (g b)) l -> l' = Sort.sort ltg l.
  Proof. intros Hp So D. apply (Sort.sorted_stable_unique _ _ _ S l l' (Forall_True l) Hp So D). Qed.

  Lemma by_input_order_independent l1 l2 :
    ForallOrdPairs (fun a b => compare t (g a) (g b) <> 0%Z) l1 -> Permutation l1 l2 ->
    Sort.sort ltg l1 = Sort.sort ltg l2.
  Proof.
    intros D Hp. apply (Sort.sort_input_order_independent _ _ _ S l1 l2 (Forall_True l1)); [|exact Hp].
    clear Hp. unfold distinct, key_eqb. induction D as [|a l F D IH]; constructor; auto.
    eapply Forall_impl; [|exact F]. intros b Hb. apply Z.eqb_neq; auto.
  Qed.
End ByKey.

Theorem sort_perm t l : Permutation (sort t l) l.
Proof. apply Sort.sort_perm. Qed.

Theorem sort_ordered t l : StronglySorted (fun a b => (compare t a b <= 0)%Z) (sort t l).
Proof. exact (by_ordered t (fun x => x) l). Qed.

Theorem sort_stable t x l : filter (key_eqb t x) (sort t l) = filter (key_eqb t x) l.
Proof. exact (by_stable t (fun x => x) x l). Qed.

Theorem sort_input_order_independent t l1 l2 :
  ForallOrdPairs (fun a b => compare t a b <> 0%Z) l1 -> Permutation l1 l2 -> sort t l1 = sort t l2.
Proof. exact (by_input_order_independent t (fun x => x) l1 l2). Qed.

Theorem sort_by_perm t B (l : list (option (val t) * B)) : Permutation (sort_by t l) l.
Proof. apply Sort.sort_perm. Qed.

Theorem sort_by_ordered t B (l : list (option (val t) * B)) :
  StronglySorted (fun a b => (compare t (fst a) (fst b) <= 0)%Z) (sort_by t l).
Proof. exact (by_ordered t fst l). Qed.

Theorem sort_by_stable t B (x : option (val t) * B) (l : list (option (val t) * B)) :
  filter (fun e => key_eqb t (fst x) (fst e)) (sort_by t l) = filter (fun e => key_eqb t (fst x) (fst e)) l.
Proof. exact (by_stable t fst x l). Qed.
