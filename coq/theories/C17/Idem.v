(** C17 -- sorting an already ordered sequence returns it unchanged, hence [sort] and
    [sort-by] are idempotent: the sorted order is a fixed point, not merely a permutation
    that happens to be ordered. *)
From Coq Require Import List ZArith Sorted.
From Verif Require Import C17.Model C17.Proofs.

Section Fix.
  Context {A : Type}.
  Variable lt : A -> A -> bool.

  Lemma insert_head x l : Forall (Sort.ord lt x) l -> Sort.insert lt x l = x :: l.
  Proof. apply Sort.insert_head. Qed.

  Lemma sort_fixed l : StronglySorted (Sort.ord lt) l -> Sort.sort lt l = l.
  Proof. apply Sort.sort_fixed. Qed.
End Fix.

Theorem sort_of_ordered t l :
  StronglySorted (fun a b => (compare t a b <= 0)%Z) l -> sort t l = l.
Proof. exact (by_of_ordered t (fun x => x) l). Qed.

Theorem sort_idempotent t l : sort t (sort t l) = sort t l.
Proof. exact (by_idempotent t (fun x => x) l). Qed.

Theorem sort_by_idempotent t B (l : list (option (val t) * B)) :
  sort_by t (sort_by t l) = sort_by t l.
Proof. exact (by_idempotent t fst l). Qed.
