(** Python semantics of the closure fragment: unfolding lemmas, fuel monotonicity,
    frame locality (evaluating an expression only appends frames; executing statements in frame
    [fid] otherwise only changes frame [fid]), and runs on some fuel with their composition. *)
From Coq Require Import List Lia Arith.
Import ListNotations.
From Verif Require Import C01C.CLisp C01C.CPy.

Lemma peval_S_const n fid H k : peval (S n) fid H (PConst k) = Some (pv_of_const k, H, []).
Proof. reflexivity. Qed.
Lemma peval_S_name n fid H p :
  peval (S n) fid H (PName p) = match frame_get H fid p with Some v => Some (v, H, []) | None => None end.
Proof. reflexivity. Qed.
Lemma peval_S_call n fid H f args :
  peval (S n) fid H (PCall f args) =
    match pevall n fid H args with
    | Some (vs, H1, t1) => match papply f vs with Some (v, t2) => Some (v, H1, t1 ++ t2) | None => None end
    | None => None
    end.
Proof. reflexivity. Qed.
Lemma peval_S_invoke n fid H ef eargs :
  peval (S n) fid H (PInvoke ef eargs) =
    match pevall n fid H (ef :: eargs) with
    | Some (PVClo lo ps body ret dfid :: vs, H1, t1) =>
        match nth_error H1 dfid with
        | Some Fd =>
            match bind_pparams ps vs (restrict lo Fd) with
            | Some Fc =>
                match cexec n (length H1) (H1 ++ [Fc]) body with
                | Some (H2, t2) =>
                    match peval n (length H1) H2 ret with
                    | Some (v, H3, t3) => Some (v, H3, t1 ++ t2 ++ t3)
                    | None => None
                    end
                | None => None
                end
            | None => None
            end
        | None => None
        end
    | _ => None
    end.
Proof. reflexivity. Qed.
Lemma peval_invoke_inv n fid H ef eargs v H3 t :
  peval (S n) fid H (PInvoke ef eargs) = Some (v, H3, t) ->
  exists lo ps body ret dfid vs H1 t1 Fd Fc H2 t2 t3,
    pevall n fid H (ef :: eargs) = Some (PVClo lo ps body ret dfid :: vs, H1, t1) /\
    nth_error H1 dfid = Some Fd /\ bind_pparams ps vs (restrict lo Fd) = Some Fc /\
    cexec n (length H1) (H1 ++ [Fc]) body = Some (H2, t2) /\ peval n (length H1) H2 ret = Some (v, H3, t3) /\
    t = t1 ++ t2 ++ t3.
Proof.
  rewrite peval_S_invoke. intro X.
  destruct (pevall n fid H (ef :: eargs)) as [[[vs H1] t1]|] eqn:E1; [|discriminate].
  destruct vs as [|[| | | |lo ps body ret dfid] vs]; try discriminate.
  destruct (nth_error H1 dfid) as [Fd|] eqn:Ed; [|discriminate].
  destruct (bind_pparams ps vs (restrict lo Fd)) as [Fc|] eqn:Eb; [|discriminate].
  destruct (cexec n (length H1) (H1 ++ [Fc]) body) as [[H2 t2]|] eqn:E2; [|discriminate].
  destruct (peval n (length H1) H2 ret) as [[[v' H3'] t3]|] eqn:E3; [|discriminate]. inversion X; subst.
  exists lo, ps, body, ret, dfid, vs, H1, t1, Fd, Fc, H2, t2, t3. repeat split; assumption.
Qed.
Lemma cexec1_S_assign n fid H p e :
  cexec1 (S n) fid H (SAssign p e) =
    match peval n fid H e with Some (v, H1, t) => Some (set_frame H1 fid p v, t) | None => None end.
Proof. reflexivity. Qed.
Lemma cexec1_S_expr n fid H e :
  cexec1 (S n) fid H (SExpr e) = match peval n fid H e with Some (_, H1, t) => Some (H1, t) | None => None end.
Proof. reflexivity. Qed.
Lemma cexec1_S_if n fid H t fb tb :
  cexec1 (S n) fid H (SIf t fb tb) =
    match frame_get H fid t with Some v => cexec n fid H (if pfalsey v then fb else tb) | None => None end.
Proof. reflexivity. Qed.
Lemma cexec1_S_def n fid H name lo ps body ret :
  cexec1 (S n) fid H (SDef name lo ps body ret) = Some (set_frame H fid name (PVClo lo ps body ret fid), []).
Proof. reflexivity. Qed.

Lemma cexec_nil m fid H : cexec m fid H [] = Some (H, []).
Proof. reflexivity. Qed.
Lemma cexec_cons m fid H s r :
  cexec m fid H (s :: r) =
    match cexec1 m fid H s with
    | Some (H1, t1) => match cexec m fid H1 r with Some (H2, t2) => Some (H2, t1 ++ t2) | None => None end
    | None => None
    end.
Proof. reflexivity. Qed.
Lemma pevall_nil m fid H : pevall m fid H [] = Some ([], H, []).
Proof. reflexivity. Qed.
Lemma pevall_cons m fid H a r :
  pevall m fid H (a :: r) =
    match peval m fid H a with
    | Some (v, H1, t1) =>
        match pevall m fid H1 r with Some (vs, H2, t2) => Some (v :: vs, H2, t1 ++ t2) | None => None end
    | None => None
    end.
Proof. reflexivity. Qed.

Lemma cexec_app m fid H l1 l2 :
  cexec m fid H (l1 ++ l2) =
    match cexec m fid H l1 with
    | Some (H1, t1) => match cexec m fid H1 l2 with Some (H2, t2) => Some (H2, t1 ++ t2) | None => None end
    | None => None
    end.
Proof.
  revert H. induction l1 as [|s r IH]; intro H.
  - cbn [app]. rewrite cexec_nil. destruct (cexec m fid H l2) as [[H2 t2]|]; reflexivity.
  - rewrite <- app_comm_cons, !cexec_cons.
    destruct (cexec1 m fid H s) as [[H1 t1]|]; [|reflexivity].
    rewrite IH. destruct (cexec m fid H1 r) as [[H2 t2]|]; [|reflexivity].
    destruct (cexec m fid H2 l2) as [[H3 t3]|]; [|reflexivity].
    rewrite app_assoc. reflexivity.
Qed.

Definition exte (f g : heap -> pexpr -> option (pval * heap * trace)) : Prop :=
  forall H e r, f H e = Some r -> g H e = Some r.
Definition exts (f g : heap -> cstmt -> option (heap * trace)) : Prop :=
  forall H s r, f H s = Some r -> g H s = Some r.

Lemma pevals_ext f g : exte f g -> forall l H r, pevals f H l = Some r -> pevals g H l = Some r.
Proof.
  intros E. induction l as [|a l IH]; intros H r Hr; simpl in *; [exact Hr|].
  destruct (f H a) as [[[v H1] t1]|] eqn:E1; [|discriminate]. rewrite (E _ _ _ E1).
  destruct (pevals f H1 l) as [[[vs H2] t2]|] eqn:E2; [|discriminate]. rewrite (IH _ _ E2). exact Hr.
Qed.

Lemma execs_ext f g : exts f g -> forall l H r, execs f H l = Some r -> execs g H l = Some r.
Proof.
  intros E. induction l as [|s l IH]; intros H r Hr; simpl in *; [exact Hr|].
  destruct (f H s) as [[H1 t1]|] eqn:E1; [|discriminate]. rewrite (E _ _ _ E1).
  destruct (execs f H1 l) as [[H2 t2]|] eqn:E2; [|discriminate]. rewrite (IH _ _ E2). exact Hr.
Qed.

Lemma mono_step : forall m,
  (forall fid H e r, peval m fid H e = Some r -> peval (S m) fid H e = Some r) /\
  (forall fid H s r, cexec1 m fid H s = Some r -> cexec1 (S m) fid H s = Some r).
Proof.
  induction m as [|m [IH1 IH2]]; [split; intros; discriminate|].
  assert (EE : forall fid, exte (peval m fid) (peval (S m) fid)) by (intros fid H e r; apply IH1).
  assert (ES : forall fid, exts (cexec1 m fid) (cexec1 (S m) fid)) by (intros fid H s r; apply IH2).
  split.
  - intros fid H e r Hr. destruct e as [k|p|f args|ef eargs].
    + exact Hr.
    + exact Hr.
    + rewrite peval_S_call in *. unfold pevall in *.
      destruct (pevals (peval m fid) H args) as [[[vs H1] t1]|] eqn:E1; [|discriminate].
      rewrite (pevals_ext _ _ (EE fid) _ _ _ E1). exact Hr.
    + destruct r as [[v H3] t].
      destruct (peval_invoke_inv _ _ _ _ _ _ _ _ Hr) as (lo & ps & body & ret & dfid & vs & H1 & t1 & Fd & Fc & H2 & t2 & t3 & E1 & Ed & Eb & E2 & E3 & ->).
      rewrite peval_S_invoke. unfold pevall, cexec in *.
      rewrite (pevals_ext _ _ (EE fid) _ _ _ E1), Ed, Eb, (execs_ext _ _ (ES _) _ _ _ E2), (IH1 _ _ _ _ E3). reflexivity.
  - intros fid H s r Hr. destruct s as [p e|e|t fb tb|name lo ps body ret].
    + rewrite cexec1_S_assign in *.
      destruct (peval m fid H e) as [[[v H1] t]|] eqn:E1; [|discriminate]. rewrite (IH1 _ _ _ _ E1). exact Hr.
    + rewrite cexec1_S_expr in *.
      destruct (peval m fid H e) as [[[v H1] t]|] eqn:E1; [|discriminate]. rewrite (IH1 _ _ _ _ E1). exact Hr.
    + rewrite cexec1_S_if in *. destruct (frame_get H fid t) as [v|]; [|discriminate].
      unfold cexec in *. eapply execs_ext; [apply ES|exact Hr].
    + exact Hr.
Qed.

Lemma peval_mono m m' fid H e r : (m <= m')%nat -> peval m fid H e = Some r -> peval m' fid H e = Some r.
Proof. intros L Hr. induction L as [|m' L IH]; [exact Hr|]. apply (proj1 (mono_step m')). exact IH. Qed.
Lemma cexec1_mono m m' fid H s r : (m <= m')%nat -> cexec1 m fid H s = Some r -> cexec1 m' fid H s = Some r.
Proof. intros L Hr. induction L as [|m' L IH]; [exact Hr|]. apply (proj2 (mono_step m')). exact IH. Qed.
Lemma cexec_mono m m' fid H l r : (m <= m')%nat -> cexec m fid H l = Some r -> cexec m' fid H l = Some r.
Proof. intros L. unfold cexec. apply execs_ext. intros H0 s r0. apply cexec1_mono. exact L. Qed.
Lemma pevall_mono m m' fid H l r : (m <= m')%nat -> pevall m fid H l = Some r -> pevall m' fid H l = Some r.
Proof. intros L. unfold pevall. apply pevals_ext. intros H0 e r0. apply peval_mono. exact L. Qed.

Lemma cexec_single m fid H s r : cexec1 m fid H s = Some r -> cexec m fid H [s] = Some r.
Proof. intro X. rewrite cexec_cons, X. destruct r as [H1 t1]. rewrite cexec_nil, app_nil_r. reflexivity. Qed.

Lemma set_frame_length H fid p v : length (set_frame H fid p v) = length H.
Proof. revert fid. induction H as [|F r IH]; intros [|k]; simpl; auto. Qed.

Lemma set_frame_same H fid p v F : nth_error H fid = Some F -> nth_error (set_frame H fid p v) fid = Some (set F p v).
Proof.
  revert fid. induction H as [|F0 r IH]; intros [|k] E; simpl in *; try discriminate.
  - inversion E; reflexivity.
  - apply IH. exact E.
Qed.

Lemma set_frame_other H fid p v g : g <> fid -> nth_error (set_frame H fid p v) g = nth_error H g.
Proof.
  revert fid g. induction H as [|F0 r IH]; intros [|k] [|g] N; simpl; auto; try congruence.
Qed.

(** [pres H H']: H' extends H by new frames only *)
Definition pres (H H' : heap) : Prop :=
  (length H <= length H')%nat /\ forall g, (g < length H)%nat -> nth_error H' g = nth_error H g.
(** [pres_except fid H H']: the same except for frame [fid] *)
Definition pres_except (fid : nat) (H H' : heap) : Prop :=
  (length H <= length H')%nat /\ forall g, (g < length H)%nat -> g <> fid -> nth_error H' g = nth_error H g.

Lemma pres_refl H : pres H H.
Proof. split; auto. Qed.
Lemma pres_trans H1 H2 H3 : pres H1 H2 -> pres H2 H3 -> pres H1 H3.
Proof. intros [L1 A1] [L2 A2]. split; [lia|]. intros g Hg. rewrite A2 by lia. apply A1. exact Hg. Qed.
Lemma pres_pe fid H H' : pres H H' -> pres_except fid H H'.
Proof. intros [L A]. split; [exact L|]. intros g Hg _. apply A. exact Hg. Qed.
Lemma pe_refl fid H : pres_except fid H H.
Proof. split; auto. Qed.
Lemma pe_trans fid H1 H2 H3 : pres_except fid H1 H2 -> pres_except fid H2 H3 -> pres_except fid H1 H3.
Proof. intros [L1 A1] [L2 A2]. split; [lia|]. intros g Hg N. rewrite A2 by (lia || exact N). apply A1; assumption. Qed.
Lemma pres_app H fs : pres H (H ++ fs).
Proof. split; [rewrite app_length; lia|]. intros g Hg. apply nth_error_app1. exact Hg. Qed.
Lemma pe_set_frame H fid p v : pres_except fid H (set_frame H fid p v).
Proof. split; [rewrite set_frame_length; lia|]. intros g _ N. apply set_frame_other. exact N. Qed.
(** a change confined to a frame that did not exist before is no change *)
Lemma pe_new H H' cf : (length H <= cf)%nat -> pres H H' -> forall H'', pres_except cf H' H'' -> pres H H''.
Proof.
  intros Lc [L A] H'' [L2 A2]. split; [lia|]. intros g Hg. rewrite A2 by lia. apply A. exact Hg.
Qed.

Section Lift.
  Variable Q : heap -> heap -> Prop.
  Hypothesis Qrefl : forall H, Q H H.
  Hypothesis Qtrans : forall H1 H2 H3, Q H1 H2 -> Q H2 H3 -> Q H1 H3.

  Lemma pevals_lift ev : (forall H e v H' t, ev H e = Some (v, H', t) -> Q H H') ->
    forall l H vs H' t, pevals ev H l = Some (vs, H', t) -> Q H H'.
  Proof.
    intros E. induction l as [|a l IH]; intros H vs H' t X; simpl in X.
    - inversion X; subst. apply Qrefl.
    - destruct (ev H a) as [[[v H1] t1]|] eqn:E1; [|discriminate].
      destruct (pevals ev H1 l) as [[[vs' H2] t2]|] eqn:E2; [|discriminate]. inversion X; subst. eauto.
  Qed.

  Lemma execs_lift ex : (forall H s H' t, ex H s = Some (H', t) -> Q H H') ->
    forall l H H' t, execs ex H l = Some (H', t) -> Q H H'.
  Proof.
    intros E. induction l as [|s l IH]; intros H H' t X; simpl in X.
    - inversion X; subst. apply Qrefl.
    - destruct (ex H s) as [[H1 t1]|] eqn:E1; [|discriminate].
      destruct (execs ex H1 l) as [[H2 t2]|] eqn:E2; [|discriminate]. inversion X; subst. eauto.
  Qed.
End Lift.

Lemma locality : forall m,
  (forall fid H e v H' t, peval m fid H e = Some (v, H', t) -> pres H H') /\
  (forall fid H s H' t, cexec1 m fid H s = Some (H', t) -> pres_except fid H H').
Proof.
  induction m as [|m [IH1 IH2]]; [split; intros; discriminate|].
  assert (IL : forall fid l H vs H' t, pevall m fid H l = Some (vs, H', t) -> pres H H')
    by (intro fid; apply (pevals_lift pres pres_refl pres_trans), IH1).
  assert (IS : forall fid l H H' t, cexec m fid H l = Some (H', t) -> pres_except fid H H')
    by (intro fid; apply (execs_lift _ (pe_refl fid) (pe_trans fid)), IH2).
  split.
  - intros fid H e v H' t X. destruct e as [k|p|f args|ef eargs].
    + rewrite peval_S_const in X. inversion X; subst. apply pres_refl.
    + rewrite peval_S_name in X. destruct (frame_get H fid p); inversion X; subst. apply pres_refl.
    + rewrite peval_S_call in X.
      destruct (pevall m fid H args) as [[[vs H1] t1]|] eqn:E1; [|discriminate].
      destruct (papply f vs) as [[v' t2]|]; [|discriminate]. inversion X; subst. eapply IL; exact E1.
    + destruct (peval_invoke_inv _ _ _ _ _ _ _ _ X) as (lo & ps & body & ret & dfid & vs & H1 & t1 & Fd & Fc & H2 & t2 & t3 & E1 & _ & _ & E2 & E3 & _).
      eapply pres_trans; [eapply IL; exact E1|].
      eapply pres_trans; [|eapply IH1; exact E3].
      eapply (pe_new H1 (H1 ++ [Fc]) (length H1)); [lia|apply pres_app|eapply IS; exact E2].
  - intros fid H s H' t X. destruct s as [p e|e|tst fb tb|name lo ps body ret].
    + rewrite cexec1_S_assign in X.
      destruct (peval m fid H e) as [[[v H1] t1]|] eqn:E1; [|discriminate]. inversion X; subst.
      eapply pe_trans; [apply pres_pe; eapply IH1; exact E1|apply pe_set_frame].
    + rewrite cexec1_S_expr in X.
      destruct (peval m fid H e) as [[[v H1] t1]|] eqn:E1; [|discriminate]. inversion X; subst.
      apply pres_pe. eapply IH1; exact E1.
    + rewrite cexec1_S_if in X. destruct (frame_get H fid tst); [|discriminate]. eapply IS; exact X.
    + rewrite cexec1_S_def in X. inversion X; subst. apply pe_set_frame.
Qed.

Lemma peval_pres m fid H e v H' t : peval m fid H e = Some (v, H', t) -> pres H H'.
Proof. apply (proj1 (locality m)). Qed.
Lemma pevall_pres m fid l H vs H' t : pevall m fid H l = Some (vs, H', t) -> pres H H'.
Proof. apply (pevals_lift pres pres_refl pres_trans). intros H0 e. apply peval_pres. Qed.
Lemma cexec_pe m fid H l H' t : cexec m fid H l = Some (H', t) -> pres_except fid H H'.
Proof. apply (execs_lift _ (pe_refl fid) (pe_trans fid)), (proj2 (locality m)). Qed.

(** on some fuel: composing runs needs no arithmetic on it *)
Definition runs (fid : nat) (H : heap) (d : list cstmt) (H' : heap) (t : trace) : Prop :=
  exists m, cexec m fid H d = Some (H', t).
Definition yields (fid : nat) (H : heap) (e : pexpr) (v : pval) (H' : heap) (t : trace) : Prop :=
  exists m, peval m fid H e = Some (v, H', t).
Definition yields_all (fid : nat) (H : heap) (es : list pexpr) (vs : list pval) (H' : heap) (t : trace) : Prop :=
  exists m, pevall m fid H es = Some (vs, H', t).

Lemma runs_nil fid H : runs fid H [] H [].
Proof. exists O. reflexivity. Qed.
Lemma runs_app fid H d1 d2 H1 t1 H2 t2 :
  runs fid H d1 H1 t1 -> runs fid H1 d2 H2 t2 -> runs fid H (d1 ++ d2) H2 (t1 ++ t2).
Proof.
  intros [m1 X1] [m2 X2]. exists (Nat.max m1 m2).
  rewrite cexec_app, (cexec_mono m1 _ _ _ _ _ (Nat.le_max_l _ _) X1), (cexec_mono m2 _ _ _ _ _ (Nat.le_max_r _ _) X2).
  reflexivity.
Qed.
Lemma runs_mid fid H d1 s d2 H1 t1 H2 t2 H3 t3 :
  runs fid H d1 H1 t1 -> runs fid H1 [s] H2 t2 -> runs fid H2 d2 H3 t3 -> runs fid H (d1 ++ s :: d2) H3 ((t1 ++ t2) ++ t3).
Proof. intros. change (s :: d2) with ([s] ++ d2). rewrite app_assoc. eauto using runs_app. Qed.
Lemma runs_one m fid H s H' t : cexec1 m fid H s = Some (H', t) -> runs fid H [s] H' t.
Proof. exists m. apply cexec_single. assumption. Qed.
Lemma runs_assign fid H p e v H1 t : yields fid H e v H1 t -> runs fid H [SAssign p e] (set_frame H1 fid p v) t.
Proof. intros [m P]. apply (runs_one (S m)). rewrite cexec1_S_assign, P. reflexivity. Qed.
Lemma runs_expr fid H e v H1 t : yields fid H e v H1 t -> runs fid H [SExpr e] H1 t.
Proof. intros [m P]. apply (runs_one (S m)). rewrite cexec1_S_expr, P. reflexivity. Qed.
Lemma runs_if fid H tst fb tb v H' t :
  frame_get H fid tst = Some v -> runs fid H (if pfalsey v then fb else tb) H' t -> runs fid H [SIf tst fb tb] H' t.
Proof. intros E [m X]. apply (runs_one (S m)). rewrite cexec1_S_if, E. exact X. Qed.
Lemma runs_def fid H name lo ps body ret :
  runs fid H [SDef name lo ps body ret] (set_frame H fid name (PVClo lo ps body ret fid)) [].
Proof. apply (runs_one 1). reflexivity. Qed.

Lemma yields_const fid H k : yields fid H (PConst k) (pv_of_const k) H [].
Proof. exists 1%nat. reflexivity. Qed.
Lemma yields_name fid H p v : frame_get H fid p = Some v -> yields fid H (PName p) v H [].
Proof. intro E. exists 1%nat. rewrite peval_S_name, E. reflexivity. Qed.
Lemma yields_call fid H f args vs H1 t1 v t2 :
  yields_all fid H args vs H1 t1 -> papply f vs = Some (v, t2) -> yields fid H (PCall f args) v H1 (t1 ++ t2).
Proof. intros [m P] A. exists (S m). rewrite peval_S_call, P, A. reflexivity. Qed.
Lemma yields_invoke fid H ef eargs lo ps body ret dfid vs H1 t1 Fd Fc H2 t2 v H3 t3 :
  yields_all fid H (ef :: eargs) (PVClo lo ps body ret dfid :: vs) H1 t1 ->
  nth_error H1 dfid = Some Fd -> bind_pparams ps vs (restrict lo Fd) = Some Fc ->
  runs (length H1) (H1 ++ [Fc]) body H2 t2 -> yields (length H1) H2 ret v H3 t3 ->
  yields fid H (PInvoke ef eargs) v H3 (t1 ++ t2 ++ t3).
Proof.
  intros [m1 P1] Ed Eb [m2 X2] [m3 P3]. set (m := Nat.max m1 (Nat.max m2 m3)). exists (S m).
  rewrite peval_S_invoke, (pevall_mono m1 m _ _ _ _ ltac:(lia) P1), Ed, Eb,
    (cexec_mono m2 m _ _ _ _ ltac:(lia) X2), (peval_mono m3 m _ _ _ _ ltac:(lia) P3). reflexivity.
Qed.
Lemma yields_all_nil fid H : yields_all fid H [] [] H [].
Proof. exists O. reflexivity. Qed.
Lemma yields_all_cons fid H a r v vs H1 t1 H2 t2 :
  yields fid H a v H1 t1 -> yields_all fid H1 r vs H2 t2 -> yields_all fid H (a :: r) (v :: vs) H2 (t1 ++ t2).
Proof.
  intros [m1 P1] [m2 P2]. exists (Nat.max m1 m2).
  rewrite pevall_cons, (peval_mono m1 _ _ _ _ _ (Nat.le_max_l _ _) P1), (pevall_mono m2 _ _ _ _ _ (Nat.le_max_r _ _) P2).
  reflexivity.
Qed.

Lemma runs_yields fid H d H1 t1 e v H2 t2 :
  runs fid H d H1 t1 -> yields fid H1 e v H2 t2 ->
  exists m, cexec m fid H d = Some (H1, t1) /\ peval m fid H1 e = Some (v, H2, t2).
Proof.
  intros [m1 X] [m2 P]. exists (Nat.max m1 m2).
  split; [exact (cexec_mono m1 _ _ _ _ _ (Nat.le_max_l _ _) X)|exact (peval_mono m2 _ _ _ _ _ (Nat.le_max_r _ _) P)].
Qed.

Lemma runs_pe fid H d H' t : runs fid H d H' t -> pres_except fid H H'.
Proof. intros [m X]. eapply cexec_pe; exact X. Qed.
Lemma yields_all_pres fid H es vs H' t : yields_all fid H es vs H' t -> pres H H'.
Proof. intros [m P]. eapply pevall_pres; exact P. Qed.
