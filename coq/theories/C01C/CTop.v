(** Whole-program theorem for the closure fragment. *)
From Coq Require Import List ZArith.
Import ListNotations.
From Verif Require Import C01C.CLisp C01C.CGen C01C.CMono C01C.CSim.
Local Open Scope N_scope.

Lemma R_empty : R [] (fun _ => None) [fun _ => None] 0%nat 0.
Proof.
  exists (fun _ => None). split; [reflexivity|]. split; [intros x v X; discriminate|].
  split; [intros x p X; discriminate|]. split; [intros x y X; discriminate|]. intros p X. congruence.
Qed.

(** If the evaluation rules give a value and a trace for a closed hazard-free program of the
    fragment (constants, locals, if, do, let*, primitive calls, fn* of one arity, invocation of
    function values; closures may be returned, stored in vectors, passed around and called
    any number of times, from anywhere), then for every sufficiently large fuel the compiled
    code yields the same observable value and exactly the same trace: every closure sees, each
    time it is called, the bindings that were in effect when it was created. *)
Theorem ccompile_correct fuel e v tr :
  ceval fuel [] e = Some (v, tr) -> hazard_free e = true ->
  exists m, forall m', (m <= m')%nat -> crun m' e = Some (obs_of v, tr).
Proof.
  intros He Hh. unfold hazard_free, crun in *.
  destruct (cgen (fun _ => None) 0 e) as [[[d pe] n'] k] eqn:G. subst k.
  destruct (csim_all fuel e _ _ _ _ _ _ _ _ _ _ _ R_empty eq_refl He G)
    as (m & H1 & H2 & pv & t1 & t2 & F1 & X & P & T & V & _).
  exists m. intros m' Hm.
  rewrite (cexec_mono m m' _ _ _ _ Hm X), (peval_mono m m' _ _ _ _ Hm P), T, (VR_obs _ _ _ V). reflexivity.
Qed.

Definition t1 (z : Z) : cexpr := CCall PTrace [CConst (KInt z)].

(** (let* [a 1 f (fn* [x] (vector a x (t 5)))] (vector (f 2) (f (t 3)))) *)
Definition adder : cexpr :=
  CLet 0 (CConst (KInt 1)) (CLet 1 (CFn None [2] (CCall PVec [CLocal 0; CLocal 2; t1 5]))
    (CCall PVec [CInvoke (CLocal 1) [CConst (KInt 2)]; CInvoke (CLocal 1) [t1 3]])).

(** (let* [mk (fn* [n] (fn* [] n)) a (mk 1) b (mk 2)] (vector (a) (b))): each closure keeps its own n *)
Definition counters : cexpr :=
  CLet 0 (CFn None [1] (CFn None [] (CLocal 1)))
    (CLet 2 (CInvoke (CLocal 0) [CConst (KInt 1)]) (CLet 3 (CInvoke (CLocal 0) [CConst (KInt 2)])
       (CCall PVec [CInvoke (CLocal 2) []; CInvoke (CLocal 3) []]))).

(** (let* [a 1 f (fn* [] a) a 2] (vector (f) a)): a later binding of the same name does not reach the closure *)
Definition rebind : cexpr :=
  CLet 0 (CConst (KInt 1)) (CLet 1 (CFn None [] (CLocal 0)) (CLet 0 (CConst (KInt 2))
    (CCall PVec [CInvoke (CLocal 1) []; CLocal 0]))).

(** a named fn* calling itself: ((fn* go [n acc] (if (< n 3) (go (inc n) (conj acc (t n))) acc)) 0 []) *)
Definition recursive : cexpr :=
  CInvoke (CFn (Some 0) [1; 2]
             (CIf (CCall PLt [CLocal 1; CConst (KInt 3)])
                  (CInvoke (CLocal 0) [CCall PInc [CLocal 1]; CCall PConj [CLocal 2; CCall PTrace [CLocal 1]]])
                  (CLocal 2)))
          [CConst (KInt 0); CConst (KVec [])].

Example recursive_ok :
  hazard_free recursive = true /\
  ceval_obs 60 recursive = Some (OVec [OInt 0; OInt 1; OInt 2], [OInt 0; OInt 1; OInt 2]) /\
  crun 60 recursive = ceval_obs 60 recursive.
Proof. repeat split; vm_compute; reflexivity. Qed.

Example adder_ok :
  hazard_free adder = true /\
  ceval_obs 30 adder = Some (OVec [OVec [OInt 1; OInt 2; OInt 5]; OVec [OInt 1; OInt 3; OInt 5]], [OInt 5; OInt 3; OInt 5]) /\
  crun 30 adder = ceval_obs 30 adder.
Proof. repeat split; vm_compute; reflexivity. Qed.

Example counters_ok :
  hazard_free counters = true /\ ceval_obs 40 counters = Some (OVec [OInt 1; OInt 2], []) /\
  crun 40 counters = ceval_obs 40 counters.
Proof. repeat split; vm_compute; reflexivity. Qed.

Example rebind_ok :
  hazard_free rebind = true /\ ceval_obs 40 rebind = Some (OVec [OInt 1; OInt 2], []) /\
  crun 40 rebind = ceval_obs 40 rebind.
Proof. repeat split; vm_compute; reflexivity. Qed.
