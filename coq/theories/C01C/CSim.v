(** Forward simulation for the closure fragment: fn* values are related to Python function
    values compiled from them whose defining frame holds related values for the captured
    names; frames only ever gain fresh names, so the relation is stable as execution goes on. *)
From Coq Require Import List NArith Bool Lia Arith.
Import ListNotations.
From Verif Require Import C01C.CLisp C01C.CPy C01C.CGen C01C.CMono.
Local Open Scope N_scope.

Definition agree_below (n : N) (F F' : frame) : Prop := forall p, idx p < n -> F' p = F p.
Definition below (n : N) (F : frame) : Prop := forall p, F p <> None -> idx p < n.
Definition incl_frame (F F' : frame) : Prop := forall p v, F p = Some v -> F' p = Some v.
Definition Hle (H H' : heap) : Prop :=
  forall g F, nth_error H g = Some F -> exists F', nth_error H' g = Some F' /\ incl_frame F F'.
Definition sg_wf (sg : senv) : Prop := forall x y, sg x = Some (NParam y) -> y = x.

Lemma agree_refl n F : agree_below n F F.
Proof. intros p _; reflexivity. Qed.
Lemma agree_trans n m F1 F2 F3 : n <= m -> agree_below n F1 F2 -> agree_below m F2 F3 -> agree_below n F1 F3.
Proof. intros L A B p Hp. rewrite B by lia. apply A; auto. Qed.
Lemma agree_weaken n m F F' : n <= m -> agree_below m F F' -> agree_below n F F'.
Proof. intros L A p Hp. apply A. lia. Qed.
Lemma set_same F p v : set F p v p = Some v.
Proof. unfold set. assert (E : pname_eqb p p = true) by (apply pname_eqb_eq; reflexivity). rewrite E. reflexivity. Qed.
Lemma set_other F p v q : q <> p -> set F p v q = F q.
Proof.
  intro Hn. unfold set. destruct (pname_eqb q p) eqn:E; [|reflexivity].
  apply pname_eqb_eq in E. contradiction.
Qed.
Lemma agree_set n F p v : n <= idx p -> agree_below n F (set F p v).
Proof. intros L q Hq. apply set_other. intro E; subst. lia. Qed.
Lemma below_set n m F p v : below n F -> n <= m -> idx p < m -> below m (set F p v).
Proof.
  intros B L Lp q Hq. unfold set in Hq. destruct (pname_eqb q p) eqn:E.
  - apply pname_eqb_eq in E. subst. exact Lp.
  - specialize (B q Hq). lia.
Qed.
Lemma below_weaken n m F : below n F -> n <= m -> below m F.
Proof. intros B L p Hp. specialize (B p Hp). lia. Qed.
Lemma below_unbound n F p : below n F -> n <= idx p -> F p = None.
Proof. intros B L. destruct (F p) eqn:E; [|reflexivity]. assert (idx p < n) by (apply B; congruence). lia. Qed.
Lemma incl_refl F : incl_frame F F.
Proof. intros p v E; exact E. Qed.
Lemma incl_set F p v : F p = None -> incl_frame F (set F p v).
Proof. intros Hn q w E. rewrite set_other; [exact E|]. intro X; subst. congruence. Qed.
Lemma Hle_refl H : Hle H H.
Proof. intros g F E. exists F. split; [exact E|apply incl_refl]. Qed.
Lemma Hle_trans H1 H2 H3 : Hle H1 H2 -> Hle H2 H3 -> Hle H1 H3.
Proof.
  intros A B g F E. destruct (A g F E) as (F2 & E2 & I2). destruct (B g F2 E2) as (F3 & E3 & I3).
  exists F3. split; [exact E3|]. intros p v X. apply I3, I2, X.
Qed.
Lemma nth_lt {A} (l : list A) g x : nth_error l g = Some x -> (g < length l)%nat.
Proof. intro E. apply nth_error_Some. congruence. Qed.
Lemma Hle_pres H H' : pres H H' -> Hle H H'.
Proof.
  intros [L A] g F E. exists F. split; [|apply incl_refl]. rewrite A; [exact E|]. eapply nth_lt; eauto.
Qed.
Lemma Hle_set H fid F p v : nth_error H fid = Some F -> F p = None -> Hle H (set_frame H fid p v).
Proof.
  intros E Hn g Fg Eg. destruct (Nat.eq_dec g fid) as [Eq|N]; [subst g|].
  - pose proof (eq_trans (eq_sym E) Eg) as X; inversion X; subst Fg; clear X. exists (set F p v). split; [apply set_frame_same; exact E|apply incl_set; exact Hn].
  - exists Fg. split; [rewrite set_frame_other by exact N; exact Eg|apply incl_refl].
Qed.
(** what executing statements in frame [fid] does to the heap as a whole *)
Lemma Hle_exec n fid H H1 F F1 :
  nth_error H fid = Some F -> below n F -> pres_except fid H H1 ->
  nth_error H1 fid = Some F1 -> agree_below n F F1 -> Hle H H1.
Proof.
  intros E B [L A] E1 Ag g Fg Eg. destruct (Nat.eq_dec g fid) as [Eq|N]; [subst g|].
  - pose proof (eq_trans (eq_sym E) Eg) as X; inversion X; subst Fg; clear X. exists F1. split; [exact E1|].
    intros p v X. rewrite Ag; [exact X|]. apply B. congruence.
  - exists Fg. split; [|apply incl_refl]. rewrite A; [exact Eg| |exact N]. eapply nth_lt; eauto.
Qed.

Inductive VR (H : heap) : cval -> pval -> Prop :=
| VR_nil : VR H CVNil PVNil
| VR_bool b : VR H (CVBool b) (PVBool b)
| VR_int z : VR H (CVInt z) (PVInt z)
| VR_vec l pl : Forall2 (VR H) l pl -> VR H (CVVec l) (PVVec pl)
| VR_clo self ps body rc sg n pb pr n' dfid Fd :
    nth_error H dfid = Some Fd ->
    cgen (bind_sg (self_sg sg self n) ps) (n + 1) body = (pb, pr, n', true) ->
    (forall x p, sg x = Some p -> idx p < n) -> sg_wf sg ->
    (forall x v, lookup rc x = Some v -> exists p pv, sg x = Some p /\ Fd p = Some pv /\ VR H v pv) ->
    Fd (NFn n) = Some (PVClo (n + 1) (map NParam ps) pb pr dfid) ->
    VR H (CVClo self ps body rc) (PVClo (n + 1) (map NParam ps) pb pr dfid).

Section CvalInd.
  Variable P : cval -> Prop.
  Hypothesis HNil : P CVNil.
  Hypothesis HBool : forall b, P (CVBool b).
  Hypothesis HInt : forall z, P (CVInt z).
  Hypothesis HVec : forall l, Forall P l -> P (CVVec l).
  Hypothesis HClo : forall self ps body rc, Forall (fun xv => P (snd xv)) rc -> P (CVClo self ps body rc).
  Fixpoint cval_ind' (v : cval) : P v :=
    match v with
    | CVNil => HNil | CVBool b => HBool b | CVInt z => HInt z
    | CVVec l => HVec l ((fix go (l : list cval) : Forall P l :=
                            match l with [] => Forall_nil P | a :: r => Forall_cons a (cval_ind' a) (go r) end) l)
    | CVClo self ps body rc =>
        HClo self ps body rc ((fix go (l : list (N * cval)) : Forall (fun xv => P (snd xv)) l :=
                            match l with [] => Forall_nil _ | xv :: r => Forall_cons xv (cval_ind' (snd xv)) (go r) end) rc)
    end.
End CvalInd.

Lemma lookup_in rc x v : lookup rc x = Some v -> In (x, v) rc.
Proof.
  induction rc as [|[y w] r IH]; simpl; [discriminate|].
  destruct (N.eqb x y) eqn:E.
  - apply N.eqb_eq in E. subst. intro X. inversion X; subst. left; reflexivity.
  - intro X. right. apply IH. exact X.
Qed.

Lemma Forall2_Forall_impl {A B} (Q Q' : A -> B -> Prop) l l' :
  Forall (fun a => forall b, Q a b -> Q' a b) l -> Forall2 Q l l' -> Forall2 Q' l l'.
Proof. intros HF F2. induction F2; inversion HF; subst; constructor; auto. Qed.
Lemma Forall2_Forall_map {A B C} (Q : A -> B -> Prop) (f : A -> C) (g : B -> C) l l' :
  Forall (fun a => forall b, Q a b -> g b = f a) l -> Forall2 Q l l' -> map g l' = map f l.
Proof. intros HF F2. induction F2; inversion HF; subst; simpl; f_equal; auto. Qed.

Lemma VR_mono : forall v pv H H', Hle H H' -> VR H v pv -> VR H' v pv.
Proof.
  induction v as [| b | z | l IHl | self ps body rc IHrc] using cval_ind'; intros pv H H' L X; inversion X; subst;
    try constructor.
  - eapply Forall2_Forall_impl; [|eassumption]. eapply Forall_impl; [|exact IHl]. intros a Ha b. apply Ha, L.
  - match goal with E : nth_error H dfid = Some Fd |- _ => destruct (L _ _ E) as (Fd' & E' & I') end.
    econstructor; eauto.
    intros x v Hx.
    match goal with Henv : forall x v, lookup rc x = Some v -> _ |- _ => destruct (Henv x v Hx) as (p & pv0 & S1 & S2 & S3) end.
    exists p, pv0. split; [exact S1|]. split; [apply I'; exact S2|].
    rewrite Forall_forall in IHrc. apply (IHrc (x, v) (lookup_in _ _ _ Hx) pv0 H H' L S3).
Qed.

Lemma VR_mono_list H H' vs pvs : Hle H H' -> Forall2 (VR H) vs pvs -> Forall2 (VR H') vs pvs.
Proof. intros L F2. induction F2; constructor; eauto using VR_mono. Qed.

Fixpoint VR_const (H : heap) (k : const) : VR H (of_const k) (pv_of_const k) :=
  match k with
  | Verif.C01.FLisp.KNil => VR_nil H
  | Verif.C01.FLisp.KBool b => VR_bool H b
  | Verif.C01.FLisp.KInt z => VR_int H z
  | Verif.C01.FLisp.KVec l =>
      VR_vec H _ _ ((fix go (l : list const) : Forall2 (VR H) (map of_const l) (map pv_of_const l) :=
                       match l with
                       | [] => Forall2_nil _
                       | x :: r => Forall2_cons _ _ (VR_const H x) (go r)
                       end) l)
  end.

Lemma VR_obs : forall v pv H, VR H v pv -> pobs_of pv = obs_of v.
Proof.
  induction v as [| b | z | l IHl | self ps body rc _] using cval_ind'; intros pv H X; inversion X; subst; try reflexivity.
  simpl. f_equal. eapply Forall2_Forall_map; [|eassumption]. eapply Forall_impl; [|exact IHl]. intros a Ha b. apply Ha.
Qed.

Lemma VR_falsey H v pv : VR H v pv -> pfalsey pv = falsey v.
Proof. intro X. inversion X; reflexivity. Qed.

Lemma papply_rel H f vs pvs v t :
  Forall2 (VR H) vs pvs -> apply_prim f vs = Some (v, t) ->
  exists pv, papply f pvs = Some (pv, t) /\ VR H v pv.
Proof.
  intros F2 A. destruct f; simpl in A.
  - destruct F2 as [|? pv1 ? ? V1 [|]]; try discriminate. inversion A; subst.
    exists pv1. simpl. rewrite (VR_obs _ _ _ V1). auto.
  - inversion A; subst. exists (PVVec pvs). split; [reflexivity|constructor; exact F2].
  - destruct F2 as [|? ? ? ? [| | |l pl Fl|] [|? pv2 ? ? V2 [|]]]; try discriminate. inversion A; subst.
    exists (PVVec (pl ++ [pv2])). split; [reflexivity|constructor; apply Forall2_app; auto].
  - destruct F2 as [|? ? ? ? [| |z| |] [|]]; try discriminate. inversion A; subst.
    eexists. split; [reflexivity|constructor].
  - destruct F2 as [|? ? ? ? [| |a| |] [|? ? ? ? [| |b| |] [|]]]; try discriminate. inversion A; subst.
    eexists. split; [reflexivity|constructor].
  - discriminate.
Qed.

(** the source environment [rho] is held by frame [F] under the names [sg] gives *)
Definition env_rel (H : heap) (rho : env) (sg : senv) (F : frame) : Prop :=
  forall x v, lookup rho x = Some v -> exists p pv, sg x = Some p /\ F p = Some pv /\ VR H v pv.

Lemma env_rel_mono H H' rho sg F F' :
  Hle H H' -> (forall x p pv, sg x = Some p -> F p = Some pv -> F' p = Some pv) ->
  env_rel H rho sg F -> env_rel H' rho sg F'.
Proof.
  intros L I A x v Hx. destruct (A x v Hx) as (p & pv & S1 & S2 & S3).
  exists p, pv. eauto using VR_mono.
Qed.

Lemma env_rel_cons H rho sg F x v p pv :
  env_rel H rho sg F -> (forall y, y <> x -> sg y <> Some p) -> VR H v pv ->
  env_rel H ((x, v) :: rho) (upd sg x p) (set F p pv).
Proof.
  intros A Fr V y w Hy. simpl in Hy. unfold upd. destruct (N.eqb y x) eqn:Eyx.
  - inversion Hy; subst. exists p, pv. auto using set_same.
  - destruct (A y w Hy) as (q & qv & S1 & S2 & S3). exists q, qv. split; [exact S1|]. split; [|exact S3].
    rewrite set_other; [exact S2|]. intro X; subst. apply N.eqb_neq in Eyx. exact (Fr _ Eyx S1).
Qed.

Definition R (rho : env) (sg : senv) (H : heap) (fid : nat) (n : N) : Prop :=
  exists F, nth_error H fid = Some F /\
    (forall x v, lookup rho x = Some v -> exists p pv, sg x = Some p /\ F p = Some pv /\ VR H v pv) /\
    (forall x p, sg x = Some p -> idx p < n) /\ sg_wf sg /\ below n F.

Lemma R_frame rho sg H fid n F : R rho sg H fid n -> nth_error H fid = Some F ->
  env_rel H rho sg F /\ (forall x p, sg x = Some p -> idx p < n) /\ sg_wf sg /\ below n F.
Proof.
  intros (F0 & E0 & A & B & C & D) E. pose proof (eq_trans (eq_sym E0) E) as X. inversion X; subst. auto.
Qed.

Lemma R_weaken rho sg H fid n m : R rho sg H fid n -> n <= m -> R rho sg H fid m.
Proof.
  intros (F & E & A & B & W & Bl) L. exists F. split; [exact E|]. split; [exact A|].
  split; [intros x p Hx; specialize (B x p Hx); lia|]. split; [exact W|eapply below_weaken; eauto].
Qed.

(** the relation after running code generated at counters [n, n') in the current frame *)
Lemma R_after rho sg H fid n n' H1 H2 F F1 :
  R rho sg H fid n -> nth_error H fid = Some F -> n <= n' ->
  pres_except fid H H1 -> nth_error H1 fid = Some F1 -> agree_below n F F1 -> below n' F1 -> pres H1 H2 ->
  R rho sg H2 fid n' /\ nth_error H2 fid = Some F1 /\ Hle H H2.
Proof.
  intros HR E L PE E1 Ag B1 P12.
  destruct (R_frame _ _ _ _ _ _ HR E) as (A & Bs & W & B).
  assert (L02 : Hle H H2) by (eapply Hle_trans; [eapply Hle_exec; eauto|apply Hle_pres; exact P12]).
  assert (E2 : nth_error H2 fid = Some F1).
  { destruct P12 as [_ P]. rewrite P; [exact E1|]. eapply nth_lt; eauto. }
  split; [|split; [exact E2|exact L02]].
  exists F1. split; [exact E2|]. split; [|split; [|split; [exact W|exact B1]]].
  - eapply env_rel_mono; [exact L02| |exact A]. intros x p pv Hx Hp. rewrite Ag; [exact Hp|eapply Bs; eauto].
  - intros x p Hx. specialize (Bs x p Hx). lia.
Qed.

Lemma R_set rho sg H fid n F p pv m :
  R rho sg H fid n -> nth_error H fid = Some F -> n <= idx p -> idx p < m ->
  R rho sg (set_frame H fid p pv) fid m.
Proof.
  intros HR E Lp Lm. destruct (R_frame _ _ _ _ _ _ HR E) as (A & Bs & W & B).
  pose proof (below_unbound _ _ _ B Lp) as Hn.
  exists (set F p pv). split; [apply set_frame_same; exact E|].
  split; [|split; [|split; [exact W|eapply below_set; eauto; lia]]].
  - eapply env_rel_mono; [eapply Hle_set; eauto| |exact A].
    intros x q qv _ Hq. rewrite set_other; [exact Hq|]. intro X; subst; congruence.
  - intros y q Hy. specialize (Bs y q Hy). lia.
Qed.

Lemma R_let rho sg H fid n F x v p pv m :
  R rho sg H fid n -> nth_error H fid = Some F -> n <= idx p -> idx p < m ->
  (forall y, p <> NParam y) -> VR H v pv ->
  R ((x, v) :: rho) (upd sg x p) (set_frame H fid p pv) fid m.
Proof.
  intros HR E Lp Lm NP V. destruct (R_frame _ _ _ _ _ _ HR E) as (A & Bs & W & B).
  pose proof (below_unbound _ _ _ B Lp) as Hn.
  assert (LH : Hle H (set_frame H fid p pv)) by (eapply Hle_set; eauto).
  exists (set F p pv). split; [apply set_frame_same; exact E|].
  split; [|split; [|split; [|eapply below_set; eauto; lia]]].
  - apply env_rel_cons; [eapply env_rel_mono; [exact LH| |exact A]; auto| |eapply VR_mono; eauto].
    intros y _ Hy. specialize (Bs y p Hy). lia.
  - intros y q Hy. unfold upd in Hy. destruct (N.eqb y x).
    + inversion Hy; subst. exact Lm.
    + specialize (Bs y q Hy). lia.
  - intros y z Hy. unfold upd in Hy. destruct (N.eqb y x).
    + inversion Hy as [X]. exfalso. apply (NP z). exact X.
    + apply W. exact Hy.
Qed.

Section CexprInd.
  Variable P : cexpr -> Prop.
  Hypothesis HConst : forall k, P (CConst k).
  Hypothesis HLocal : forall x, P (CLocal x).
  Hypothesis HIf : forall c t e, P c -> P t -> P e -> P (CIf c t e).
  Hypothesis HDo : forall s r, P s -> P r -> P (CDo s r).
  Hypothesis HLet : forall x i b, P i -> P b -> P (CLet x i b).
  Hypothesis HCall : forall f args, Forall P args -> P (CCall f args).
  Hypothesis HFn : forall self ps body, P body -> P (CFn self ps body).
  Hypothesis HInvoke : forall f args, P f -> Forall P args -> P (CInvoke f args).
  Fixpoint cexpr_ind' (e : cexpr) : P e :=
    match e with
    | CConst k => HConst k
    | CLocal x => HLocal x
    | CIf c t e => HIf c t e (cexpr_ind' c) (cexpr_ind' t) (cexpr_ind' e)
    | CDo s r => HDo s r (cexpr_ind' s) (cexpr_ind' r)
    | CLet x i b => HLet x i b (cexpr_ind' i) (cexpr_ind' b)
    | CCall f args =>
        HCall f args ((fix go (l : list cexpr) : Forall P l :=
                         match l with [] => Forall_nil P | a :: r => Forall_cons a (cexpr_ind' a) (go r) end) args)
    | CFn self ps body => HFn self ps body (cexpr_ind' body)
    | CInvoke f args =>
        HInvoke f args (cexpr_ind' f)
          ((fix go (l : list cexpr) : Forall P l :=
              match l with [] => Forall_nil P | a :: r => Forall_cons a (cexpr_ind' a) (go r) end) args)
    end.
End CexprInd.

Lemma cgen_list_mono_of args :
  Forall (fun e => forall sg n d pe n' k, cgen sg n e = (d, pe, n', k) -> n <= n') args ->
  forall sg n ds es n' k, cgen_list sg n args = (ds, es, n', k) -> n <= n'.
Proof.
  induction args as [|a r IHr]; intros HF sg n ds es n' k G.
  - cbv in G. inversion G; lia.
  - rewrite cgen_list_cons in G.
    destruct (cgen sg n a) as [[[? ?] b1] ?] eqn:Ga.
    destruct (cgen_list sg b1 r) as [[[? ?] b2] ?] eqn:Gr.
    cbv beta iota in G. inversion G; subst. inversion HF as [|? ? Pa Pr]; subst.
    apply Pa in Ga. apply (IHr Pr) in Gr. lia.
Qed.

Lemma cgen_mono : forall e sg n d pe n' k, cgen sg n e = (d, pe, n', k) -> n <= n'.
Proof.
  induction e as [k0|x|c t e IHc IHt IHe|s r IHs IHr|x i b IHi IHb|f args IHargs|self ps body IHbody|f args IHf IHargs]
    using cexpr_ind'; intros sg n d pe n' k G; cbn [cgen] in G.
  - inversion G; lia.
  - inversion G; lia.
  - destruct (cgen sg n c) as [[[? ?] a1] ?] eqn:G1.
    destruct (cgen sg (a1 + 2) t) as [[[? ?] a2] ?] eqn:G2.
    destruct (cgen sg a2 e) as [[[? ?] a3] ?] eqn:G3. cbv beta iota zeta in G. inversion G; subst.
    apply IHc in G1. apply IHt in G2. apply IHe in G3. lia.
  - destruct (cgen sg n s) as [[[? ?] a1] ?] eqn:G1.
    destruct (cgen sg a1 r) as [[[? ?] a2] ?] eqn:G2. cbv beta iota in G. inversion G; subst.
    apply IHs in G1. apply IHr in G2. lia.
  - destruct (cgen sg n i) as [[[? ?] a1] ?] eqn:G1. cbv zeta in G.
    destruct (cgen (upd sg x (NLocal x a1)) (a1 + 1) b) as [[[? ?] a2] ?] eqn:G2. cbv beta iota in G. inversion G; subst.
    apply IHi in G1. apply IHb in G2. lia.
  - change (cgen_args (fun n a => cgen sg n a) args n) with (cgen_list sg n args) in G.
    destruct (cgen_list sg n args) as [[[ds es] a1] ka] eqn:G1. cbv beta iota in G. inversion G; subst.
    eapply cgen_list_mono_of; eauto.
  - cbv zeta in G.
    destruct (cgen (bind_sg (self_sg sg self n) ps) (n + 1) body) as [[[? ?] a1] ?] eqn:G1. cbv beta iota in G. inversion G; subst.
    apply IHbody in G1. lia.
  - destruct (cgen sg n f) as [[[? ?] a1] ?] eqn:G1.
    change (cgen_args (fun n a => cgen sg n a) args a1) with (cgen_list sg a1 args) in G.
    destruct (cgen_list sg a1 args) as [[[ds es] a2] ka] eqn:G2. cbv beta iota in G. inversion G; subst.
    apply IHf in G1. apply (cgen_list_mono_of args IHargs) in G2. lia.
Qed.

Lemma cgen_list_mono r sg m ds es n' k : cgen_list sg m r = (ds, es, n', k) -> m <= n'.
Proof. apply cgen_list_mono_of, Forall_forall. intros e _. apply cgen_mono. Qed.

(** invocation is generated as the argument list (f :: args) *)
Lemma cgen_invoke sg n f args :
  cgen sg n (CInvoke f args) =
    let '(ds, es, n', k) := cgen_list sg n (f :: args) in
    match es with ef :: eargs => (ds, PInvoke ef eargs, n', k) | [] => (ds, PConst KNil, n', false) end.
Proof.
  cbn [cgen]. rewrite cgen_list_cons.
  destruct (cgen sg n f) as [[[df ef] n1] k1].
  change (cgen_args (fun n a => cgen sg n a) args n1) with (cgen_list sg n1 args).
  destruct (cgen_list sg n1 args) as [[[ds es] n'] k2]. reflexivity.
Qed.

(** names of an atomic inline expression lie below the counter *)
Definition nba (n : N) (e : pexpr) : bool := match e with PName p => N.ltb (idx p) n | _ => true end.

Lemma nba_mono n m e : n <= m -> nba n e = true -> nba m e = true.
Proof. intros L. destruct e; simpl; auto. intro X. apply N.ltb_lt in X. apply N.ltb_lt. lia. Qed.

(** an atomic expression evaluates without effect, and to the same value wherever the current
    frame agrees *)
Lemma atomic_eval m fid H e pv H' t :
  atomic e = true -> peval m fid H e = Some (pv, H', t) -> H' = H /\ t = [].
Proof.
  destruct m; [discriminate|]. destruct e; try discriminate; intros _ X.
  - rewrite peval_S_const in X. inversion X; auto.
  - rewrite peval_S_name in X. destruct (frame_get H fid p); inversion X; auto.
Qed.

Lemma atomic_reeval fid H e pv H' t n F H3 F3 :
  atomic e = true -> nba n e = true -> yields fid H e pv H' t ->
  nth_error H fid = Some F -> nth_error H3 fid = Some F3 -> agree_below n F F3 ->
  yields fid H3 e pv H3 [].
Proof.
  intros At Nb [[|m] X] E E3 Ag; [discriminate|]. destruct e; try discriminate.
  - rewrite peval_S_const in X. inversion X; subst. apply yields_const.
  - rewrite peval_S_name in X. unfold frame_get in X. rewrite E in X. apply yields_name.
    unfold frame_get. rewrite E3. simpl in Nb. apply N.ltb_lt in Nb. rewrite (Ag p Nb).
    destruct (F p); inversion X; subst. reflexivity.
Qed.

Definition csim (fuel : nat) : Prop :=
  forall e sg n rho H fid F v tr d pe n',
    R rho sg H fid n -> nth_error H fid = Some F ->
    ceval fuel rho e = Some (v, tr) -> cgen sg n e = (d, pe, n', true) ->
    exists m H1 H2 pv t1 t2 F1,
      cexec m fid H d = Some (H1, t1) /\ peval m fid H1 pe = Some (pv, H2, t2) /\ tr = t1 ++ t2 /\
      VR H2 v pv /\ nth_error H1 fid = Some F1 /\ agree_below n F F1 /\ below n' F1 /\ nba n' pe = true.

Definition csim_list (fuel : nat) : Prop :=
  forall l sg n rho H fid F vs tr ds es n',
    R rho sg H fid n -> nth_error H fid = Some F ->
    evals (ceval fuel rho) l = Some (vs, tr) -> cgen_list sg n l = (ds, es, n', true) ->
    exists H1 H2 pvs t1 t2 F1,
      runs fid H ds H1 t1 /\ yields_all fid H1 es pvs H2 t2 /\ tr = t1 ++ t2 /\
      Forall2 (VR H2) vs pvs /\ nth_error H1 fid = Some F1 /\ agree_below n F F1 /\ below n' F1 /\
      forallb (nba n') es = true.

(** the induction hypothesis, with the invariant re-established on the final heap *)
Lemma csim_use fuel : csim fuel -> forall e sg n rho H fid F v tr d pe n',
  R rho sg H fid n -> nth_error H fid = Some F ->
  ceval fuel rho e = Some (v, tr) -> cgen sg n e = (d, pe, n', true) ->
  exists H1 H2 pv t1 t2 F1,
    runs fid H d H1 t1 /\ yields fid H1 pe pv H2 t2 /\ tr = t1 ++ t2 /\ VR H2 v pv /\
    nth_error H1 fid = Some F1 /\ agree_below n F F1 /\ below n' F1 /\ nba n' pe = true /\
    n <= n' /\ R rho sg H2 fid n' /\ nth_error H2 fid = Some F1 /\ Hle H H2.
Proof.
  intros HS e sg n rho H fid F v tr d pe n' HR E He Hg.
  destruct (HS _ _ _ _ _ _ _ _ _ _ _ _ HR E He Hg) as (m & H1 & H2 & pv & t1 & t2 & F1 & X & P & T & V & E1 & A & B & N).
  pose proof (cgen_mono _ _ _ _ _ _ _ Hg) as L.
  destruct (R_after rho sg H fid n n' H1 H2 F F1 HR E L (cexec_pe _ _ _ _ _ _ X) E1 A B (peval_pres _ _ _ _ _ _ _ P))
    as (HR2 & E2 & L02).
  exists H1, H2, pv, t1, t2, F1. split; [exists m; exact X|]. split; [exists m; exact P|].
  repeat (split; [assumption|]). assumption.
Qed.

Lemma csim_intro fid H d pe n n' F v tr H1 H2 pv t1 t2 F1 :
  runs fid H d H1 t1 -> yields fid H1 pe pv H2 t2 -> tr = t1 ++ t2 -> VR H2 v pv ->
  nth_error H1 fid = Some F1 -> agree_below n F F1 -> below n' F1 -> nba n' pe = true ->
  exists m H1 H2 pv t1 t2 F1,
    cexec m fid H d = Some (H1, t1) /\ peval m fid H1 pe = Some (pv, H2, t2) /\ tr = t1 ++ t2 /\
    VR H2 v pv /\ nth_error H1 fid = Some F1 /\ agree_below n F F1 /\ below n' F1 /\ nba n' pe = true.
Proof.
  intros X P. destruct (runs_yields _ _ _ _ _ _ _ _ _ X P) as (m & Xm & Pm). intros.
  exists m, H1, H2, pv, t1, t2, F1. repeat (split; [assumption|]). assumption.
Qed.

Lemma csim_list_of fuel : csim fuel -> csim_list fuel.
Proof.
  intros HS l. induction l as [|a r IH]; intros sg n rho H fid F vs tr ds es n' HR E He Hg.
  - simpl in He. inversion He; subst. cbv in Hg. inversion Hg; subst.
    exists H, H, [], [], [], F.
    destruct (R_frame _ _ _ _ _ _ HR E) as (_ & _ & _ & B).
    repeat split; auto using agree_refl, runs_nil, yields_all_nil.
  - simpl in He. rewrite cgen_list_cons in Hg.
    destruct (cgen sg n a) as [[[d e] n1] k1] eqn:Ga.
    destruct (cgen_list sg n1 r) as [[[ds' es'] n2] k2] eqn:Gr.
    cbv beta iota in Hg. injection Hg as Hg1 Hg2 Hg3 Hk. subst.
    apply andb_true_iff in Hk as [Hk Hhz]. apply andb_true_iff in Hk as [Hk1 Hk2]. subst.
    pose proof (cgen_list_mono _ _ _ _ _ _ _ Gr) as Lr.
    destruct (ceval fuel rho a) as [[va ta]|] eqn:Ea; [|discriminate].
    destruct (evals (ceval fuel rho) r) as [[vr trr]|] eqn:Er; [|discriminate].
    inversion He; subst; clear He.
    destruct (csim_use fuel HS a sg n rho H fid F va ta d e n1 HR E Ea Ga)
      as (Ha1 & Ha2 & pva & ta1 & ta2 & Fa1 & X1 & P1 & T1 & V1 & E1 & A1 & B1 & N1 & La & HR2 & E2 & L02).
    apply orb_true_iff in Hhz as [Hat|Hnil].
    + (* the head's inline expression is atomic: it can be evaluated after the later statements *)
      assert (Ha2 = Ha1 /\ ta2 = []) as [-> ->] by (destruct P1 as [m P1]; eapply atomic_eval; eauto).
      destruct (IH sg n1 rho Ha1 fid Fa1 vr trr ds' es' n' HR2 E1 Er Gr)
        as (Hb1 & Hb2 & pvs & tb1 & tb2 & Fb1 & X2 & P2 & T2 & V2 & Eb1 & A2 & B2 & N2).
      destruct (R_frame _ _ _ _ _ _ HR2 E1) as (_ & _ & _ & Bb).
      assert (L12 : Hle Ha1 Hb2).
      { eapply Hle_trans; [eapply (Hle_exec n1 fid Ha1 Hb1 Fa1 Fb1); eauto using runs_pe|].
        eapply Hle_pres, yields_all_pres; exact P2. }
      exists Hb1, Hb2, (pva :: pvs), (ta1 ++ tb1), tb2, Fb1.
      split; [eapply runs_app; eassumption|].
      split; [eapply (yields_all_cons _ _ _ _ _ _ _ []); [eapply atomic_reeval; eauto|exact P2]|].
      split; [subst; rewrite !app_nil_r, <- ?app_assoc; reflexivity|].
      split; [constructor; [eapply VR_mono; eauto|exact V2]|].
      split; [exact Eb1|].
      split; [eapply agree_trans; eauto|].
      split; [exact B2|].
      simpl. rewrite (nba_mono n1 n' e Lr N1). exact N2.
    + (* no later statements: the order of evaluation is the source order as it stands *)
      destruct ds'; [|discriminate].
      destruct (IH sg n1 rho Ha2 fid Fa1 vr trr [] es' n' HR2 E2 Er Gr)
        as (Hb1 & Hb2 & pvs & tb1 & tb2 & Fb1 & [m2 X2] & P2 & T2 & V2 & Eb1 & A2 & B2 & N2).
      rewrite cexec_nil in X2. inversion X2; subst Hb1 tb1; clear X2.
      pose proof (eq_trans (eq_sym E2) Eb1) as XF. inversion XF; subst Fb1; clear XF.
      exists Ha1, Hb2, (pva :: pvs), ta1, (ta2 ++ tb2), Fa1.
      split; [rewrite app_nil_r; exact X1|].
      split; [eapply yields_all_cons; eassumption|].
      split; [subst; rewrite ?app_nil_l, <- ?app_assoc; reflexivity|].
      split; [constructor; [eapply VR_mono; [eapply Hle_pres, yields_all_pres; exact P2|exact V1]|exact V2]|].
      split; [exact E1|].
      split; [exact A1|].
      split; [exact B2|].
      simpl. rewrite (nba_mono n1 n' e Lr N1). exact N2.
Qed.

(** binding the parameters of a call: source environment, symbol table and new frame in step *)
Lemma bind_rel H : forall ps vs pvs rc sg F rho',
  Forall2 (VR H) vs pvs -> bind_params ps vs rc = Some rho' -> env_rel H rc sg F -> sg_wf sg ->
  exists Fc, bind_pparams (map NParam ps) pvs F = Some Fc /\ env_rel H rho' (bind_sg sg ps) Fc /\
    sg_wf (bind_sg sg ps) /\
    (forall n, below n F -> 0 < n -> below n Fc) /\
    (forall n, (forall x p, sg x = Some p -> idx p < n) -> 0 < n -> forall x p, bind_sg sg ps x = Some p -> idx p < n).
Proof.
  induction ps as [|p0 ps IH]; intros vs pvs rc sg F rho' F2 Hb Henv W.
  - destruct vs; [|discriminate]. inversion F2; subst. simpl in Hb. inversion Hb; subst.
    exists F. simpl. repeat split; auto.
  - destruct vs as [|v0 vs]; [discriminate|]. inversion F2 as [|? pv0 ? pvs' V0 F2']; subst.
    simpl in Hb. simpl.
    destruct (IH vs pvs' ((p0, v0) :: rc) (upd sg p0 (NParam p0)) (set F (NParam p0) pv0) rho' F2' Hb)
      as (Fc & Bp & Env & W' & Bel & Bnd).
    + apply env_rel_cons; [exact Henv| |exact V0].
      intros y Ny Hy. apply W in Hy. congruence.
    + intros x y Hy. unfold upd in Hy. destruct (N.eqb x p0) eqn:Ex.
      * inversion Hy; subst. apply N.eqb_eq in Ex. congruence.
      * apply W. exact Hy.
    + exists Fc. split; [exact Bp|]. split; [exact Env|]. split; [exact W'|]. split.
      * intros n Bn Ln. apply Bel; [|exact Ln]. eapply below_set; [exact Bn|apply N.le_refl|simpl; exact Ln].
      * intros n Hn Ln. apply Bnd; [|exact Ln]. intros x p Hx. unfold upd in Hx. destruct (N.eqb x p0).
        -- inversion Hx; subst. simpl. exact Ln.
        -- eapply Hn; eauto.
Qed.

Theorem csim_all : forall fuel, csim fuel.
Proof.
  induction fuel as [fuel IH] using lt_wf_ind.
  destruct fuel as [|fuel]; [intros e sg n rho H fid F v tr d pe n' HR E He; discriminate|].
  assert (HS : csim fuel) by (apply IH; lia).
  pose proof (csim_use fuel HS) as HU. pose proof (csim_list_of fuel HS) as HL.
  intros e sg n rho H fid F v tr d pe n' HR E He Hg.
  destruct (R_frame _ _ _ _ _ _ HR E) as (RA & RB & RW & RBel).
  destruct e as [k|x|c t e|s r|x i b|f args|self ps body|f args].
  - cbn [ceval] in He. inversion He; subst. cbn [cgen] in Hg. inversion Hg; subst.
    eapply csim_intro; [apply runs_nil|apply yields_const|reflexivity|apply VR_const|exact E|apply agree_refl|exact RBel|reflexivity].
  - cbn [ceval] in He. destruct (lookup rho x) as [vx|] eqn:Ex; [|discriminate]. inversion He; subst; clear He.
    cbn [cgen] in Hg. inversion Hg; subst; clear Hg.
    destruct (RA x v Ex) as (p & pv & S1 & S2 & S3). rewrite S1.
    eapply csim_intro; [apply runs_nil| |reflexivity|exact S3|exact E|apply agree_refl|exact RBel|].
    + apply yields_name. unfold frame_get. rewrite E. exact S2.
    + simpl. apply N.ltb_lt. eapply RB; eauto.
  - cbn [ceval] in He. cbn [cgen] in Hg.
    destruct (cgen sg n c) as [[[dc ec] n1] k1] eqn:Gc.
    destruct (cgen sg (n1 + 2) t) as [[[dt et] n2] k2] eqn:Gt.
    destruct (cgen sg n2 e) as [[[de ee] n3] k3] eqn:Ge.
    cbv beta iota zeta in Hg. injection Hg as Hg1 Hg2 Hg3 Hk. subst.
    apply andb_true_iff in Hk as [Hk Hk3]. apply andb_true_iff in Hk as [Hk1 Hk2]. subst.
    pose proof (cgen_mono _ _ _ _ _ _ _ Gt) as Lt.
    pose proof (cgen_mono _ _ _ _ _ _ _ Ge) as Le.
    destruct (ceval fuel rho c) as [[vc tc]|] eqn:Ec; [|discriminate].
    destruct (HU c sg n rho H fid F vc tc dc ec n1 HR E Ec Gc)
      as (H1 & H2 & pvc & tc1 & tc2 & F1 & X1 & P1 & T1 & V1 & E1 & A1 & B1 & N1 & Lc & HR2 & E2 & L02).
    set (test := NTemp n1) in *. set (res := NTemp (n1 + 1)) in *.
    (* both branches have the same shape: choose the one taken *)
    assert (Hbr : exists br dbr ebr nb nb',
               (if falsey vc then ceval fuel rho e else ceval fuel rho t) = ceval fuel rho br /\
               cgen sg nb br = (dbr, ebr, nb', true) /\ n1 + 2 <= nb /\ nb' <= n' /\
               (if falsey vc then de ++ [SAssign res ee] else dt ++ [SAssign res et]) = dbr ++ [SAssign res ebr]).
    { destruct (falsey vc); [exists e, de, ee, n2, n'|exists t, dt, et, (n1 + 2), n2]; repeat split; auto; lia. }
    destruct Hbr as (br & dbr & ebr & nb & nb' & Ebr & Gbr & Lb1 & Lb2 & Elist).
    rewrite Ebr in He. destruct (ceval fuel rho br) as [[vb tb]|] eqn:Eb; [|discriminate].
    inversion He; subst v tr; clear He.
    pose proof (set_frame_same _ _ test pvc _ E2) as E3.
    assert (HR3 : R rho sg (set_frame H2 fid test pvc) fid nb) by (eapply R_set; eauto; simpl; lia).
    destruct (HU br sg nb rho _ fid _ vb tb dbr ebr nb' HR3 E3 Eb Gbr)
      as (H4 & H5 & pvb & tb1 & tb2 & F4 & X2 & P2 & T2 & V2 & E4 & A2 & B2 & N2 & Lbr & HR5 & E5 & L35).
    assert (Ur4 : F4 res = None).
    { rewrite (A2 res) by (simpl; lia). rewrite set_other by (intro X; inversion X; lia).
      eapply below_unbound; [exact B1|simpl; lia]. }
    eapply csim_intro with (H1 := set_frame H5 fid res pvb) (t2 := []).
    + eapply runs_mid; [exact X1|apply runs_assign; exact P1|].
      eapply runs_if; [unfold frame_get; rewrite E3; apply set_same|].
      rewrite (VR_falsey _ _ _ V1), Elist. eapply runs_app; [exact X2|apply runs_assign; exact P2].
    + apply yields_name. unfold frame_get. rewrite (set_frame_same _ _ res pvb _ E5). apply set_same.
    + rewrite T1, T2, app_nil_r. reflexivity.
    + eapply VR_mono; [eapply Hle_set; eauto|exact V2].
    + apply set_frame_same. exact E5.
    + apply (agree_trans n n F F1 _ (N.le_refl n) A1).
      apply (agree_trans n n F1 (set F1 test pvc) _ (N.le_refl n)); [apply agree_set; simpl; lia|].
      apply (agree_trans n n _ F4 _ (N.le_refl n)); [apply (agree_weaken n nb); [lia|exact A2]|].
      apply agree_set. simpl. lia.
    + eapply below_set; [exact B2|lia|simpl; lia].
    + simpl. apply N.ltb_lt. lia.
  - cbn [ceval] in He. cbn [cgen] in Hg.
    destruct (cgen sg n s) as [[[ds es] n1] k1] eqn:Gs.
    destruct (cgen sg n1 r) as [[[dr er] n2] k2] eqn:Gr.
    cbv beta iota in Hg. injection Hg as Hg1 Hg2 Hg3 Hk. subst.
    apply andb_true_iff in Hk as [Hk1 Hk2]. subst.
    destruct (ceval fuel rho s) as [[vs0 ts]|] eqn:Es; [|discriminate].
    destruct (ceval fuel rho r) as [[vr trr]|] eqn:Er; [|discriminate]. inversion He; subst v tr; clear He.
    destruct (HU s sg n rho H fid F vs0 ts ds es n1 HR E Es Gs)
      as (H1 & H2 & pvs0 & ts1 & ts2 & F1 & X1 & P1 & T1 & V1 & E1 & A1 & B1 & N1 & Ls & HR2 & E2 & L02).
    destruct (HU r sg n1 rho H2 fid F1 vr trr dr pe n' HR2 E2 Er Gr)
      as (H3 & H4 & pv & tr1 & tr2 & F3 & X2 & P2 & T2 & V2 & E3 & A2 & B2 & N2 & _).
    eapply csim_intro; [|exact P2| |exact V2|exact E3|exact (agree_trans n n1 F F1 F3 Ls A1 A2)|exact B2|exact N2].
    + eapply runs_mid; [exact X1|eapply runs_expr; exact P1|exact X2].
    + rewrite T1, T2, <- !app_assoc. reflexivity.
  - cbn [ceval] in He. cbn [cgen] in Hg.
    destruct (cgen sg n i) as [[[di ei] n1] k1] eqn:Gi. cbv zeta in Hg.
    destruct (cgen (upd sg x (NLocal x n1)) (n1 + 1) b) as [[[db eb] n2] k2] eqn:Gb.
    cbv beta iota in Hg. injection Hg as Hg1 Hg2 Hg3 Hk. subst.
    apply andb_true_iff in Hk as [Hk1 Hk2]. subst.
    destruct (ceval fuel rho i) as [[vi ti]|] eqn:Ei; [|discriminate].
    destruct (ceval fuel ((x, vi) :: rho) b) as [[vb tb]|] eqn:Eb; [|discriminate]. inversion He; subst v tr; clear He.
    destruct (HU i sg n rho H fid F vi ti di ei n1 HR E Ei Gi)
      as (H1 & H2 & pvi & ti1 & ti2 & F1 & X1 & P1 & T1 & V1 & E1 & A1 & B1 & N1 & Li & HR2 & E2 & L02).
    set (p := NLocal x n1) in *.
    pose proof (set_frame_same _ _ p pvi _ E2) as E3.
    assert (HR3 : R ((x, vi) :: rho) (upd sg x p) (set_frame H2 fid p pvi) fid (n1 + 1)).
    { eapply R_let; eauto; [simpl; lia|simpl; lia|intros y X; discriminate]. }
    destruct (HU b (upd sg x p) (n1 + 1) ((x, vi) :: rho) _ fid _ vb tb db pe n' HR3 E3 Eb Gb)
      as (H4 & H5 & pv & tb1 & tb2 & F4 & X2 & P2 & T2 & V2 & E4 & A2 & B2 & N2 & Lb & _).
    eapply csim_intro; [|exact P2| |exact V2|exact E4| |exact B2|exact N2].
    + eapply runs_mid; [exact X1|apply runs_assign; exact P1|exact X2].
    + rewrite T1, T2, <- !app_assoc. reflexivity.
    + apply (agree_trans n n1 F F1 F4 Li A1).
      apply (agree_trans n1 (n1 + 1) F1 (set F1 p pvi) F4); [lia|apply agree_set; simpl; lia|exact A2].
  - cbn [ceval] in He. cbn [cgen] in Hg.
    change (cgen_args (fun n a => cgen sg n a) args n) with (cgen_list sg n args) in Hg.
    destruct (cgen_list sg n args) as [[[ds es] n1] k1] eqn:Gl.
    cbv beta iota in Hg. injection Hg as Hg1 Hg2 Hg3 Hk. subst.
    destruct (evals (ceval fuel rho) args) as [[vs ta]|] eqn:Ea; [|discriminate].
    destruct (apply_prim f vs) as [[vr tp]|] eqn:Ep; [|discriminate]. inversion He; subst v tr; clear He.
    destruct (HL args sg n rho H fid F vs ta d es n' HR E Ea Gl)
      as (H1 & H2 & pvs & t1 & t2 & F1 & X1 & P1 & T1 & V1 & E1 & A1 & B1 & N1).
    destruct (papply_rel H2 f vs pvs vr tp V1 Ep) as (pv & Pa & Vr).
    eapply csim_intro; [exact X1|eapply yields_call; eassumption| |exact Vr|exact E1|exact A1|exact B1|reflexivity].
    rewrite T1, app_assoc. reflexivity.
  - cbn [ceval] in He. inversion He; subst v tr; clear He.
    cbn [cgen] in Hg. cbv zeta in Hg.
    destruct (cgen (bind_sg (self_sg sg self n) ps) (n + 1) body) as [[[db eb] n1] k] eqn:Gb.
    cbv beta iota in Hg. injection Hg as Hg1 Hg2 Hg3 Hk. subst.
    apply andb_true_iff in Hk as [Hk Hnd]. subst k.
    pose proof (cgen_mono _ _ _ _ _ _ _ Gb) as Lb.
    set (fname := NFn n) in *.
    set (clo := PVClo (n + 1) (map NParam ps) db eb fid).
    assert (Uf : F fname = None) by (eapply below_unbound; [exact RBel|simpl; lia]).
    pose proof (set_frame_same _ _ fname clo _ E) as E1.
    assert (L01 : Hle H (set_frame H fid fname clo)) by (eapply Hle_set; eauto).
    eapply csim_intro with (H1 := set_frame H fid fname clo); [apply runs_def| |reflexivity| |exact E1| | |].
    + apply yields_name. unfold frame_get. rewrite E1. apply set_same.
    + eapply (VR_clo _ self ps body rho sg n db eb n' fid); [exact E1|exact Gb|exact RB|exact RW| |apply set_same].
      eapply env_rel_mono; [exact L01| |exact RA].
      intros x p pv _ Hp. rewrite set_other; [exact Hp|]. intro X. subst p. congruence.
    + apply agree_set. simpl. lia.
    + eapply below_set; [exact RBel|lia|simpl; lia].
    + simpl. apply N.ltb_lt. lia.
  - cbn [ceval] in He. rewrite cgen_invoke in Hg.
    destruct (cgen_list sg n (f :: args)) as [[[ds es] n2] k] eqn:Gl.
    destruct es as [|ef eargs]; [cbv beta iota in Hg; inversion Hg|].
    cbv beta iota in Hg. injection Hg as Hg1 Hg2 Hg3 Hk. subst.
    destruct (evals (ceval fuel rho) (f :: args)) as [[vsall ta]|] eqn:Ea; [|discriminate].
    destruct vsall as [|[| | | |self ps body rc] vs]; try discriminate.
    destruct (bind_params ps vs (self_env self ps body rc)) as [rho'|] eqn:Eb; [|discriminate].
    destruct (ceval fuel rho' body) as [[vb tb]|] eqn:Ebody; [|discriminate]. inversion He; subst v tr; clear He.
    destruct (HL (f :: args) sg n rho H fid F _ ta d (ef :: eargs) n' HR E Ea Gl)
      as (H1 & H2 & pvall & t1 & t2 & F1 & X1 & P1 & T1 & V1 & E1 & A1 & B1 & N1).
    inversion V1 as [|? pvf ? pvs Vf Vs]; subst.
    inversion Vf as [| | | |? ? ? ? sgc nc pb pr nc' dfid Fd Ed Gc Bc Wc Envc Eself]; subst.
    (* the frame of the call: the captured names below the definition's counter, the function
       under its own name, the parameters *)
    assert (Bc' : forall x p, self_sg sgc self nc x = Some p -> idx p < nc + 1).
    { intros x p Hx. unfold self_sg in Hx. destruct self as [f0|]; [|specialize (Bc x p Hx); lia].
      unfold upd in Hx. destruct (N.eqb x f0); [inversion Hx; subst; simpl; lia|specialize (Bc x p Hx); lia]. }
    assert (Wc' : sg_wf (self_sg sgc self nc)).
    { intros x y Hy. unfold self_sg in Hy. destruct self as [f0|]; [|apply Wc; exact Hy].
      unfold upd in Hy. destruct (N.eqb x f0); [discriminate|apply Wc; exact Hy]. }
    assert (Base : env_rel H2 rc sgc (restrict (nc + 1) Fd)).
    { eapply env_rel_mono; [apply Hle_refl| |exact Envc]. intros x p pv Hx Hp. unfold restrict.
      replace (N.ltb (idx p) (nc + 1)) with true; [exact Hp|]. symmetry. apply N.ltb_lt. specialize (Bc x p Hx). lia. }
    assert (Self : env_rel H2 (self_env self ps body rc) (self_sg sgc self nc) (restrict (nc + 1) Fd)).
    { unfold self_env, self_sg. destruct self as [f0|]; [|exact Base].
      intros x v Hx. simpl in Hx. unfold upd. destruct (N.eqb x f0); [|apply Base; exact Hx].
      inversion Hx; subst. exists (NFn nc), (PVClo (nc + 1) (map NParam ps) pb pr dfid).
      split; [reflexivity|]. split; [|exact Vf]. unfold restrict.
      replace (N.ltb (idx (NFn nc)) (nc + 1)) with true; [exact Eself|]. symmetry. apply N.ltb_lt. simpl. lia. }
    destruct (bind_rel H2 ps vs pvs _ _ _ rho' Vs Eb Self Wc') as (Fc & Bp & Envp & Wp & Belp & Bndp).
    set (cf := length H2). set (H' := H2 ++ [Fc]).
    assert (Ec : nth_error H' cf = Some Fc).
    { unfold H', cf. rewrite nth_error_app2 by lia. rewrite Nat.sub_diag. reflexivity. }
    assert (HRc : R rho' (bind_sg (self_sg sgc self nc) ps) H' cf (nc + 1)).
    { exists Fc. split; [exact Ec|]. split; [|split; [|split; [exact Wp|]]].
      - eapply env_rel_mono; [apply Hle_pres, pres_app| |exact Envp]. auto.
      - apply Bndp; [|lia]. exact Bc'.
      - apply Belp; [|lia]. intros p Hp. unfold restrict in Hp. destruct (N.ltb (idx p) (nc + 1)) eqn:Lt; [|congruence].
        apply N.ltb_lt in Lt. exact Lt. }
    destruct (HU body _ (nc + 1) rho' H' cf Fc vb tb pb pr nc' HRc Ec Ebody Gc)
      as (H3 & H4 & pv & tb1 & tb2 & F3 & X2 & P2 & T2 & V2 & _).
    eapply csim_intro; [exact X1|eapply yields_invoke; eassumption| |exact V2|exact E1|exact A1|exact B1|reflexivity].
    rewrite T2, <- !app_assoc. reflexivity.
Qed.
