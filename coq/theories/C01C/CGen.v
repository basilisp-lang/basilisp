(** Generator model for the closure fragment (generator.py: _fn_to_py_ast for single-arity
    fns, _invoke_to_py_ast, on top of the first-order core of C01/Gen.v). *)
From Coq Require Import List NArith Bool.
Import ListNotations.
From Verif Require Import C01C.CLisp C01C.CPy.
Local Open Scope N_scope.

Definition senv := N -> option pname.
Definition upd (sg : senv) (x : N) (p : pname) : senv := fun y => if N.eqb y x then Some p else sg y.

Definition atomic (e : pexpr) : bool := match e with PConst _ | PName _ => true | _ => false end.
Definition is_nil {A} (l : list A) : bool := match l with [] => true | _ => false end.

Fixpoint bind_sg (sg : senv) (ps : list N) : senv :=
  match ps with [] => sg | x :: r => bind_sg (upd sg x (NParam x)) r end.

Fixpoint memb (x : N) (l : list N) : bool :=
  match l with [] => false | y :: r => N.eqb x y || memb x r end.
Fixpoint nodupb (l : list N) : bool :=
  match l with [] => true | x :: r => negb (memb x r) && nodupb r end.

(** a named fn* sees itself under its own name: the Python function's name in the defining frame *)
Definition self_sg (sg : senv) (self : option N) (n : N) : senv :=
  match self with Some f => upd sg f (NFn n) | None => sg end.

Definition cout := (list cstmt * pexpr * N * bool)%type.

(** arguments left to right; an argument's inline expression is evaluated after the
    statements of all later arguments, so it must be atomic unless there are none *)
Definition cgen_args (g : N -> cexpr -> cout) : list cexpr -> N -> list cstmt * list pexpr * N * bool :=
  fix go (l : list cexpr) (n : N) :=
    match l with
    | [] => ([], [], n, true)
    | a :: r =>
        let '(d, e, n1, k1) := g n a in
        let '(ds, es, n2, k2) := go r n1 in
        (d ++ ds, e :: es, n2, k1 && k2 && (atomic e || is_nil ds))
    end.

Fixpoint cgen (sg : senv) (n : N) (e : cexpr) : cout :=
  match e with
  | CConst k => ([], PConst k, n, true)
  | CLocal x => ([], PName (match sg x with Some p => p | None => NLocal x 0 end), n, true)
  | CIf c t e =>
      let '(dc, ec, n1, k1) := cgen sg n c in
      let test := NTemp n1 in
      let res := NTemp (n1 + 1) in
      let '(dt, et, n2, k2) := cgen sg (n1 + 2) t in
      let '(de, ee, n3, k3) := cgen sg n2 e in
      (dc ++ [SAssign test ec; SIf test (de ++ [SAssign res ee]) (dt ++ [SAssign res et])],
       PName res, n3, k1 && k2 && k3)
  | CDo s r =>
      let '(ds, es, n1, k1) := cgen sg n s in
      let '(dr, er, n2, k2) := cgen sg n1 r in
      (ds ++ [SExpr es] ++ dr, er, n2, k1 && k2)
  | CLet x i b =>
      let '(di, ei, n1, k1) := cgen sg n i in
      let p := NLocal x n1 in
      let '(db, eb, n2, k2) := cgen (upd sg x p) (n1 + 1) b in
      (di ++ [SAssign p ei] ++ db, eb, n2, k1 && k2)
  | CCall f args =>
      let '(ds, es, n', k) := cgen_args (fun n a => cgen sg n a) args n in
      (ds, PCall f es, n', k)
  | CFn self ps body =>
      let fname := NFn n in
      let '(db, eb, n1, k) := cgen (bind_sg (self_sg sg self n) ps) (n + 1) body in
      ([SDef fname (n + 1) (map NParam ps) db eb], PName fname, n1, k && nodupb ps)
  | CInvoke f args =>
      let '(df, ef, n1, k1) := cgen sg n f in
      let '(ds, es, n', k2) := cgen_args (fun n a => cgen sg n a) args n1 in
      (df ++ ds, PInvoke ef es, n', k1 && k2 && (atomic ef || is_nil ds))
  end.

Definition cgen_list (sg : senv) (n : N) (l : list cexpr) := cgen_args (cgen sg) l n.

Lemma cgen_list_cons sg n a r :
  cgen_list sg n (a :: r) =
    let '(d, e, n1, k1) := cgen sg n a in
    let '(ds, es, n2, k2) := cgen_list sg n1 r in
    (d ++ ds, e :: es, n2, k1 && k2 && (atomic e || is_nil ds)).
Proof. reflexivity. Qed.

Definition hazard_free (e : cexpr) : bool :=
  let '(_, _, _, k) := cgen (fun _ => None) 0 e in k.

Definition crun (fuel : nat) (e : cexpr) : option (obs * trace) :=
  let '(d, pe, _, _) := cgen (fun _ => None) 0 e in
  match cexec fuel 0%nat [fun _ => None] d with
  | Some (H1, t1) =>
      match peval fuel 0%nat H1 pe with Some (v, _, t2) => Some (pobs_of v, t1 ++ t2) | None => None end
  | None => None
  end.

Definition ceval_obs (fuel : nat) (e : cexpr) : option (obs * trace) :=
  match ceval fuel [] e with Some (v, t) => Some (obs_of v, t) | None => None end.
