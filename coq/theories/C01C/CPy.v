(** Python subset with function definitions and calls.  A heap of frames; a function value
    refers to its defining frame BY REFERENCE (it is read when the function is called, as
    Python's closure cells are), restricted to the names generated before the definition
    (Python captures exactly the free variables of the body; in generated code those all lie
    below the counter value recorded in the definition).  The called function's frame starts
    as that view of the defining frame overridden by the parameters; a function body assigns
    only its own frame (no nonlocal/global in this subset). *)
From Coq Require Import List ZArith Bool.
Import ListNotations.
From Verif Require Import C01C.CLisp.
Local Open Scope N_scope.

Inductive pname := NLocal (x i : N) | NTemp (i : N) | NParam (x : N) | NFn (i : N).

Definition idx (p : pname) : N :=
  match p with NLocal _ i => i | NTemp i => i | NParam _ => 0 | NFn i => i end.

Definition pname_eqb (a b : pname) : bool :=
  match a, b with
  | NLocal x i, NLocal y j => N.eqb x y && N.eqb i j
  | NTemp i, NTemp j => N.eqb i j
  | NParam x, NParam y => N.eqb x y
  | NFn i, NFn j => N.eqb i j
  | _, _ => false
  end.

Lemma pname_eqb_eq a b : pname_eqb a b = true <-> a = b.
Proof.
  destruct a, b; simpl; split; intro H; try discriminate; try (inversion H; subst);
    rewrite ?andb_true_iff, ?N.eqb_eq in *; try (destruct H; subst); auto;
    try (apply N.eqb_eq in H; subst; reflexivity); try (split; reflexivity); try apply N.eqb_refl.
Qed.

Inductive pexpr :=
| PConst (k : const)
| PName (p : pname)
| PCall (f : prim) (args : list pexpr)
| PInvoke (f : pexpr) (args : list pexpr).

Inductive cstmt :=
| SAssign (n : pname) (e : pexpr)
| SExpr (e : pexpr)
| SIf (test : pname) (fb tb : list cstmt)
| SDef (name : pname) (lo : N) (params : list pname) (body : list cstmt) (ret : pexpr).

Inductive pval :=
| PVNil | PVBool (b : bool) | PVInt (z : Z) | PVVec (l : list pval)
| PVClo (lo : N) (params : list pname) (body : list cstmt) (ret : pexpr) (dfid : nat).

Definition frame := pname -> option pval.
Definition heap := list frame.

Definition set (F : frame) (p : pname) (v : pval) : frame :=
  fun q => if pname_eqb q p then Some v else F q.

Fixpoint set_frame (H : heap) (fid : nat) (p : pname) (v : pval) : heap :=
  match H, fid with
  | [], _ => []
  | F :: r, O => set F p v :: r
  | F :: r, S k => F :: set_frame r k p v
  end.

Definition frame_get (H : heap) (fid : nat) (p : pname) : option pval :=
  match nth_error H fid with Some F => F p | None => None end.

Definition restrict (lo : N) (F : frame) : frame := fun p => if N.ltb (idx p) lo then F p else None.

Fixpoint bind_pparams (ps : list pname) (vs : list pval) (F : frame) : option frame :=
  match ps, vs with
  | [], [] => Some F
  | p :: ps', v :: vs' => bind_pparams ps' vs' (set F p v)
  | _, _ => None
  end.

Fixpoint pobs_of (v : pval) : obs :=
  match v with
  | PVNil => ONil | PVBool b => OBool b | PVInt z => OInt z
  | PVVec l => OVec (map pobs_of l)
  | PVClo _ _ _ _ _ => OFn
  end.

Fixpoint pv_of_const (k : const) : pval :=
  match k with
  | KNil => PVNil | KBool b => PVBool b | KInt z => PVInt z
  | KVec l => PVVec (map pv_of_const l)
  end.

Definition pfalsey (v : pval) : bool :=
  match v with PVNil => true | PVBool false => true | _ => false end.

Definition papply (p : prim) (vs : list pval) : option (pval * trace) :=
  match p, vs with
  | PTrace, [v] => Some (v, [pobs_of v])
  | PVec, _ => Some (PVVec vs, [])
  | PConj, [PVVec l; v] => Some (PVVec (l ++ [v]), [])
  | PInc, [PVInt z] => Some (PVInt (z + 1), [])
  | PLt, [PVInt a; PVInt b] => Some (PVBool (Z.ltb a b), [])
  | _, _ => None
  end.

Section Lists.
  Variable ev : heap -> pexpr -> option (pval * heap * trace).
  Fixpoint pevals (H : heap) (l : list pexpr) : option (list pval * heap * trace) :=
    match l with
    | [] => Some ([], H, [])
    | a :: r =>
        match ev H a with
        | Some (v, H1, t1) =>
            match pevals H1 r with Some (vs, H2, t2) => Some (v :: vs, H2, t1 ++ t2) | None => None end
        | None => None
        end
    end.
  Variable ex1 : heap -> cstmt -> option (heap * trace).
  Fixpoint execs (H : heap) (l : list cstmt) : option (heap * trace) :=
    match l with
    | [] => Some (H, [])
    | s :: r =>
        match ex1 H s with
        | Some (H1, t1) => match execs H1 r with Some (H2, t2) => Some (H2, t1 ++ t2) | None => None end
        | None => None
        end
    end.
End Lists.

Fixpoint peval (fuel : nat) (fid : nat) (H : heap) (e : pexpr) : option (pval * heap * trace) :=
  match fuel with
  | O => None
  | S n =>
      match e with
      | PConst k => Some (pv_of_const k, H, [])
      | PName p => match frame_get H fid p with Some v => Some (v, H, []) | None => None end
      | PCall f args =>
          match pevals (peval n fid) H args with
          | Some (vs, H1, t1) =>
              match papply f vs with Some (v, t2) => Some (v, H1, t1 ++ t2) | None => None end
          | None => None
          end
      | PInvoke ef eargs =>
          match pevals (peval n fid) H (ef :: eargs) with
          | Some (PVClo lo ps body ret dfid :: vs, H1, t1) =>
              match nth_error H1 dfid with
              | Some Fd =>
                  match bind_pparams ps vs (restrict lo Fd) with
                  | Some Fc =>
                      let cf := length H1 in
                      match execs (cexec1 n cf) (H1 ++ [Fc]) body with
                      | Some (H2, t2) =>
                          match peval n cf H2 ret with
                          | Some (v, H3, t3) => Some (v, H3, t1 ++ t2 ++ t3)
                          | None => None
                          end
                      | None => None
                      end
                  | None => None
                  end
              | None => None
              end
          | _ => None
          end
      end
  end

with cexec1 (fuel : nat) (fid : nat) (H : heap) (s : cstmt) : option (heap * trace) :=
  match fuel with
  | O => None
  | S n =>
      match s with
      | SAssign p e =>
          match peval n fid H e with Some (v, H1, t) => Some (set_frame H1 fid p v, t) | None => None end
      | SExpr e => match peval n fid H e with Some (_, H1, t) => Some (H1, t) | None => None end
      | SIf t fb tb =>
          match frame_get H fid t with
          | Some v => execs (cexec1 n fid) H (if pfalsey v then fb else tb)
          | None => None
          end
      | SDef name lo ps body ret => Some (set_frame H fid name (PVClo lo ps body ret fid), [])
      end
  end.

Definition cexec (fuel : nat) (fid : nat) := execs (cexec1 fuel fid).
Definition pevall (fuel : nat) (fid : nat) := pevals (peval fuel fid).
