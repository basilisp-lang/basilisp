(** A stable insertion sort and the contract basilisp's [sort]/[sort-by] promise: ordered
    permutation, stable for ties, independent of input order for distinct keys.
    Python's [sorted] (TimSort) is *modelled* by this function: without equivalent keys the
    ordered permutation is unique ([sorted_stable_unique]); with ties agreement rests on the
    assumption that [sorted] is stable, as [sort] is ([sort_stable]). *)
From Coq Require Import List Permutation Sorted.
Import ListNotations.
From Verif Require Import Common.Order.

Section Sort.
  Context {A : Type}.
  Variable P : A -> Prop.
  Variable lt eqb : A -> A -> bool.

  Fixpoint insert (x : A) (l : list A) : list A :=
    match l with
    | [] => [x]
    | y :: r => if lt y x then y :: insert x r else x :: l
    end.

  Definition sort (l : list A) : list A := fold_right insert [] l.

  Lemma insert_perm x l : Permutation (insert x l) (x :: l).
  Proof.
    induction l as [|y r IH]; simpl; [reflexivity|].
    destruct (lt y x); [|reflexivity].
    rewrite IH. apply perm_swap.
  Qed.

  Theorem sort_perm l : Permutation (sort l) l.
  Proof.
    induction l as [|x r IH]; simpl; [constructor|].
    rewrite insert_perm. constructor. exact IH.
  Qed.

  Lemma insert_Forall (Q : A -> Prop) x l : Q x -> Forall Q l -> Forall Q (insert x l).
  Proof.
    intros Qx Ql. eapply Permutation_Forall; [symmetry; apply insert_perm|]. constructor; auto.
  Qed.

  Lemma sort_Forall (Q : A -> Prop) l : Forall Q l -> Forall Q (sort l).
  Proof. intro Ql. eapply Permutation_Forall; [symmetry; apply sort_perm|]. exact Ql. Qed.

  Hypothesis H : swo P lt eqb.

  (** [ord a b]: b may follow a in sorted output. *)
  Definition ord (a b : A) : Prop := lt b a = false.

  Lemma ord_of_lt a b : P a -> P b -> lt a b = true -> ord a b.
  Proof. intros. unfold ord. apply (swo_asym H); auto. Qed.

  Lemma ord_trans a b c : P a -> P b -> P c -> ord a b -> ord b c -> ord a c.
  Proof. unfold ord. intros. apply (swo_negtrans P lt eqb H a b c); auto. Qed.

  Lemma insert_sorted x l : P x -> Forall P l ->
    StronglySorted ord l -> StronglySorted ord (insert x l).
  Proof.
    intros Px Pl S. induction S as [|y r S IH F]; simpl.
    - repeat constructor.
    - inversion Pl as [|? ? Py Pr]; subst.
      destruct (lt y x) eqn:E.
      + constructor; [apply IH; auto|].
        apply insert_Forall; [apply ord_of_lt; auto|exact F].
      + constructor; [constructor; auto|].
        constructor; [exact E|].
        rewrite Forall_forall in *. intros z Hz.
        apply (ord_trans x y z); auto.
  Qed.

  Theorem sort_sorted l : Forall P l -> StronglySorted ord (sort l).
  Proof.
    induction l as [|x r IH]; simpl; intro Pl; [constructor|].
    inversion Pl; subst. apply insert_sorted; auto. apply sort_Forall; auto.
  Qed.

  (** Stability: the sub-list of elements equivalent to [x] keeps its input order. *)
  Lemma insert_filter x a l : P x -> P a -> Forall P l ->
    filter (eqb x) (insert a l) = if eqb x a then a :: filter (eqb x) l else filter (eqb x) l.
  Proof.
    intros Px Pa Pl. induction Pl as [|y r Py Pr IH]; simpl.
    - destruct (eqb x a); reflexivity.
    - destruct (lt y a) eqn:E; simpl.
      + rewrite IH.
        destruct (eqb x a) eqn:Exa; [|reflexivity].
        (* y < a ~ x  hence  x and y are not equivalent *)
        assert (L : lt y x = true).
        { apply (swo_lt_eq_r P lt eqb H y a x); auto. apply (swo_eq_sym P lt eqb H); auto. }
        destruct (eqb x y) eqn:Exy; [|reflexivity].
        apply (swo_eq H) in Exy; auto. destruct Exy; congruence.
      + destruct (eqb x a); reflexivity.
  Qed.

  Theorem sort_stable x l : P x -> Forall P l -> filter (eqb x) (sort l) = filter (eqb x) l.
  Proof.
    intros Px. induction l as [|a r IH]; simpl; intro Pl; [reflexivity|].
    inversion Pl; subst.
    rewrite insert_filter; auto using sort_Forall.
    rewrite IH by auto. reflexivity.
  Qed.

  (** [distinct] = no two positions hold equivalent keys. *)
  Definition distinct (l : list A) : Prop := ForallOrdPairs (fun a b => eqb a b = false) l.

  Lemma sorted_head_min x l y : StronglySorted ord (x :: l) -> In y (x :: l) -> y = x \/ ord x y.
  Proof.
    intros S [E|I]; [left; auto|right].
    inversion S as [|? ? _ F]; subst. rewrite Forall_forall in F. auto.
  Qed.

  (** equivalent elements of the list are equal: pairwise inequivalent keys ([distinct]) are one
      instance, an order whose equivalence is equality (strings) another *)
  Definition separated (l : list A) : Prop := forall a b, In a l -> In b l -> eqb a b = true -> a = b.

  Lemma distinct_separated l : Forall P l -> distinct l -> separated l.
  Proof.
    intros Pl D. induction D as [|x l F D IH]; intros a b Ia Ib E; [destruct Ia|].
    inversion Pl as [|? ? Px Pl']; subst. rewrite Forall_forall in F, Pl'.
    destruct Ia as [<-|Ia], Ib as [<-|Ib]; auto.
    - rewrite (F b Ib) in E. discriminate.
    - apply (swo_eq_sym P lt eqb H) in E; auto. rewrite (F a Ia) in E. discriminate.
    - apply IH; auto. apply Forall_forall; auto.
  Qed.

  Theorem sorted_unique : forall l1 l2,
    Forall P l1 -> Permutation l1 l2 -> separated l1 ->
    StronglySorted ord l1 -> StronglySorted ord l2 -> l1 = l2.
  Proof.
    induction l1 as [|x r1 IH]; intros l2 Pl Hp D S1 S2.
    - apply Permutation_nil in Hp. auto.
    - destruct l2 as [|y r2]; [apply Permutation_sym, Permutation_nil in Hp; discriminate|].
      assert (I1 : In x (y :: r2)) by (apply (Permutation_in _ Hp); left; reflexivity).
      assert (I2 : In y (x :: r1)) by (apply (Permutation_in _ (Permutation_sym Hp)); left; reflexivity).
      assert (x = y) as <-.
      { (* each head is below the other, so they are equivalent *)
        destruct (sorted_head_min _ _ _ S2 I1) as [E|O1]; [auto|].
        destruct (sorted_head_min _ _ _ S1 I2) as [E|O2]; [auto|].
        rewrite Forall_forall in Pl.
        apply D; [left; reflexivity|exact I2|]. apply (swo_eq H); auto using in_eq. }
      apply StronglySorted_inv in S1 as [S1 _]. apply StronglySorted_inv in S2 as [S2 _].
      f_equal. apply IH; auto.
      + inversion Pl; auto.
      + eapply Permutation_cons_inv; eauto.
      + intros a b Ia Ib. apply D; right; auto.
  Qed.

  Lemma separated_perm l1 l2 : Permutation l1 l2 -> separated l1 -> separated l2.
  Proof. intros Hp D a b Ia Ib. apply D; apply (Permutation_in _ (Permutation_sym Hp)); assumption. Qed.

  Theorem sorted_separated_unique : forall l l',
    Forall P l -> Permutation l' l -> StronglySorted ord l' -> separated l -> l' = sort l.
  Proof.
    intros l l' Pl Hp S D. apply sorted_unique; auto.
    - apply (Permutation_Forall (Permutation_sym Hp) Pl).
    - rewrite Hp. symmetry. apply sort_perm.
    - apply (separated_perm l l'); [symmetry; exact Hp|exact D].
    - apply sort_sorted, Pl.
  Qed.

  Corollary sort_separated_order_independent l1 l2 :
    Forall P l1 -> separated l1 -> Permutation l1 l2 -> sort l1 = sort l2.
  Proof.
    intros Pl D Hp. apply sorted_separated_unique.
    - apply (Permutation_Forall Hp Pl).
    - rewrite sort_perm. exact Hp.
    - apply sort_sorted, Pl.
    - apply (separated_perm l1 l2 Hp D).
  Qed.

  (** without equivalent keys; stability plays no part *)
  Theorem sorted_stable_unique : forall l l',
    Forall P l -> Permutation l' l -> StronglySorted ord l' ->
    distinct l -> l' = sort l.
  Proof. intros l l' Pl Hp S D. apply sorted_separated_unique; auto using distinct_separated. Qed.

  Corollary sort_input_order_independent l1 l2 :
    Forall P l1 -> distinct l1 -> Permutation l1 l2 -> sort l1 = sort l2.
  Proof. intros Pl D. apply sort_separated_order_independent; auto using distinct_separated. Qed.

  Lemma insert_head x l : Forall (ord x) l -> insert x l = x :: l.
  Proof.
    intro F. destruct l as [|y r]; [reflexivity|]. cbn [insert].
    inversion F as [|? ? Hy _]; subst. unfold ord in Hy. rewrite Hy. reflexivity.
  Qed.

  Lemma sort_fixed l : StronglySorted ord l -> sort l = l.
  Proof.
    intro S. induction S as [|x r S IH F]; [reflexivity|].
    unfold sort in *. cbn [fold_right]. rewrite IH. apply insert_head. exact F.
  Qed.

  Corollary sort_idempotent l : Forall P l -> sort (sort l) = sort l.
  Proof. intro Pl. apply sort_fixed, sort_sorted, Pl. Qed.
End Sort.

Lemma insert_map {A B} (ltA : A -> A -> bool) (ltB : B -> B -> bool) (g : A -> B) :
  (forall a b, ltB (g a) (g b) = ltA a b) ->
  forall x l, map g (insert ltA x l) = insert ltB (g x) (map g l).
Proof.
  intros E x l. induction l as [|y r IH]; [reflexivity|]. simpl. rewrite E.
  destruct (ltA y x); simpl; [rewrite IH|]; reflexivity.
Qed.

Lemma sort_map {A B} (ltA : A -> A -> bool) (ltB : B -> B -> bool) (g : A -> B) :
  (forall a b, ltB (g a) (g b) = ltA a b) ->
  forall l, map g (sort ltA l) = sort ltB (map g l).
Proof.
  intros E l. induction l as [|x l IH]; [reflexivity|]. simpl.
  rewrite (insert_map ltA ltB g E), IH. reflexivity.
Qed.
