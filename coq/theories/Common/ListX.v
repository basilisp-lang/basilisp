(** Small list utilities shared by the models: decidable equality helpers and
    lexicographic comparison of code-point strings (Python's str ordering). *)
From Coq Require Import List NArith ZArith Bool Lia.
Import ListNotations.

Fixpoint list_eqb {A} (eqb : A -> A -> bool) (l1 l2 : list A) : bool :=
  match l1, l2 with
  | [], [] => true
  | x :: t1, y :: t2 => eqb x y && list_eqb eqb t1 t2
  | _, _ => false
  end.

Lemma list_eqb_spec {A} (eqb : A -> A -> bool) :
  (forall x y, eqb x y = true <-> x = y) ->
  forall l1 l2, list_eqb eqb l1 l2 = true <-> l1 = l2.
Proof.
  intros H l1; induction l1 as [|x t1 IH]; intros [|y t2]; simpl; split; intro E;
    try reflexivity; try discriminate.
  - apply andb_true_iff in E as [E1 E2]. apply H in E1. apply IH in E2. congruence.
  - inversion E; subst. apply andb_true_iff; split; [apply H|apply IH]; reflexivity.
Qed.

Definition option_eqb {A} (eqb : A -> A -> bool) (a b : option A) : bool :=
  match a, b with
  | None, None => true
  | Some x, Some y => eqb x y
  | _, _ => false
  end.

Lemma option_eqb_spec {A} (eqb : A -> A -> bool) :
  (forall x y, eqb x y = true <-> x = y) ->
  forall a b, option_eqb eqb a b = true <-> a = b.
Proof.
  intros H [x|] [y|]; simpl; split; intro E; try reflexivity; try discriminate.
  - apply H in E; congruence.
  - inversion E; subst; apply H; reflexivity.
Qed.

(** A sweep over the first [n] code points from [N.of_nat a] on, with the counter in binary:
    [map N.of_nat (seq a n)] converts every element from unary again. *)
Fixpoint forall_from (f : N -> bool) (c : N) (n : nat) : bool :=
  match n with O => true | S k => if f c then forall_from f (N.succ c) k else false end.

Lemma forallb_of_nat_seq f a n : forallb f (map N.of_nat (seq a n)) = forall_from f (N.of_nat a) n.
Proof.
  revert a. induction n as [|n IH]; intro a; [reflexivity|].
  cbn [seq map forallb forall_from]. rewrite IH, Nat2N.inj_succ. destruct (f (N.of_nat a)); reflexivity.
Qed.

(** Python string comparison: lexicographic on code points, a proper prefix is smaller. *)
Definition str := list N.

Fixpoint str_ltb (a b : str) : bool :=
  match a, b with
  | [], [] => false
  | [], _ :: _ => true
  | _ :: _, [] => false
  | x :: a', y :: b' => if N.ltb x y then true else if N.eqb x y then str_ltb a' b' else false
  end.

Definition str_eqb : str -> str -> bool := list_eqb N.eqb.

Lemma str_eqb_eq a b : str_eqb a b = true <-> a = b.
Proof. apply list_eqb_spec. intros; apply N.eqb_eq. Qed.

Lemma str_eqb_refl a : str_eqb a a = true.
Proof. apply str_eqb_eq; reflexivity. Qed.

Lemma str_ltb_irrefl a : str_ltb a a = false.
Proof. induction a as [|x a IH]; simpl; [reflexivity|]. rewrite N.ltb_irrefl, N.eqb_refl. exact IH. Qed.

Lemma str_ltb_trans a : forall b c, str_ltb a b = true -> str_ltb b c = true -> str_ltb a c = true.
Proof.
  induction a as [|x a IH]; intros [|y b] [|z c]; simpl; try discriminate; try reflexivity.
  destruct (N.ltb_spec x y) as [Lxy|_].
  - intros _. destruct (N.ltb_spec y z) as [Lyz|_].
    + intros _. rewrite (proj2 (N.ltb_lt x z) (N.lt_trans _ _ _ Lxy Lyz)). reflexivity.
    + destruct (N.eqb_spec y z) as [<-|]; [|discriminate]. intros _.
      rewrite (proj2 (N.ltb_lt x y) Lxy). reflexivity.
  - destruct (N.eqb_spec x y) as [<-|]; [|discriminate]. intro Hab.
    destruct (N.ltb x z); [reflexivity|]. destruct (N.eqb x z); [|discriminate]. apply IH, Hab.
Qed.

Lemma str_ltb_total a : forall b, str_ltb a b = false -> str_ltb b a = false -> a = b.
Proof.
  induction a as [|x a IH]; intros [|y b]; simpl; intros H1 H2; try discriminate; try reflexivity.
  destruct (N.ltb_spec x y), (N.ltb_spec y x); try discriminate; try lia.
  destruct (N.eqb_spec x y), (N.eqb_spec y x); try discriminate; try lia.
  subst. f_equal. apply IH; assumption.
Qed.

Lemma str_ltb_asym a b : str_ltb a b = true -> str_ltb b a = false.
Proof.
  intro H. destruct (str_ltb b a) eqn:E; [|reflexivity].
  pose proof (str_ltb_trans _ _ _ H E) as T. rewrite str_ltb_irrefl in T. discriminate.
Qed.

Lemma forall_from_spec f n : forall lo, forall_from f lo n = true ->
  forall c, (lo <= c < lo + N.of_nat n)%N -> f c = true.
Proof.
  induction n as [|n IH]; intros lo H c R; [lia|]. cbn [forall_from] in H.
  destruct (f lo) eqn:F; [|discriminate]. destruct (N.eq_dec c lo) as [->|NE]; [exact F|].
  apply (IH _ H). lia.
Qed.

(** what a sweep by evaluation over the code points [lo .. lo + len - 1] establishes *)
Lemma range_reflect (P : N -> bool) (lo len : nat) :
  forallb P (map N.of_nat (seq lo len)) = true ->
  forall c, (N.of_nat lo <= c < N.of_nat (lo + len))%N -> P c = true.
Proof.
  intros H c R. rewrite forallb_of_nat_seq in H. apply (forall_from_spec _ _ _ H). lia.
Qed.

Lemma firstn_length_app {A} (l r : list A) : firstn (length l) (l ++ r) = l.
Proof. induction l; simpl; congruence. Qed.

Lemma skipn_length_app {A} (l r : list A) : skipn (length l) (l ++ r) = r.
Proof. induction l; simpl; congruence. Qed.

(** from a nested induction hypothesis and a boolean guard over a list to the plain fact *)
Lemma Forall_guarded {A} (P : A -> bool) (Q : A -> Prop) l :
  Forall (fun x => P x = true -> Q x) l -> forallb P l = true -> Forall Q l.
Proof.
  intros H G. rewrite forallb_forall in G. rewrite Forall_forall in *. auto.
Qed.

Lemma forallb_guarded {A} (P Q : A -> bool) l :
  Forall (fun x => P x = true -> Q x = true) l -> forallb P l = true -> forallb Q l = true.
Proof. intros H G. apply forallb_forall, Forall_forall, (Forall_guarded P _ l H G). Qed.

Lemma forallb_map {A B} (f : A -> B) (P : B -> bool) l : forallb P (map f l) = forallb (fun x => P (f x)) l.
Proof. induction l as [|x l IH]; simpl; congruence. Qed.

(** What every boolean equality that reflects [=] satisfies. *)
Section EqbFacts.
  Context {A : Type} (eqb : A -> A -> bool).
  Hypothesis eqb_eq : forall a b, eqb a b = true <-> a = b.

  Lemma eqb_refl_of a : eqb a a = true.
  Proof. apply eqb_eq. reflexivity. Qed.

  Lemma eqb_neq_of a b : eqb a b = false <-> a <> b.
  Proof. rewrite <- eqb_eq. destruct (eqb a b); split; congruence. Qed.

  Lemma eqb_sym_of a b : eqb a b = eqb b a.
  Proof.
    destruct (eqb a b) eqn:E.
    - apply eqb_eq in E. subst. symmetry. apply eqb_refl_of.
    - symmetry. apply eqb_neq_of. apply eqb_neq_of in E. congruence.
  Qed.

  Lemma existsb_eqb_In x l : existsb (eqb x) l = true <-> In x l.
  Proof.
    rewrite existsb_exists. split.
    - intros [y [H E]]. apply eqb_eq in E. subst. exact H.
    - intros H. exists x. split; [exact H|apply eqb_refl_of].
  Qed.
End EqbFacts.

Lemma str_eqb_sym a b : str_eqb a b = str_eqb b a.
Proof. exact (eqb_sym_of _ str_eqb_eq a b). Qed.

Lemma prod_eqb_spec {A B} (ea : A -> A -> bool) (eb : B -> B -> bool) :
  (forall a b, ea a b = true <-> a = b) -> (forall a b, eb a b = true <-> a = b) ->
  forall p q : A * B, ea (fst p) (fst q) && eb (snd p) (snd q) = true <-> p = q.
Proof.
  intros Ha Hb [a1 b1] [a2 b2]. simpl. rewrite andb_true_iff, Ha, Hb.
  split; [intros [-> ->]; reflexivity|intro H; inversion H; auto].
Qed.

(** [list_eqb_spec] when [eqb] is only known to reflect equality on the elements of the first
    list, as inside an induction over a type that nests lists of itself *)
Lemma list_eqb_spec_in {A} (eqb : A -> A -> bool) l1 :
  Forall (fun x => forall y, eqb x y = true <-> x = y) l1 ->
  forall l2, list_eqb eqb l1 l2 = true <-> l1 = l2.
Proof.
  induction 1 as [|x t1 Hx _ IH]; intros [|y t2]; simpl; split; intro E;
    try reflexivity; try discriminate.
  - apply andb_true_iff in E as [E1 E2]. apply Hx in E1. apply IH in E2. congruence.
  - inversion E; subst. apply andb_true_iff; split; [apply Hx|apply IH]; reflexivity.
Qed.

Lemma nth_error_skipn {A} n (l : list A) k : nth_error (skipn n l) k = nth_error l (n + k).
Proof. revert l. induction n; intros [|a l]; simpl; auto. destruct k; reflexivity. Qed.
