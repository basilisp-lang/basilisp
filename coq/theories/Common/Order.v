(** Strict weak orders presented by boolean functions, the three-way comparison derived
    from them the way basilisp's [compare] derives it from Python's [<] and [>], and the
    lifting to "shorter first, then lexicographic" vectors. *)
From Coq Require Import List Bool ZArith Lia.
Import ListNotations.
From Verif Require Import Common.ListX.

Definition b2z (b : bool) : Z := if b then 1%Z else 0%Z.

Lemma Forall_True {A} (l : list A) : Forall (fun _ => True) l.
Proof. apply Forall_forall. intros; exact I. Qed.

Section SWO.
  Context {A : Type}.
  Variable P : A -> Prop.          (* the family *)
  Variable lt eqb : A -> A -> bool.

  (** [lt] is a strict weak order on [P] whose incomparability relation is [eqb]. *)
  Record swo : Prop := {
    swo_trans : forall x y z, P x -> P y -> P z -> lt x y = true -> lt y z = true -> lt x z = true;
    swo_eq    : forall x y, P x -> P y -> (eqb x y = true <-> (lt x y = false /\ lt y x = false));
    swo_eqtrans : forall x y z, P x -> P y -> P z -> eqb x y = true -> eqb y z = true -> eqb x z = true;
    swo_asym : forall x y, P x -> P y -> lt x y = true -> lt y x = false;
  }.

  Hypothesis H : swo.

  Lemma swo_irrefl x : P x -> lt x x = false.
  Proof. intro Px. destruct (lt x x) eqn:E; [|reflexivity]. rewrite (swo_asym H x x Px Px E) in E. discriminate. Qed.

  Lemma swo_eq_refl x : P x -> eqb x x = true.
  Proof. intro Px. apply (swo_eq H); auto using swo_irrefl. Qed.

  Lemma swo_eq_sym x y : P x -> P y -> eqb x y = true -> eqb y x = true.
  Proof. intros Px Py E. apply (swo_eq H) in E; auto. apply (swo_eq H); tauto. Qed.

  (** negative transitivity, the form used by sorting ([Sort.ord]) and by [cmp3 <= 0] *)
  Lemma swo_negtrans x y z : P x -> P y -> P z -> lt y x = false -> lt z y = false -> lt z x = false.
  Proof.
    intros Px Py Pz A1 A2. destruct (lt z x) eqn:E; [|reflexivity].
    destruct (lt x y) eqn:Exy; [rewrite (swo_trans H z x y) in A2; auto|].
    destruct (lt y z) eqn:Eyz; [rewrite (swo_trans H y z x) in A1; auto|].
    assert (Ez : eqb x z = true).
    { apply (swo_eqtrans H x y z); auto; apply (swo_eq H); auto. }
    apply (swo_eq H) in Ez; auto. destruct Ez; congruence.
  Qed.

  Lemma swo_lt_eq_l x y z : P x -> P y -> P z -> eqb x y = true -> lt y z = true -> lt x z = true.
  Proof.
    intros Px Py Pz E L. apply (swo_eq H) in E as [_ E]; auto.
    destruct (lt x z) eqn:Exz; [reflexivity|].
    rewrite (swo_negtrans z x y) in L; auto.
  Qed.

  Lemma swo_lt_eq_r x y z : P x -> P y -> P z -> lt x y = true -> eqb y z = true -> lt x z = true.
  Proof.
    intros Px Py Pz L E. apply (swo_eq H) in E as [_ E]; auto.
    destruct (lt x z) eqn:Exz; [reflexivity|].
    rewrite (swo_negtrans y z x) in L; auto.
  Qed.

  (** Python: [x > y] as synthesised by functools.total_ordering from [__lt__] and [__eq__]. *)
  Definition gt_total (x y : A) : bool := negb (lt x y) && negb (eqb x y).
  (** Python: [x > y] for types with a native reflected comparison. *)
  Definition gt_native (x y : A) : bool := lt y x.

  Lemma gt_total_native x y : P x -> P y -> gt_total x y = gt_native x y.
  Proof.
    intros Px Py. unfold gt_total, gt_native.
    destruct (lt x y) eqn:L; simpl.
    - symmetry. apply (swo_asym H); auto.
    - destruct (eqb x y) eqn:E; simpl.
      + apply (swo_eq H) in E; auto. destruct E; congruence.
      + destruct (lt y x) eqn:L2; [reflexivity|].
        assert (eqb x y = true) by (apply (swo_eq H); auto). congruence.
  Qed.

  (** runtime.compare: [(x > y) - (x < y)]. *)
  Definition cmp3 (gt : A -> A -> bool) (x y : A) : Z := (b2z (gt x y) - b2z (lt x y))%Z.

  Section Laws.
    Variable gt : A -> A -> bool.
    Hypothesis Hgt : forall x y, P x -> P y -> gt x y = lt y x.

    Lemma cmp3_range x y : P x -> P y -> (cmp3 gt x y = -1 \/ cmp3 gt x y = 0 \/ cmp3 gt x y = 1)%Z.
    Proof.
      intros Px Py. unfold cmp3. rewrite Hgt by auto.
      destruct (lt y x) eqn:A1, (lt x y) eqn:A2; simpl; auto.
    Qed.

    Lemma cmp3_antisym x y : P x -> P y -> cmp3 gt x y = (- cmp3 gt y x)%Z.
    Proof. intros Px Py. unfold cmp3. rewrite !Hgt by auto. destruct (lt x y), (lt y x); reflexivity. Qed.

    Lemma cmp3_zero_iff x y : P x -> P y -> (cmp3 gt x y = 0%Z <-> eqb x y = true).
    Proof.
      intros Px Py. unfold cmp3. rewrite Hgt by auto. split.
      - intro E. apply (swo_eq H); auto.
        destruct (lt x y) eqn:A1, (lt y x) eqn:A2; simpl in E; try discriminate; auto.
        rewrite (swo_asym H x y) in A2; auto; discriminate.
      - intro E. apply (swo_eq H) in E; auto. destruct E as [E1 E2]. rewrite E1, E2. reflexivity.
    Qed.

    Lemma cmp3_lt_iff x y : P x -> P y -> (cmp3 gt x y = (-1)%Z <-> lt x y = true).
    Proof.
      intros Px Py. unfold cmp3. rewrite Hgt by auto.
      destruct (lt x y) eqn:A1, (lt y x) eqn:A2; simpl; split; intro E; try discriminate; auto.
      rewrite (swo_asym H x y) in A2; auto; discriminate.
    Qed.

    Lemma cmp3_neg_iff x y : P x -> P y -> ((cmp3 gt x y < 0)%Z <-> lt x y = true).
    Proof.
      intros Px Py. rewrite <- cmp3_lt_iff by auto.
      destruct (cmp3_range x y Px Py) as [E|[E|E]]; rewrite E; lia.
    Qed.

    Lemma cmp3_le_iff x y : P x -> P y -> ((cmp3 gt x y <= 0)%Z <-> lt y x = false).
    Proof.
      intros Px Py. unfold cmp3. rewrite Hgt by auto. destruct (lt y x) eqn:E.
      - rewrite (swo_asym H y x Py Px E). simpl. split; [lia|discriminate].
      - destruct (lt x y); simpl; split; auto; lia.
    Qed.

    Lemma cmp3_trans_le x y z : P x -> P y -> P z ->
      (cmp3 gt x y <= 0)%Z -> (cmp3 gt y z <= 0)%Z -> (cmp3 gt x z <= 0)%Z.
    Proof. intros Px Py Pz. rewrite !cmp3_le_iff by auto. apply swo_negtrans; auto. Qed.
  End Laws.
End SWO.
Arguments swo_trans {A P lt eqb}.
Arguments swo_eq {A P lt eqb}.
Arguments swo_eqtrans {A P lt eqb}.
Arguments swo_asym {A P lt eqb}.

Lemma swo_preimage {A B} (g : B -> A) P lt eqb :
  swo P lt eqb -> swo (fun b => P (g b)) (fun a b => lt (g a) (g b)) (fun a b => eqb (g a) (g b)).
Proof.
  intros [t e et a]. constructor.
  - intros x y z. apply t.
  - intros x y. apply e.
  - intros x y z. apply et.
  - intros x y. apply a.
Qed.

Lemma swo_weaken {A} (P Q : A -> Prop) lt eqb : (forall x, Q x -> P x) -> swo P lt eqb -> swo Q lt eqb.
Proof.
  intros PQ [t e et a]. constructor.
  - intros x y z Qx Qy Qz. apply t; auto.
  - intros x y Qx Qy. apply e; auto.
  - intros x y z Qx Qy Qz. apply et; auto.
  - intros x y Qx Qy. apply a; auto.
Qed.

(** a least element [None] added: runtime.compare with [nil] below everything, and the key
    order of runtime.sort *)
Section OptCmp.
  Context {A : Type}.
  Variable P : A -> Prop.
  Variable lt eqb gt : A -> A -> bool.
  Hypothesis H : swo P lt eqb.
  Hypothesis Hgt : forall x y, P x -> P y -> gt x y = lt y x.

  Definition ocmp (x y : option A) : Z :=
    match x, y with
    | None, None => 0
    | None, Some _ => -1
    | Some _, None => 1
    | Some a, Some b => cmp3 lt gt a b
    end.
  Definition OP (x : option A) : Prop := match x with Some a => P a | None => True end.

  Lemma ocmp_antisym x y : OP x -> OP y -> ocmp x y = (- ocmp y x)%Z.
  Proof.
    destruct x as [a|], y as [b|]; simpl; intros Px Py; try reflexivity.
    exact (cmp3_antisym P _ _ Hgt a b Px Py).
  Qed.
  Lemma ocmp_range x y : OP x -> OP y -> (ocmp x y = -1 \/ ocmp x y = 0 \/ ocmp x y = 1)%Z.
  Proof.
    destruct x as [a|], y as [b|]; simpl; intros Px Py; auto.
    exact (cmp3_range P _ _ Hgt a b Px Py).
  Qed.
  Lemma ocmp_zero_iff x y : OP x -> OP y -> (ocmp x y = 0%Z <-> option_eqb eqb x y = true).
  Proof.
    destruct x as [a|], y as [b|]; simpl; intros Px Py; try (split; discriminate); try tauto.
    exact (cmp3_zero_iff P _ _ H _ Hgt a b Px Py).
  Qed.
  Lemma ocmp_trans x y z : OP x -> OP y -> OP z -> (ocmp x y <= 0 -> ocmp y z <= 0 -> ocmp x z <= 0)%Z.
  Proof.
    destruct x as [a|], y as [b|], z as [c|]; simpl; intros Px Py Pz; try lia.
    exact (cmp3_trans_le P _ _ H _ Hgt a b c Px Py Pz).
  Qed.
  Lemma ocmp_trans_strict x y z : OP x -> OP y -> OP z -> (ocmp x y < 0 -> ocmp y z < 0 -> ocmp x z < 0)%Z.
  Proof.
    destruct x as [a|], y as [b|], z as [c|]; simpl; intros Px Py Pz; try lia.
    rewrite !(cmp3_neg_iff P _ _ H _ Hgt) by assumption. apply (swo_trans H); assumption.
  Qed.

  Theorem ocmp_swo : swo OP (fun a b => ocmp a b <? 0)%Z (fun a b => ocmp a b =? 0)%Z.
  Proof.
    constructor.
    - intros x y z Px Py Pz. rewrite !Z.ltb_lt. apply ocmp_trans_strict; assumption.
    - intros x y Px Py. rewrite Z.eqb_eq, !Z.ltb_ge. rewrite (ocmp_antisym y x Py Px). lia.
    - intros x y z Px Py Pz. rewrite !Z.eqb_eq.
      intros A1 B1. pose proof (ocmp_trans x y z Px Py Pz). pose proof (ocmp_trans z y x Pz Py Px).
      rewrite (ocmp_antisym z y Pz Py), (ocmp_antisym y x Py Px), (ocmp_antisym z x Pz Px) in *. lia.
    - intros x y Px Py. rewrite Z.ltb_lt, Z.ltb_ge. rewrite (ocmp_antisym y x Py Px). lia.
  Qed.
End OptCmp.

(** Vectors: shorter first, otherwise the first strictly ordered pair decides
    (PersistentVector.__lt__); equality is same length and pointwise [eqb]. *)
Section Vec.
  Context {A : Type}.
  Variable P : A -> Prop.
  Variable lt eqb : A -> A -> bool.

  Fixpoint lex (l1 l2 : list A) : bool :=
    match l1, l2 with
    | x :: t1, y :: t2 => if lt x y then true else if lt y x then false else lex t1 t2
    | _, _ => false
    end.

  Definition vec_lt (l1 l2 : list A) : bool :=
    if Nat.eqb (length l1) (length l2) then lex l1 l2 else Nat.ltb (length l1) (length l2).

  Fixpoint all_eqb (l1 l2 : list A) : bool :=
    match l1, l2 with
    | [], [] => true
    | x :: t1, y :: t2 => eqb x y && all_eqb t1 t2
    | _, _ => false
    end.

  Definition vec_eqb (l1 l2 : list A) : bool :=
    if Nat.eqb (length l1) (length l2) then all_eqb l1 l2 else false.

  Hypothesis H : swo P lt eqb.
  Let PV (l : list A) : Prop := Forall P l.

  Lemma lex_trans : forall l1 l2 l3, PV l1 -> PV l2 -> PV l3 ->
    lex l1 l2 = true -> lex l2 l3 = true -> lex l1 l3 = true.
  Proof.
    induction l1 as [|x t1 IH]; intros [|y t2] [|z t3] P1 P2 P3; simpl in *; try discriminate; auto.
    inversion P1; inversion P2; inversion P3; subst. intros A1 A2.
    destruct (lt x y) eqn:Exy.
    - destruct (lt y z) eqn:Eyz.
      + rewrite (swo_trans H x y z); auto.
      + destruct (lt z y) eqn:Ezy; [discriminate|].
        assert (E : eqb y z = true) by (apply (swo_eq H); auto).
        rewrite (swo_lt_eq_r P lt eqb H x y z); auto.
    - destruct (lt y x) eqn:Eyx; [discriminate|].
      destruct (lt y z) eqn:Eyz.
      + assert (E : eqb x y = true) by (apply (swo_eq H); auto).
        rewrite (swo_lt_eq_l P lt eqb H x y z); auto.
      + destruct (lt z y) eqn:Ezy; [discriminate|].
        (* both heads tie: so do the outer ones, by negative transitivity *)
        rewrite (swo_negtrans P lt eqb H z y x), (swo_negtrans P lt eqb H x y z); auto.
        apply (IH t2 t3); auto.
  Qed.

  Lemma lex_asym : forall l1 l2, PV l1 -> PV l2 -> lex l1 l2 = true -> lex l2 l1 = false.
  Proof.
    induction l1 as [|x t1 IH]; intros [|y t2] P1 P2; simpl; try discriminate; auto.
    inversion P1; inversion P2; subst.
    destruct (lt x y) eqn:Exy.
    - intros _. rewrite (swo_asym H x y); auto.
    - destruct (lt y x) eqn:Eyx; [discriminate|]. apply IH; auto.
  Qed.

  Lemma lex_eq : forall l1 l2, PV l1 -> PV l2 -> length l1 = length l2 ->
    (all_eqb l1 l2 = true <-> (lex l1 l2 = false /\ lex l2 l1 = false)).
  Proof.
    induction l1 as [|x t1 IH]; intros [|y t2] P1 P2 L; simpl in *; try discriminate; try tauto.
    inversion P1; inversion P2; subst. injection L as L.
    rewrite andb_true_iff, (swo_eq H x y), (IH t2) by auto.
    destruct (lt x y), (lt y x); simpl; try tauto; intuition discriminate.
  Qed.

  Lemma all_eqb_trans : forall l1 l2 l3, PV l1 -> PV l2 -> PV l3 ->
    all_eqb l1 l2 = true -> all_eqb l2 l3 = true -> all_eqb l1 l3 = true.
  Proof.
    induction l1 as [|x t1 IH]; intros [|y t2] [|z t3] P1 P2 P3; simpl; try discriminate; auto.
    inversion P1; inversion P2; inversion P3; subst.
    rewrite !andb_true_iff. intros [A1 A2] [B1 B2]. split.
    - apply (swo_eqtrans H x y z); auto.
    - apply (IH t2 t3); auto.
  Qed.

  Lemma all_eqb_length : forall l1 l2, all_eqb l1 l2 = true -> length l1 = length l2.
  Proof. induction l1 as [|x t IH]; intros [|y t2]; simpl; try discriminate; auto.
    intro E. apply andb_true_iff in E as [_ E]. f_equal; auto. Qed.

  Theorem vec_swo : swo PV vec_lt vec_eqb.
  Proof.
    constructor.
    - intros x y z Px Py Pz. unfold vec_lt.
      destruct (Nat.eqb_spec (length x) (length y)) as [E1|E1],
               (Nat.eqb_spec (length y) (length z)) as [E2|E2],
               (Nat.eqb_spec (length x) (length z)) as [E3|E3]; try lia;
        rewrite ?Nat.ltb_lt; try lia.
      apply (lex_trans x y z); auto.
    - intros x y Px Py. unfold vec_lt, vec_eqb. rewrite (Nat.eqb_sym (length y)).
      destruct (Nat.eqb_spec (length x) (length y)) as [E1|E1].
      + apply lex_eq; auto.
      + split; [discriminate|]. rewrite !Nat.ltb_ge. lia.
    - intros x y z Px Py Pz. unfold vec_eqb.
      destruct (Nat.eqb_spec (length x) (length y)) as [E1|E1]; [|discriminate].
      destruct (Nat.eqb_spec (length y) (length z)) as [E2|E2]; [|discriminate].
      destruct (Nat.eqb_spec (length x) (length z)) as [E3|E3]; [|lia].
      apply all_eqb_trans; auto.
    - intros x y Px Py. unfold vec_lt. rewrite (Nat.eqb_sym (length y)).
      destruct (Nat.eqb_spec (length x) (length y)) as [E1|E1].
      + apply lex_asym; auto.
      + rewrite Nat.ltb_lt, Nat.ltb_ge. lia.
  Qed.
End Vec.

Lemma str_swo : swo (fun _ => True) str_ltb str_eqb.
Proof.
  constructor.
  - intros x y z _ _ _. apply str_ltb_trans.
  - intros x y _ _. rewrite str_eqb_eq. split.
    + intros ->. split; apply str_ltb_irrefl.
    + intros [A B]. apply str_ltb_total; auto.
  - intros x y z _ _ _. rewrite !str_eqb_eq. congruence.
  - intros x y _ _. apply str_ltb_asym.
Qed.
