(** C03: floats, decimals, imaginary numbers.  Every text of CPython's
    repr(float) grammar (and of str(Decimal) followed by M, and every exponent-free imaginary
    literal) is routed by the reader's regexes to the branch that hands the WHOLE text to the
    CPython constructor. *)
From Coq Require Import List ZArith Bool Lia.
Import ListNotations.
From Verif Require Import Common.ListX C19.Bencode C19.BencodeProofs C19.Edn C19.EdnProofs.
From Verif Require Import C03.Printer C03.ReadBack C03.ProofsNum.
Local Open Scope N_scope.

Definition is_sign (sg : str) : Prop := sg = [] \/ sg = [45].
Definition is_frac (fr : str) : Prop := fr = [] \/ exists fp, fr = 46 :: fp /\ digits1 fp = true.
Definition is_sfx (sfx : str) : Prop := sfx = [] \/ sfx = [77].
Definition is_E (e : N) : Prop := e = 101 \/ e = 69.
Definition is_es (c : N) : Prop := c = 43 \/ c = 45.

Lemma digits1_inv l : digits1 l = true -> forallb is_digit l = true /\ l <> [].
Proof.
  unfold digits1. intro H. apply andb_true_iff in H as [A B]. split; [exact B|].
  destruct l; [discriminate|discriminate].
Qed.

Lemma digits1_cons l : digits1 l = true -> exists c t, l = c :: t /\ is_digit c = true /\ forallb is_digit t = true.
Proof.
  intro H. destruct (digits1_inv l H) as [D NE]. destruct l as [|c t]; [congruence|].
  simpl in D. apply andb_true_iff in D as [Dc Dt]. eauto.
Qed.

Lemma frac_digits_dot fr : is_frac fr -> forallb (fun c => is_digit c || (c =? 46)) fr = true.
Proof.
  intros [->|(fp & -> & D)]; [reflexivity|]. destruct (digits1_inv fp D) as [Df _].
  simpl. rewrite forallb_forall in *. intros x I. rewrite (Df x I). reflexivity.
Qed.

Lemma strip_minus_sign sg c t : is_sign sg -> is_digit c = true -> strip_minus (sg ++ c :: t) = c :: t.
Proof. intros [->| ->]; [apply (strip_minus_opt false)|apply (strip_minus_opt true)]. Qed.

Lemma ends_with_digit_tail c l d : is_digit c = false -> forallb is_digit d = true -> d <> [] ->
  ends_with c (l ++ d) = false.
Proof. intros NC D NE. rewrite ends_with_app by assumption. apply ends_with_digits; assumption. Qed.

Lemma dec_frac_shape ip fr : digits1 ip = true -> is_frac fr -> dec_frac (ip ++ fr) = true.
Proof.
  intros D [->|(fp & -> & Df)]; unfold dec_frac.
  - rewrite app_nil_r. destruct (digits1_inv ip D) as [Di _].
    rewrite split_at_none by (apply (digits_no 46); [reflexivity|exact Di]). exact D.
  - destruct (digits1_inv ip D) as [Di _]. destruct (digits1_inv fp Df) as [Dfp _].
    rewrite split_at_first by (apply (digits_no 46); [reflexivity|exact Di]). rewrite D, Dfp. reflexivity.
Qed.

Lemma int_body_digits1 ip : int_body ip = true -> digits1 ip = true.
Proof. intro H. destruct (int_body_digits ip H) as [D NE]. unfold digits1. rewrite D. destruct ip; [congruence|reflexivity]. Qed.

Lemma alpha_notin extra s : (forall x, In x s -> alpha extra x = true) -> forall x, alpha extra x = false -> ~ In x s.
Proof. intros CH x A I. rewrite (CH x I) in A. discriminate. Qed.

Lemma noexp_last sg ip fr x : int_body ip = true -> is_frac fr -> is_digit x = false ->
  ends_with x (sg ++ ip ++ fr) = false.
Proof.
  intros Hi Hf NX. destruct (int_body_digits ip Hi) as [Di NEi]. destruct Hf as [->|(fp & -> & Dfp)].
  - rewrite app_nil_r. apply ends_with_digit_tail; assumption.
  - destruct (digits1_inv fp Dfp) as [Dfp' NEfp].
    rewrite app_assoc. change (46 :: fp) with ([46] ++ fp). rewrite app_assoc.
    apply ends_with_digit_tail; assumption.
Qed.
Lemma exp_last sg (d0 : N) fr e es ds x : digits1 ds = true -> is_digit x = false ->
  ends_with x (sg ++ (d0 :: fr) ++ e :: es :: ds) = false.
Proof.
  intros Hds NX. destruct (digits1_inv ds Hds) as [Dds NEds]. rewrite app_assoc.
  change (e :: es :: ds) with ([e; es] ++ ds). rewrite app_assoc. apply ends_with_digit_tail; assumption.
Qed.

Section Floats.
  Variable py_float py_dec py_imag : str -> option str.
  Notation classify := (classify py_float py_dec py_imag).

  (** the value the float / sci branches compute for text [tok] followed by [sfx] *)
  Definition fl_result (tok sfx : str) (rest : str) : rres (value * str) :=
    match sfx with
    | [] => tok_or_err (py_float tok) (fun t => VFloat (FTok t)) rest
    | _ => tok_or_err (py_dec tok) VDec rest
    end.

  (** the float and the sci branch of [classify] end alike: a final M selects Decimal *)
  Lemma sfx_tail tok sfx : is_sfx sfx -> (forall x, is_digit x = false -> ends_with x tok = false) ->
    strip_last 77 (tok ++ sfx) = tok
    /\ forall rest,
         (if ends_with 77 (tok ++ sfx) then tok_or_err (py_dec (removelast (tok ++ sfx))) VDec rest
          else tok_or_err (py_float (tok ++ sfx)) (fun t => VFloat (FTok t)) rest) = fl_result tok sfx rest.
  Proof.
    intros [->| ->] LASTD.
    - rewrite app_nil_r, (LASTD 77 eq_refl). split; [apply strip_last_no, LASTD|]; reflexivity.
    - unfold strip_last. rewrite ends_with_app_last, removelast_last. auto.
  Qed.

  (** ** no exponent: sign, canonical integer part, optional fraction, optional M *)
  Lemma classify_noexp sg ip fr sfx rest :
    is_sign sg -> int_body ip = true -> is_frac fr -> is_sfx sfx -> (fr <> [] \/ sfx <> []) ->
    classify ((sg ++ ip ++ fr) ++ sfx) rest = fl_result (sg ++ ip ++ fr) sfx rest.
  Proof.
    intros Hs Hi Hf Hx Hne.
    destruct (int_body_digits ip Hi) as [Di NEi]. destruct ip as [|c t]; [congruence|].
    pose proof Di as Di'. simpl in Di'. apply andb_true_iff in Di' as [Dc Dt].
    set (tok := sg ++ (c :: t) ++ fr).
    assert (SMtok : strip_minus tok = (c :: t) ++ fr).
    { unfold tok. simpl app. apply strip_minus_sign; assumption. }
    destruct (sfx_tail tok sfx Hx (fun x => noexp_last sg (c :: t) fr x Hi Hf)) as (SL77 & FB).
    (* a dot or the M keeps it from being an integer *)
    assert (NI : re_integer (tok ++ sfx) = false).
    { destruct Hne as [NF|NX].
      - destruct Hf as [->|(fp & -> & _)]; [congruence|]. apply (re_integer_not _ 46); [|reflexivity].
        unfold tok. rewrite <- !app_assoc. do 2 (apply in_or_app; right). left. reflexivity.
      - destruct Hx as [->| ->]; [congruence|]. apply (re_integer_not _ 77); [|reflexivity].
        apply in_or_app. right. left. reflexivity. }
    assert (FL : re_float (tok ++ sfx) = true).
    { unfold re_float. rewrite SL77, SMtok. destruct Hf as [->|(fp & -> & Dfp)].
      - rewrite app_nil_r. rewrite split_at_none by (apply (digits_no 46); [reflexivity|exact Di]). exact Hi.
      - destruct (digits1_inv fp Dfp) as [Dfp' _].
        rewrite split_at_first by (apply (digits_no 46); [reflexivity|exact Di]). rewrite Hi, Dfp'. reflexivity. }
    unfold classify. fold tok. rewrite NI, FL. apply FB.
  Qed.

  (** ** exponent: sign, ONE digit, optional fraction, e or E, a sign, digits, optional M *)
  Lemma classify_exp sg d0 fr e es ds sfx rest :
    is_sign sg -> is_digit d0 = true -> is_frac fr -> is_E e -> is_es es -> digits1 ds = true -> is_sfx sfx ->
    classify ((sg ++ (d0 :: fr) ++ e :: es :: ds) ++ sfx) rest = fl_result (sg ++ (d0 :: fr) ++ e :: es :: ds) sfx rest.
  Proof.
    intros Hs Hd Hf He Hes Hds Hx.
    destruct (digits1_inv ds Hds) as [Dds NEds].
    set (body := (d0 :: fr) ++ e :: es :: ds).
    set (tok := sg ++ body).
    assert (SMs : strip_minus (tok ++ sfx) = body ++ sfx).
    { unfold tok. rewrite <- app_assoc. unfold body. simpl app. apply strip_minus_sign; assumption. }
    destruct (sfx_tail tok sfx Hx (fun x => exp_last sg d0 fr e es ds x Hds)) as (_ & FB).
    (* the characters of the token; the exponent letter is outside the alphabets of the first three regexes,
       and there is neither an x for the fourth nor a slash for the fifth *)
    assert (CH : forall x, In x (tok ++ sfx) -> alpha [45; 46; 43; 77; 101; 69] x = true).
    { intros x I. unfold tok, body in I. rewrite <- !app_assoc in I.
      apply in_app_or in I as [I|I]; [destruct Hs; subst; [destruct I|destruct I as [<-|[]]; reflexivity]|].
      destruct I as [<-|I]; [unfold alpha; rewrite Hd; reflexivity|].
      apply in_app_or in I as [I|[<-|[<-|I]]].
      - pose proof (frac_digits_dot fr Hf) as F. rewrite forallb_forall in F.
        destruct (orb_prop _ _ (F x I)) as [F'|F']; [unfold alpha; rewrite F'; reflexivity|].
        apply N.eqb_eq in F'. subst x. reflexivity.
      - destruct He; subst; reflexivity.
      - destruct Hes; subst; reflexivity.
      - apply in_app_or in I as [I|I]; [exact (digits_alpha _ _ _ Dds I)|].
        destruct Hx; subst; [destruct I|destruct I as [<-|[]]; reflexivity]. }
    pose proof (alpha_notin _ _ CH) as NX.
    assert (INe : In e (tok ++ sfx)).
    { unfold tok, body. rewrite <- !app_assoc. do 2 (apply in_or_app; right). left. reflexivity. }
    assert (SC : re_sci (tok ++ sfx) = true).
    { unfold re_sci. rewrite SMs. unfold body. rewrite <- app_assoc. simpl app.
      change (d0 :: fr ++ e :: es :: ds ++ sfx) with ((d0 :: fr) ++ e :: (es :: ds ++ sfx)).
      rewrite (split_e_first e _ _ He).
      - change (d0 :: fr) with ([d0] ++ fr). rewrite dec_frac_shape; [|unfold digits1; simpl; rewrite Hd; reflexivity|exact Hf].
        cbn [andb].
        assert (SL : strip_last 77 (es :: ds ++ sfx) = es :: ds).
        { apply (sfx_tail (es :: ds) sfx Hx). intros x Dx. rewrite ends_with_cons by assumption.
          apply ends_with_digits; assumption. }
        rewrite SL. unfold strip_sign. destruct Hes as [->| ->]; exact Hds.
      - pose proof (frac_digits_dot fr Hf) as F. simpl.
        assert (ND : ((d0 =? 101) || (d0 =? 69)) = false).
        { apply digit_range in Hd. apply orb_false_iff. split; apply N.eqb_neq; lia. }
        rewrite ND. simpl. rewrite forallb_forall in *. intros y I. specialize (F y I).
        apply negb_true_iff, orb_false_iff. apply orb_true_iff in F as [F|F].
        + apply digit_range in F. split; apply N.eqb_neq; lia.
        + apply N.eqb_eq in F. subst y. split; reflexivity. }
    unfold classify. fold body. fold tok.
    rewrite (re_integer_not _ e INe), (re_float_not _ e INe), (re_octal_not _ e INe) by (destruct He; subst; reflexivity).
    rewrite (re_hex_not _ (NX 88 eq_refl) (NX 120 eq_refl)), (re_ratio_not _ (NX 47 eq_refl)), SC. apply FB.
  Qed.
End Floats.
