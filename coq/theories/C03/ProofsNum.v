(** C03, numbers.  The token scanner of [_read_num], and for every numeric
    text the printer emits the proof that the reader's regexes route it to the branch that
    computes the right value. *)
From Coq Require Import List ZArith Bool Lia.
Import ListNotations.
From Verif Require Import Common.ListX C19.Bencode C19.BencodeProofs C19.Edn C19.EdnProofs.
From Verif Require Import C03.Printer C03.ReadBack C03.ProofsBase.
Local Open Scope N_scope.

(** the scanner of [_read_num] swallows the token whole: every '-' is followed by a digit or '-' *)
Fixpoint scan_ok (l : str) : bool :=
  match l with
  | [] => true
  | c :: t =>
      if c =? 45 then (match t with c2 :: _ => begin_num c2 | [] => false end) && scan_ok t
      else maybe_num c && scan_ok t
  end.

Section Num.
  Variable py_float py_dec py_imag : str -> option str.
  Notation read_num := (read_num py_float py_dec py_imag).
  Notation classify := (classify py_float py_dec py_imag).

  Lemma read_num_dash l chars : read_num (45 :: l) chars =
    if match l with c2 :: _ => begin_num c2 | [] => false end then read_num l (chars ++ [45])
    else if pushback_ok chars then read_sym (chars ++ 45 :: l) else RErr 1.
  Proof. reflexivity. Qed.

  Lemma read_num_scan tok : forall chars rest, scan_ok tok = true -> rest_ok rest = true ->
    read_num (tok ++ rest) chars = classify (chars ++ tok) rest.
  Proof.
    induction tok as [|c t IH]; intros chars rest S R.
    - simpl. rewrite app_nil_r. destruct rest as [|r0 rr]; [reflexivity|].
      destruct (rest_ok_facts r0 rr R) as (_ & _ & N45 & MN & _).
      cbn [read_num]. rewrite N45, MN. reflexivity.
    - simpl in S. destruct (N.eqb_spec c 45) as [->|NE].
      + apply andb_true_iff in S as [B S]. destruct t as [|c2 t2]; [discriminate|].
        simpl app. rewrite read_num_dash, B.
        change (c2 :: t2 ++ rest) with ((c2 :: t2) ++ rest).
        rewrite (IH _ _ S R), <- app_assoc. reflexivity.
      + apply andb_true_iff in S as [M S]. simpl app. cbn [read_num].
        apply N.eqb_neq in NE. rewrite NE, M, (IH _ _ S R), <- app_assoc. reflexivity.
  Qed.
End Num.

Lemma digits_scan l : forallb is_digit l = true -> scan_ok l = true.
Proof.
  induction l as [|c t IH]; [reflexivity|]. intro H. simpl in H. apply andb_true_iff in H as [Hc Ht].
  destruct (digit_fact c Hc) as (_ & _ & N45 & _ & M & _). simpl. rewrite N45, M, (IH Ht). reflexivity.
Qed.

Lemma scan_ok_app a b : scan_ok a = true -> scan_ok b = true ->
  (forall t, a <> t ++ [45]) -> scan_ok (a ++ b) = true.
Proof.
  induction a as [|c t IH]; intros A B NL; [exact B|].
  simpl in A. simpl app. simpl. destruct (c =? 45) eqn:E.
  - apply andb_true_iff in A as [A1 A2]. destruct t as [|c2 t2]; [discriminate|].
    change (match (c2 :: t2) ++ b with [] => false | c0 :: _ => begin_num c0 end) with (begin_num c2).
    rewrite A1. cbn [andb]. apply IH; auto.
    intros t' E'. apply (NL (c :: t')). simpl. rewrite E'. reflexivity.
  - apply andb_true_iff in A as [A1 A2]. rewrite A1. simpl. apply IH; auto.
    intros t' E'. apply (NL (c :: t')). simpl. rewrite E'. reflexivity.
Qed.

Lemma split_e_none l : forallb (fun x => negb ((x =? 101) || (x =? 69))) l = true -> split_e l = None.
Proof.
  induction l as [|x t IH]; [reflexivity|]. intro H. simpl in H. apply andb_true_iff in H as [Hx Ht].
  apply negb_true_iff in Hx. simpl. rewrite Hx, (IH Ht). reflexivity.
Qed.

Lemma split_e_first e a b : (e = 101 \/ e = 69) ->
  forallb (fun x => negb ((x =? 101) || (x =? 69))) a = true -> split_e (a ++ e :: b) = Some (a, b).
Proof.
  intros He. induction a as [|x t IH]; intro H.
  - simpl. destruct He; subst; reflexivity.
  - simpl in H. apply andb_true_iff in H as [Hx Ht]. apply negb_true_iff in Hx.
    simpl. rewrite Hx, (IH Ht). reflexivity.
Qed.

Lemma digits_no_e l : forallb is_digit l = true -> forallb (fun x => negb ((x =? 101) || (x =? 69))) l = true.
Proof.
  intro D. rewrite forallb_forall in *. intros x I. specialize (D x I). apply digit_range in D.
  apply negb_true_iff, orb_false_iff. split; apply N.eqb_neq; lia.
Qed.

Lemma ends_with_digits c l : is_digit c = false -> forallb is_digit l = true -> ends_with c l = false.
Proof.
  intros NC. induction l as [|x t IH]; [reflexivity|]. intro D. simpl in D. apply andb_true_iff in D as [Dx Dt].
  destruct t as [|y r].
  - simpl. apply N.eqb_neq. intro E. subst x. congruence.
  - change (ends_with c (x :: y :: r)) with (ends_with c (y :: r)). apply IH, Dt.
Qed.

Lemma ends_with_cons c x l : l <> [] -> ends_with c (x :: l) = ends_with c l.
Proof. destruct l; [congruence|reflexivity]. Qed.

Lemma ends_with_app c a b : b <> [] -> ends_with c (a ++ b) = ends_with c b.
Proof.
  intro NB. induction a as [|x t IH]; [reflexivity|]. simpl app. rewrite ends_with_cons; [exact IH|].
  destruct t; simpl; [exact NB|discriminate].
Qed.

Lemma ends_with_app_last c l x : ends_with c (l ++ [x]) = (x =? c).
Proof. rewrite ends_with_app by discriminate. reflexivity. Qed.

Lemma strip_last_no c l : ends_with c l = false -> strip_last c l = l.
Proof. unfold strip_last. intros ->. reflexivity. Qed.

Lemma ends_with_last x s : ends_with x s = true -> s = removelast s ++ [x].
Proof.
  induction s as [|y t IH]; [discriminate|]. destruct t as [|z r].
  - simpl. intro E. apply N.eqb_eq in E. now subst.
  - intro E. change (removelast (y :: z :: r)) with (y :: removelast (z :: r)). simpl. f_equal. now apply IH.
Qed.

(** the characters of [s] are those of [strip_minus (strip_last x s)], a minus sign in front and [x] at the end *)
Lemma stripped_chars x s : exists sg sfx, (sg = [] \/ sg = [45]) /\ (sfx = [] \/ sfx = [x])
  /\ s = sg ++ strip_minus (strip_last x s) ++ sfx.
Proof.
  assert (L : exists sfx, (sfx = [] \/ sfx = [x]) /\ s = strip_last x s ++ sfx).
  { unfold strip_last. destruct (ends_with x s) eqn:E.
    - exists [x]. split; [now right|apply ends_with_last, E].
    - exists []. split; [now left|now rewrite app_nil_r]. }
  destruct L as (sfx & Hx & E). exists (if is_neg (strip_last x s) then [45] else []), sfx.
  split; [destruct (is_neg _); auto|]. split; [exact Hx|]. rewrite app_assoc. rewrite E at 1. f_equal.
  apply strip_minus_split.
Qed.

Lemma stripped_In x s c : In c s -> c = 45 \/ c = x \/ In c (strip_minus (strip_last x s)).
Proof.
  destruct (stripped_chars x s) as (sg & sfx & Hs & Hx & E). intro I. rewrite E in I.
  apply in_app_or in I as [I|I]; [destruct Hs; subst; [destruct I|destruct I as [<-|[]]; auto]|].
  apply in_app_or in I as [I|I]; [auto|]. destruct Hx; subst; [destruct I|destruct I as [<-|[]]; auto].
Qed.
Lemma In_stripped x s c : In c (strip_minus (strip_last x s)) -> In c s.
Proof.
  destruct (stripped_chars x s) as (sg & sfx & _ & _ & E). intro I. rewrite E.
  apply in_or_app. right. apply in_or_app. now left.
Qed.

Definition alpha (extra : list N) (c : N) : bool := is_digit c || mem c extra.

Lemma digits_alpha extra l c : forallb is_digit l = true -> In c l -> alpha extra c = true.
Proof. intros D I. rewrite forallb_forall in D. unfold alpha. now rewrite (D c I). Qed.

Lemma re_integer_not s c : In c s -> alpha [45; 78] c = false -> re_integer s = false.
Proof.
  intros I A. destruct (re_integer s) eqn:H; [|reflexivity]. unfold re_integer in H.
  apply int_body_digits in H as [D _].
  apply (stripped_In 78) in I as [->|[->|I]]; try discriminate. now rewrite (digits_alpha _ _ _ D I) in A.
Qed.
Lemma re_float_not s c : In c s -> alpha [45; 46; 77] c = false -> re_float s = false.
Proof.
  intros I A. destruct (re_float s) eqn:H; [|reflexivity]. unfold re_float in H. cbv zeta in H.
  apply (stripped_In 77) in I as [->|[->|I]]; try discriminate.
  revert H I. generalize (strip_minus (strip_last 77 s)) as b. intros b H I.
  destruct (split_at 46 b) as [[ip fp]|] eqn:S.
  - apply split_at_inv in S as [-> _]. apply andb_true_iff in H as [H F]. apply int_body_digits in H as [D _].
    apply in_app_or in I as [I|[<-|I]]; [|discriminate|].
    + now rewrite (digits_alpha _ _ _ D I) in A.
    + now rewrite (digits_alpha _ _ _ F I) in A.
  - apply int_body_digits in H as [D _]. now rewrite (digits_alpha _ _ _ D I) in A.
Qed.
Lemma head_not_48 {A} (z : N) (a d : A) : z <> 48 -> match z with 48 => a | _ => d end = d.
Proof. intro NE. destruct z as [|p]; [reflexivity|]. do 6 (destruct p as [p|p|]; try reflexivity). congruence. Qed.

Lemma re_octal_not s c : In c s -> alpha [45; 78] c = false -> re_octal s = false.
Proof.
  intros I A. destruct (re_octal s) eqn:H; [|reflexivity]. unfold re_octal in H.
  apply (stripped_In 78) in I as [->|[->|I]]; try discriminate.
  revert H I. generalize (strip_minus (strip_last 78 s)) as b. intros [|z ds] H I; [discriminate|].
  destruct (N.eqb_spec z 48) as [->|NE].
  - apply andb_true_iff in H as [_ H]. destruct I as [<-|I]; [discriminate|].
    rewrite forallb_forall in H. specialize (H c I). unfold alpha, is_digit in A.
    apply andb_true_iff in H as [L U]. apply N.leb_le in L, U. apply orb_false_iff in A as [A _].
    apply andb_false_iff in A as [A|A]; apply N.leb_gt in A; lia.
  - rewrite head_not_48 in H by assumption. discriminate.
Qed.
Lemma re_hex_not s : ~ In 88 s -> ~ In 120 s -> re_hex s = false.
Proof.
  intros N1 N2. destruct (re_hex s) eqn:H; [|reflexivity]. exfalso. unfold re_hex in H.
  pose proof (In_stripped 78 s) as I. revert H I. generalize (strip_minus (strip_last 78 s)) as b.
  intros [|z l] H I; [discriminate|].
  destruct (N.eqb_spec z 48) as [->|NE]; [|rewrite head_not_48 in H by assumption; discriminate].
  destruct l as [|x ds]; [discriminate|].
  apply andb_true_iff in H as [H _]. apply andb_true_iff in H as [H _].
  apply orb_true_iff in H as [H|H]; apply N.eqb_eq in H; subst x; [apply N1|apply N2]; apply I; right; now left.
Qed.
Lemma re_ratio_not s : ~ In 47 s -> re_ratio s = false.
Proof.
  intro NI. unfold re_ratio. destruct (split_at 47 s) as [[a b]|] eqn:S; [|reflexivity].
  apply split_at_inv in S as [-> _]. exfalso. apply NI, in_or_app. right. now left.
Qed.
Lemma split_e_In l : split_e l <> None -> In 101 l \/ In 69 l.
Proof.
  induction l as [|x t IH]; [intro H; now destruct H|]. simpl.
  destruct (N.eqb_spec x 101) as [->|]; [intros _; left; now left|].
  destruct (N.eqb_spec x 69) as [->|]; [intros _; right; now left|]. simpl.
  destruct (split_e t) as [[a b]|]; [|intro H; now destruct H]. intros _. destruct IH; [discriminate|left|right]; now right.
Qed.
Lemma re_sci_not s : ~ In 101 s -> ~ In 69 s -> re_sci s = false.
Proof.
  intros N1 N2. unfold re_sci. destruct (split_e (strip_minus s)) eqn:S; [|reflexivity].
  exfalso. assert (I : forall x, In x (strip_minus s) -> In x s).
  { intros x. destruct s as [|y t]; [intros []|]. unfold strip_minus. destruct (y =? 45); [now right|auto]. }
  destruct (split_e_In (strip_minus s)); [congruence|apply N1|apply N2]; now apply I.
Qed.
Lemma re_radix_not s : ~ In 114 s -> re_radix s = false.
Proof.
  intro NI. unfold re_radix. destruct (split_at 114 (strip_minus s)) as [[a b]|] eqn:S; [|reflexivity].
  apply split_at_inv in S as [E _]. exfalso. apply NI.
  destruct s as [|y t]; [destruct a; discriminate|]. unfold strip_minus in E.
  destruct (y =? 45); [right|]; rewrite E; apply in_or_app; right; now left.
Qed.

Section Ints.
  Variable py_float py_dec py_imag : str -> option str.
  Notation classify := (classify py_float py_dec py_imag).

  Lemma dec_Z_scan z : scan_ok (dec_Z z) = true.
  Proof.
    unfold dec_Z. destruct (dec_N_spec (Z.abs_N z)) as (_ & D & NE).
    destruct (z <? 0)%Z; [|apply digits_scan, D].
    destruct (dec_N (Z.abs_N z)) as [|c t] eqn:E; [congruence|].
    simpl in D. apply andb_true_iff in D as [Dc Dt]. destruct (digit_fact c Dc) as (_ & _ & N45 & _ & M & B).
    cbn [scan_ok]. change (45 =? 45) with true. cbv iota. rewrite B. cbn [andb].
    rewrite N45, M. cbn [andb]. apply digits_scan, Dt.
  Qed.

  Lemma dec_Z_no_suffix c z : is_digit c = false -> ends_with c (dec_Z z) = false.
  Proof.
    intros NC. unfold dec_Z. destruct (dec_N_spec (Z.abs_N z)) as (_ & D & NE).
    destruct (z <? 0)%Z; [|apply ends_with_digits; assumption].
    rewrite ends_with_cons by assumption. apply ends_with_digits; assumption.
  Qed.

  Lemma strip_minus_dec_Z z : strip_minus (dec_Z z) = dec_N (Z.abs_N z).
  Proof.
    rewrite dec_Z_split. destruct (dec_N_spec (Z.abs_N z)) as (_ & D & NE).
    destruct (dec_N (Z.abs_N z)) as [|c t]; [congruence|].
    simpl in D. apply andb_true_iff in D as [Dc _]. apply strip_minus_opt, Dc.
  Qed.

  Lemma classify_int z rest : classify (dec_Z z) rest = ROk (VInt z, rest).
  Proof.
    unfold classify, re_integer.
    rewrite (strip_last_no 78 (dec_Z z)) by (apply dec_Z_no_suffix; reflexivity).
    rewrite strip_minus_dec_Z, int_body_dec_N, py_int_dec_Z. reflexivity.
  Qed.

  Lemma dec_Z_no_slash z : forallb (fun x => negb (x =? 47)) (dec_Z z) = true.
  Proof.
    rewrite forallb_forall. intros x I. apply dec_Z_chars in I. apply negb_true_iff, N.eqb_neq. lia.
  Qed.

  Lemma digits1_dec_N n : digits1 (dec_N n) = true.
  Proof.
    destruct (dec_N_spec n) as (_ & D & NE). unfold digits1. rewrite D.
    destruct (dec_N n); [congruence|reflexivity].
  Qed.

  Lemma dec_Z_pos d : (0 < d)%Z -> dec_Z d = dec_N (Z.abs_N d).
  Proof. intro P. unfold dec_Z. destruct (Z.ltb_spec d 0); [lia|reflexivity]. Qed.

  Definition ratio_tok (n d : Z) : str := dec_Z n ++ 47 :: dec_Z d.

  Lemma ratio_scan n d : (0 < d)%Z -> scan_ok (ratio_tok n d) = true.
  Proof.
    intro P. unfold ratio_tok. apply scan_ok_app.
    - apply dec_Z_scan.
    - cbn [scan_ok]. change (47 =? 45) with false. cbv iota. change (maybe_num 47) with true. cbn [andb].
      rewrite (dec_Z_pos d P). apply digits_scan. apply (dec_N_spec (Z.abs_N d)).
    - intros t E. pose proof (dec_Z_no_suffix 45 n eq_refl) as X. rewrite E, ends_with_app_last in X. discriminate.
  Qed.

  Lemma in_ratio_slash n d : In 47 (ratio_tok n d).
  Proof. unfold ratio_tok. apply in_or_app. right. left. reflexivity. Qed.

  Lemma ratio_chars n d x : In x (ratio_tok n d) -> x = 45 \/ x = 47 \/ 48 <= x <= 57.
  Proof.
    intro I. apply in_app_or in I as [I|[<-|I]]; [|auto|]; apply dec_Z_chars in I; tauto.
  Qed.

  Lemma classify_ratio n d rest : (2 <= d)%Z -> Z.gcd n d = 1%Z ->
    classify (ratio_tok n d) rest = ROk (VRatio n d, rest).
  Proof.
    intros D2 G. assert (P : (0 < d)%Z) by lia.
    assert (NZ : n <> 0%Z).
    { intro E. subst n. rewrite Z.gcd_0_l in G. lia. }
    (* the slash is outside the alphabet of the first three regexes, and there is no x for the fourth *)
    pose proof (in_ratio_slash n d) as I.
    assert (NX : forall x, 57 < x -> ~ In x (ratio_tok n d)) by (intros x L J; apply ratio_chars in J; lia).
    unfold classify.
    rewrite (re_integer_not _ 47 I eq_refl), (re_float_not _ 47 I eq_refl), (re_octal_not _ 47 I eq_refl),
      (re_hex_not _ (NX 88 eq_refl) (NX 120 eq_refl)).
    assert (SP : split_at 47 (ratio_tok n d) = Some (dec_Z n, dec_Z d)).
    { unfold ratio_tok. apply split_at_first, dec_Z_no_slash. }
    unfold re_ratio. rewrite SP, strip_minus_dec_Z, digits1_dec_N, (dec_Z_pos d P), digits1_dec_N.
    cbn [andb]. rewrite <- (dec_Z_pos d P), !py_int_dec_Z.
    destruct (Z.eqb_spec n 0); [congruence|]. destruct (Z.eqb_spec d 0); [lia|].
    unfold mk_ratio. rewrite G, !Z.div_1_r. destruct (Z.eqb_spec d 1); [lia|]. reflexivity.
  Qed.
End Ints.
