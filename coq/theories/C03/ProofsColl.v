(** C03: byte strings, collections, maps, tagged collections and metadata, each
    GIVEN that the elements round-trip (the induction itself is in ProofsMain). *)
From Coq Require Import List ZArith Bool Lia.
Import ListNotations.
From Verif Require Import Common.ListX Gen.Tables C19.Edn C19.EdnProofs.
From Verif Require Import C03.Printer C03.ReadBack C03.Guard C03.Limits C03.ProofsBase
 C03.ProofsLeaf.
Local Open Scope N_scope.

(** * Names for the two local functions of [pr]: [Limits.mapbody_g] / [metapfx_g] without truncation
    ([idl]) and without a level test *)
Definition idl (x : list str) : list str := x.
Definition mapbody (pc : pctl) : list (value * value) -> str := mapbody_g pc idl (pr pc).
Definition metapfx (pc : pctl) : option (list (value * value)) -> str := metapfx_g pc false (mapbody pc).

Lemma pr_sym pc ns nm meta : pr pc false (VSym ns nm meta) = metapfx pc meta ++ qualified ns nm.
Proof. destruct meta; reflexivity. Qed.
Lemma pr_seq pc strip k l meta : pr pc strip (VSeq k l meta) =
  (if has_meta k then metapfx pc meta else []) ++ open_of k ++ join sp (map (pr pc false) l) ++ [close_of k].
Proof. destruct meta; reflexivity. Qed.
Lemma pr_map pc strip py m meta : pr pc strip (VMap py m meta) = (if py then t_py else metapfx pc meta) ++ mapbody pc m.
Proof. destruct meta; reflexivity. Qed.

Definition br_shape_ok (q c : N) : bool :=
  match br_char q c with
  | [x] => (x =? c) && negb ((x <? 1) || (127 <? x)) && negb (x =? 92) && negb (x =? 34)
  | [b; e] => (b =? 92) && match assoc e rd_bytes_escapes with Some r => r =? c | None => false end
  | [b; x; h1; h2] => (b =? 92) && (x =? 120) && is_none (assoc 120 rd_bytes_escapes)
                      && is_hex h1 && is_hex h2 && (16 * hexval h1 + hexval h2 =? c)
  | _ => false
  end.

Lemma br_all_34 : forallb (fun c => (c =? 34) || br_shape_ok 34 c) (map N.of_nat (seq 0 256)) = true.
Proof. rewrite forallb_of_nat_seq. vm_compute. reflexivity. Qed.
(** the quote only matters for the quote character itself *)
Lemma br_char_quote c : c <> 34 -> c <> 39 -> br_char 39 c = br_char 34 c.
Proof. intros A B. unfold br_char. apply N.eqb_neq in A, B. rewrite A, B. reflexivity. Qed.

Lemma br_shape q c : (q = 34 \/ q = 39) -> c <? 256 = true -> c <> 34 -> c <> q -> br_shape_ok q c = true.
Proof.
  intros Hq L N34 Nq. apply N.ltb_lt in L.
  pose proof (range_reflect _ 0 256 br_all_34 c) as F. cbv beta in F.
  assert (X : (c =? 34) || br_shape_ok 34 c = true) by (apply F; simpl; lia).
  apply orb_true_iff in X as [X|X]; [apply N.eqb_eq in X; congruence|].
  destruct Hq as [->| ->]; [exact X|]. unfold br_shape_ok in *. rewrite br_char_quote by assumption. exact X.
Qed.

Lemma br_char_read q c t acc : br_shape_ok q c = true ->
  read_bytes_body (br_char q c ++ t) acc = read_bytes_body t (acc ++ [c]).
Proof.
  unfold br_shape_ok. destruct (br_char q c) as [|x [|e [|h1 [|h2 [|? ?]]]]]; try discriminate; intro H.
  - apply andb_true_iff in H as [H N34]. apply andb_true_iff in H as [H N92]. apply andb_true_iff in H as [Ex R].
    apply N.eqb_eq in Ex. subst x. apply negb_true_iff in N34, N92, R.
    cbn [app read_bytes_body]. rewrite R, N92, N34. reflexivity.
  - apply andb_true_iff in H as [Eb H]. apply N.eqb_eq in Eb. subst x.
    destruct (assoc e rd_bytes_escapes) as [r|] eqn:A; [|discriminate]. apply N.eqb_eq in H. subst r.
    cbn [app read_bytes_body]. change ((92 <? 1) || (127 <? 92)) with false. change (92 =? 92) with true. cbv iota.
    rewrite A. reflexivity.
  - apply andb_true_iff in H as [H V]. apply andb_true_iff in H as [H X2]. apply andb_true_iff in H as [H X1].
    apply andb_true_iff in H as [H NA]. apply andb_true_iff in H as [Eb Ee]. apply N.eqb_eq in Eb, Ee, V. subst x e.
    cbn [app read_bytes_body]. change ((92 <? 1) || (127 <? 92)) with false. change (92 =? 92) with true. cbv iota.
    destruct (assoc 120 rd_bytes_escapes); [discriminate|]. change (120 =? 120) with true. cbv iota.
    rewrite X1, X2. cbn [andb]. rewrite V. reflexivity.
Qed.

Lemma read_bytes_repr q b : (q = 34 \/ q = 39) ->
  forallb (fun c => (c <? 256) && negb (c =? 34) && negb (c =? q)) b = true ->
  forall acc rest, read_bytes_body (flat_map (br_char q) b ++ 34 :: rest) acc = ROk (acc ++ b, rest).
Proof.
  intros Hq. induction b as [|c t IH]; intros H acc rest.
  - simpl. rewrite app_nil_r. reflexivity.
  - simpl in H. apply andb_true_iff in H as [Hc Ht]. apply andb_true_iff in Hc as [Hc Nq].
    apply andb_true_iff in Hc as [L N34]. apply negb_true_iff, N.eqb_neq in Nq, N34.
    simpl flat_map. rewrite <- app_assoc, (br_char_read q c _ acc (br_shape q c Hq L N34 Nq)), (IH Ht), <- app_assoc.
    reflexivity.
Qed.

Lemma mem_false_forall c l : mem c l = false -> forallb (fun x => negb (x =? c)) l = true.
Proof.
  unfold mem. induction l as [|x t IH]; [reflexivity|]. simpl. intro H. apply orb_false_iff in H as [A B].
  rewrite N.eqb_sym, A. simpl. apply IH, B.
Qed.

Lemma bytes_guard_quote b : bytes_ok b = true ->
  (bytes_quote b = 34 \/ bytes_quote b = 39)
  /\ forallb (fun c => (c <? 256) && negb (c =? 34) && negb (c =? bytes_quote b)) b = true.
Proof.
  unfold bytes_ok, bytes_quote. intro H. apply andb_true_iff in H as [N34 L]. apply negb_true_iff in N34.
  rewrite N34. cbn [negb]. rewrite andb_true_r. pose proof (mem_false_forall 34 b N34) as F34.
  destruct (mem 39 b) eqn:M39.
  - split; [left; reflexivity|]. rewrite forallb_forall in *. intros x I. rewrite (L x I), (F34 x I). reflexivity.
  - split; [right; reflexivity|]. pose proof (mem_false_forall 39 b M39) as F39.
    rewrite forallb_forall in *. intros x I. rewrite (L x I), (F34 x I), (F39 x I). reflexivity.
Qed.

Section Coll.
  Variable py_float py_dec py_imag py_uuid py_inst : str -> option str.
  Variable re_ok : str -> bool.
  Notation read_next := (read_next py_float py_dec py_imag py_uuid py_inst re_ok).
  Notation read_coll := (read_coll py_float py_dec py_imag py_uuid py_inst re_ok).
  Notation reads := (reads py_float py_dec py_imag py_uuid py_inst re_ok).

  Lemma reads_bytes b : bytes_ok b = true -> reads (t_bytes ++ bytes_repr_body b ++ [34]) (VBytes b) 1.
  Proof.
    intros G f rest R F. destruct f as [|f]; [lia|].
    destruct (bytes_guard_quote b G) as [Hq Hb].
    unfold bytes_repr_body. rewrite <- !app_assoc, next_bytes. simpl app.
    rewrite (read_bytes_repr _ b Hq Hb). reflexivity.
  Qed.

  Record item := Item { i_sep : str; i_text : str; i_val : value; i_sz : nat }.
  Definition elem_ok (text : str) (x : value) (sz : nat) : Prop :=
    (exists c t, text = c :: t /\ head_ok c = true) /\ reads text x sz /\ (1 <= sz)%nat.

  (** an element without its separator: the text, the value it reads as, the fuel that takes *)
  Definition elt : Type := (str * value * nat)%type.
  Definition el_text (e : elt) : str := fst (fst e).
  Definition el_val (e : elt) : value := snd (fst e).
  Definition el_sz (e : elt) : nat := snd e.
  Definition el_ok (e : elt) : Prop := elem_ok (el_text e) (el_val e) (el_sz e).
  Definition to_item (sepr : str) (e : elt) : item := Item sepr (el_text e) (el_val e) (el_sz e).

  Definition item_ok (i : item) : Prop :=
    (i_sep i = [32] \/ i_sep i = [44; 32]) /\ elem_ok (i_text i) (i_val i) (i_sz i).
  Definition body (items : list item) : str := concat (map (fun i => i_sep i ++ i_text i) items).

  Lemma drop_ws_idem l : drop_ws (drop_ws l) = drop_ws l.
  Proof. induction l as [|c t IH]; [reflexivity|]. simpl. destruct (is_ws c) eqn:W; [exact IH|]. simpl. rewrite W. reflexivity. Qed.

  Lemma read_coll_drop f close l acc : read_coll f close l acc = read_coll f close (drop_ws l) acc.
  Proof. destruct f; [reflexivity|]. cbn [ReadBack.read_coll]. rewrite drop_ws_idem. reflexivity. Qed.

  Lemma read_coll_sep f close w X acc : (w = [32] \/ w = [44; 32]) ->
    read_coll f close (w ++ X) acc = read_coll f close X acc.
  Proof.
    intros [->| ->]; rewrite (read_coll_drop f close (_ ++ X)), (read_coll_drop f close X); reflexivity.
  Qed.

  Definition is_closer (c : N) : bool := mem c [41; 93; 125].
  Lemma closer_facts' close : is_closer close = true ->
    is_ws close = false /\ rest_ok [close] = true /\ head_ok close = false.
  Proof.
    unfold is_closer. simpl. rewrite !orb_false_r. intro H.
    repeat (apply orb_true_iff in H as [H|H]); apply N.eqb_eq in H; subst; vm_compute; auto.
  Qed.

  Lemma rest_ok_body items close rest : Forall item_ok items -> is_closer close = true ->
    rest_ok (body items ++ close :: rest) = true.
  Proof.
    intros HF C. destruct items as [|i more].
    - simpl. destruct (closer_facts' close C) as (_ & R & _). exact R.
    - inversion HF as [|? ? (Hs & _) _]; subst. unfold body. simpl.
      destruct Hs as [->| ->]; reflexivity.
  Qed.

  Lemma read_coll_step f close c t acc : is_ws c = false -> (c =? close) = false ->
    read_coll (S f) close (c :: t) acc =
    bind (read_next f (c :: t)) (fun '(v, r) => read_coll f close r (acc ++ [v])).
  Proof. intros W C. cbn [ReadBack.read_coll drop_ws]. rewrite W, C. reflexivity. Qed.

  Lemma read_coll_close f close t acc : is_ws close = false ->
    read_coll (S f) close (close :: t) acc = ROk (acc, t).
  Proof. intro W. cbn [ReadBack.read_coll drop_ws]. rewrite W, N.eqb_refl. reflexivity. Qed.

  Lemma read_items items : Forall item_ok items ->
    forall f acc rest close, is_closer close = true ->
    (1 + list_sum (map i_sz items) <= f)%nat ->
    read_coll f close (body items ++ close :: rest) acc = ROk (acc ++ map i_val items, rest).
  Proof.
    induction items as [|i more IH]; intros HF f acc rest close C L.
    - destruct f as [|f]; [simpl in L; lia|]. destruct (closer_facts' close C) as (W & _).
      change (body [] ++ close :: rest) with (close :: rest). rewrite (read_coll_close f close rest acc W).
      simpl. rewrite app_nil_r. reflexivity.
    - inversion HF as [|? ? Hi Hm]; subst. destruct Hi as (Hs & (c & t & Et & HO) & Hr & Hz).
      destruct f as [|f]; [simpl in L; lia|].
      unfold body. simpl map. simpl concat. fold (body more). rewrite <- !app_assoc.
      rewrite (read_coll_sep (S f) close (i_sep i) _ acc Hs).
      pose proof (head_ok_ws c HO) as W.
      assert (CC : (c =? close) = false).
      { apply N.eqb_neq. intro X. subst c. destruct (closer_facts' close C) as (_ & _ & HN). congruence. }
      rewrite Et. simpl app. rewrite (read_coll_step f close c _ acc W CC).
      change (c :: t ++ body more ++ close :: rest) with ((c :: t) ++ body more ++ close :: rest).
      rewrite <- Et. simpl in L.
      rewrite (Hr f (body more ++ close :: rest) (rest_ok_body more close rest Hm C)) by lia.
      cbn [bind]. rewrite (IH Hm f (acc ++ [i_val i]) rest close C) by lia.
      rewrite <- app_assoc. reflexivity.
  Qed.

  Lemma join_body sepr (texts : list str) : texts <> [] ->
    sepr ++ join sepr texts = concat (map (fun t => sepr ++ t) texts).
  Proof.
    induction texts as [|x t IH]; [congruence|]. intros _. destruct t as [|y t'].
    - simpl. rewrite !app_nil_r. reflexivity.
    - change (join sepr (x :: y :: t')) with (x ++ sepr ++ join sepr (y :: t')).
      rewrite IH by discriminate. simpl. rewrite <- !app_assoc. reflexivity.
  Qed.

  Lemma read_coll_join f close (items : list item) rest acc sepr :
    (sepr = [32] \/ sepr = [44; 32]) -> Forall (fun i => i_sep i = sepr) items ->
    read_coll f close (join sepr (map i_text items) ++ close :: rest) acc =
    read_coll f close (body items ++ close :: rest) acc.
  Proof.
    intros Hs HF. destruct items as [|i more]; [reflexivity|].
    rewrite <- (read_coll_sep f close sepr (join sepr _ ++ _) acc Hs), app_assoc.
    rewrite join_body by discriminate. f_equal. f_equal. unfold body. rewrite map_map.
    clear - HF. induction HF as [|j l E _ IH]; [reflexivity|]. simpl. rewrite E, IH. reflexivity.
  Qed.

  Definition plain_kind (k : skind) : bool := match k with KList | KVec | KSet => true | _ => false end.

  Lemma next_open f k X : plain_kind k = true ->
    read_next (S f) (open_of k ++ X) = bind (read_coll f (close_of k) X []) (fun '(vs, r) => ROk (VSeq k vs None, r)).
  Proof. destruct k; try discriminate; reflexivity. Qed.

  Lemma reads_plain_seq k (l : list (str * value * nat)) : plain_kind k = true ->
    Forall el_ok l ->
    reads (open_of k ++ join sp (map el_text l) ++ [close_of k]) (VSeq k (map el_val l) None) (2 + list_sum (map el_sz l)).
  Proof.
    intros PK HF f rest R L. destruct f as [|f]; [lia|].
    rewrite <- !app_assoc. rewrite (next_open f k _ PK). simpl app.
    set (items := map (to_item [32]) l).
    assert (T : map el_text l = map i_text items) by (unfold items; rewrite map_map; reflexivity).
    assert (V : map el_val l = map i_val items) by (unfold items; rewrite map_map; reflexivity).
    assert (Z : map el_sz l = map i_sz items) by (unfold items; rewrite map_map; reflexivity).
    assert (OK : Forall item_ok items).
    { unfold items. clear - HF. induction HF as [|e l (Hh & Hr & Hz) _ IH]; [constructor|].
      simpl. constructor; [|exact IH]. repeat split; auto. }
    assert (SP : Forall (fun i => i_sep i = sp) items).
    { unfold items. clear. induction l; simpl; constructor; auto. }
    rewrite T, (read_coll_join f (close_of k) items rest [] sp (or_introl eq_refl) SP).
    rewrite (read_items items OK f [] rest (close_of k)); [|destruct k; try discriminate; reflexivity|rewrite <- Z; lia].
    rewrite V. reflexivity.
  Qed.

  Lemma pairs_of_flat (m : list (value * value)) :
    pairs_of (concat (map (fun kv => [fst kv; snd kv]) m)) = Some m.
  Proof. induction m as [|[k v] m IH]; [reflexivity|]. simpl. simpl in IH. rewrite IH. reflexivity. Qed.

  Lemma next_map f X : read_next (S f) (123 :: X) = bind (read_coll f 125 X []) (fun '(vs, r) => finish_map None vs r).
  Proof. reflexivity. Qed.

  Definition entry : Type := (elt * elt)%type.
  Definition e_text (e : entry) : str := el_text (fst e) ++ 32 :: el_text (snd e).
  Definition e_items (e : entry) : list item :=
    [to_item comma_sp (fst e); to_item sp (snd e)].
  Definition e_ok (e : entry) : Prop :=
    el_ok (fst e) /\ el_ok (snd e).
  Definition e_pair (e : entry) : value * value := (el_val (fst e), el_val (snd e)).
  Definition e_sz (e : entry) : nat := (el_sz (fst e) + el_sz (snd e))%nat.

  Lemma read_entries f (es : list entry) rest acc : Forall e_ok es ->
    (1 + list_sum (map e_sz es) <= f)%nat ->
    read_coll f 125 (join comma_sp (map e_text es) ++ 125 :: rest) acc =
    ROk (acc ++ concat (map (fun kv => [fst kv; snd kv]) (map e_pair es)), rest).
  Proof.
    intros HF L.
    set (items := concat (map e_items es)).
    assert (OK : Forall item_ok items).
    { unfold items. clear - HF. induction HF as [|e l ((Hh1 & Hr1 & Hz1) & (Hh2 & Hr2 & Hz2)) _ IH]; [constructor|].
      simpl. constructor; [|constructor; [|exact IH]].
      - repeat split; auto.
      - repeat split; auto. }
    assert (B : forall X, read_coll f 125 (join comma_sp (map e_text es) ++ X) acc = read_coll f 125 (body items ++ X) acc).
    { intro X. destruct es as [|e more]; [reflexivity|].
      rewrite <- (read_coll_sep f 125 comma_sp (join comma_sp _ ++ _) acc (or_intror eq_refl)), app_assoc.
      rewrite join_body by discriminate. f_equal. f_equal. unfold items, body. clear.
      generalize (e :: more) as l0. intro l0.
      induction l0 as [|x l IH]; [reflexivity|]. simpl. simpl in IH. rewrite IH. unfold e_text, comma_sp, sp.
      simpl. rewrite <- !app_assoc. reflexivity. }
    rewrite B. rewrite (read_items items OK f acc rest 125 eq_refl).
    - f_equal. f_equal. f_equal. unfold items. clear. induction es as [|e l IH]; [reflexivity|]. simpl. rewrite IH. reflexivity.
    - assert (Z : list_sum (map i_sz items) = list_sum (map e_sz es)).
      { unfold items. clear. induction es as [|e l IH]; [reflexivity|]. simpl. rewrite IH. unfold e_sz. lia. }
      rewrite Z. exact L.
  Qed.

  Lemma reads_plain_map (es : list entry) : Forall e_ok es ->
    reads (123 :: join comma_sp (map e_text es) ++ [125]) (VMap false (map e_pair es) None)
          (2 + list_sum (map e_sz es)).
  Proof.
    intros HF f rest R L. destruct f as [|f]; [lia|]. simpl app. rewrite next_map, <- app_assoc. simpl app.
    rewrite (read_entries f es rest [] HF) by lia. simpl app. cbn [bind]. unfold finish_map.
    rewrite pairs_of_flat. reflexivity.
  Qed.

  (** with namespace prefix [n] the entries read are those of the stripped keys *)
  Lemma reads_ns_map (n : str) (es : list entry) : name_ok n = true -> Forall e_ok es ->
    reads (35 :: 58 :: n ++ 123 :: join comma_sp (map e_text es) ++ [125])
          (VMap false (map (fun kv => (ns_key n (fst kv), snd kv)) (map e_pair es)) None)
          (2 + list_sum (map e_sz es)).
  Proof.
    intros Hn HF f rest R L. destruct f as [|f]; [lia|].
    destruct (name_ok_inv n Hn) as (c & t & E & D & S & Sc). destruct (safe_kind c Sc) as (_ & _ & N58).
    set (X := join comma_sp (map e_text es) ++ [125]).
    assert (RN : read_namespaced Lisp (n ++ 123 :: X ++ rest) = ROk ((None, n), 123 :: X ++ rest)).
    { change (n ++ 123 :: X ++ rest) with (qualified None n ++ 123 :: X ++ rest).
      apply read_namespaced_qualified; [exact Hn|reflexivity|]. simpl. reflexivity. }
    simpl app. rewrite <- app_assoc. simpl app.
    rewrite next_nsmap.
    assert (SW : starts_with 58 (n ++ 123 :: X ++ rest) = false).
    { rewrite E. simpl. apply N.eqb_neq. exact N58. }
    rewrite SW, RN. cbn [bind]. cbn [drop_ws]. change (is_ws 123) with false. cbv iota.
    unfold X. rewrite <- app_assoc. simpl app.
    rewrite (read_entries f es rest [] HF) by lia. simpl app. cbn [bind]. unfold finish_map.
    rewrite pairs_of_flat. reflexivity.
  Qed.

  Lemma py_tag_facts : name_ok t_s_py = true /\ reserved t_s_py = false
    /\ str_eqb t_s_py [98] = false /\ str_eqb t_s_py [102] = false.
  Proof. repeat split; reflexivity. Qed.

  Lemma reads_py text inner outer sz : headed text ->
    reads text inner sz -> py_from_lisp inner = ROk outer -> reads (t_py ++ text) outer (S sz).
  Proof. intros HH HR PY. apply (reads_tagged t_s_py text inner); [simpl; auto|assumption..]. Qed.

  (** every kind of sequence is one of the three bracketed ones behind an optional tag *)
  Definition inner (k : skind) : skind :=
    match k with KList | KQueue | KPyTuple => KList | KVec | KPyList => KVec | KSet | KPySet => KSet end.
  Definition tagtxt (k : skind) : str :=
    match k with KQueue => t_queue | KPyList | KPyTuple | KPySet => t_py | _ => [] end.
  Lemma open_inner k : open_of k = tagtxt k ++ open_of (inner k).
  Proof. destruct k; reflexivity. Qed.
  Lemma close_inner k : close_of k = close_of (inner k).
  Proof. destruct k; reflexivity. Qed.
  Lemma inner_plain k : plain_kind (inner k) = true.
  Proof. destruct k; reflexivity. Qed.
  Lemma headed_tag k text : headed text -> headed (tagtxt k ++ text).
  Proof. destruct k; intro H; solve [exact H|apply headed_b; reflexivity]. Qed.

  Lemma reads_wrapped k text l sz : headed text -> reads text (VSeq (inner k) l None) sz ->
    reads (tagtxt k ++ text) (VSeq k l None) (S sz).
  Proof.
    intros HH HR. destruct k; cbn [tagtxt inner] in *.
    1-3: exact (reads_mono _ _ _ _ (Nat.le_succ_diag_r sz) HR).
    - eapply (reads_tagged t_s_queue); [simpl; auto|exact HH|exact HR|reflexivity].
    - eapply reads_py; [exact HH|exact HR|reflexivity].
    - eapply reads_py; [exact HH|exact HR|reflexivity].
    - eapply reads_py; [exact HH|exact HR|reflexivity].
  Qed.

  Lemma reads_meta mtext mm ctext core v szm szc :
    headed mtext -> headed ctext ->
    reads mtext (VMap false mm None) szm -> reads ctext core szc -> attach_meta mm core = ROk v ->
    reads (94 :: mtext ++ [32] ++ ctext) v (S (szm + szc)).
  Proof.
    intros (c1 & t1 & E1 & H1) (c2 & t2 & E2 & H2) HM HC AT f rest R F. destruct f as [|f]; [lia|].
    simpl app. rewrite <- !app_assoc. simpl app.
    assert (R1 : rest_ok (32 :: ctext ++ rest) = true) by reflexivity.
    rewrite next_meta.
    rewrite E1. simpl app. rewrite (drop_ws_head c1 _ (head_ok_ws c1 H1)).
    change (c1 :: t1 ++ 32 :: ctext ++ rest) with ((c1 :: t1) ++ 32 :: ctext ++ rest). rewrite <- E1.
    rewrite (HM f _ R1) by lia. cbn [bind]. cbn [drop_ws]. change (is_ws 32) with true. cbv iota.
    rewrite E2. simpl app. rewrite (drop_ws_head c2 _ (head_ok_ws c2 H2)).
    change (c2 :: t2 ++ rest) with ((c2 :: t2) ++ rest). rewrite <- E2.
    rewrite (HC f rest R) by lia. cbn [bind]. rewrite AT. reflexivity.
  Qed.
End Coll.
Arguments reads_py {_ _ _ _ _ _}.
Arguments reads_meta {_ _ _ _ _ _}.
Arguments reads_ns_map {_ _ _ _ _ _}.
Arguments reads_plain_map {_ _ _ _ _ _}.
