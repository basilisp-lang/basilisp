(** C03: the witnesses, table obligations and refutations stated in Properties/C03.v. *)
From Coq Require Import List ZArith Bool Lia.
Import ListNotations.
From Verif Require Import Gen.Tables C19.Edn.
From Verif Require Import C03.Corr.
Local Open Scope N_scope.

(** * The guard is inhabited by a value using every constructor *)
Definition idf (t : str) : option str := Some t.
Definition yes (t : str) : bool := true.
Definition sample_meta : option (list (value * value)) := Some [(VKw None [97], VInt 1)].
Definition sample : value :=
  VSeq KVec
    [VNil; VBool true; VInt (-5); VRatio (-7) 2; VFloat (FTok [49; 101; 43; 50; 51]); VFloat FNaN;
     VDec [49; 46; 53; 48]; VImag [49; 46; 53]; VStr [34; 92; 233; 20013; 97];
     VKw (Some [120; 46; 121]) [107]; VSym None [45; 97] sample_meta;
     VSeq KQueue [VNil] sample_meta; VSeq KList [] None; VSeq KSet [VInt 1] None;
     VSeq KPyList [VSeq KPyTuple [VInt 1] None; VSeq KPySet [] None] None;
     VMap false [(VKw (Some [120]) [97], VInt 1); (VSym (Some [120]) [98] None, VStr [])] sample_meta;
     VMap true [(VStr [107], VInt 2)] None;
     VTag 0 [56; 49; 102]; VTag 1 [50; 48]; VRegex [97; 43]; VBytes [0; 255; 39; 92; 65]]
    sample_meta.
Definition pc_all : pctl := PC true true true true.

Lemma sample_guard : guard yes yes yes yes yes yes pc_all sample = true.
Proof. vm_compute. reflexivity. Qed.

Lemma sample_reads : read_text idf idf idf idf idf yes (print pc_all sample) = ROk [sample].
Proof. vm_compute. reflexivity. Qed.

(** * Table obligations (reflective: a changed table breaks exactly these) *)
Definition delim_of (name : str) : option (str * str) := assoc_str name pr_delims.
Definition n_list : str := [80; 101; 114; 115; 105; 115; 116; 101; 110; 116; 76; 105; 115; 116].
Definition n_vector : str := [80; 101; 114; 115; 105; 115; 116; 101; 110; 116; 86; 101; 99; 116; 111; 114].
Definition n_set : str := [80; 101; 114; 115; 105; 115; 116; 101; 110; 116; 83; 101; 116].
Definition n_queue : str := [80; 101; 114; 115; 105; 115; 116; 101; 110; 116; 81; 117; 101; 117; 101].
Definition n_map : str := [80; 101; 114; 115; 105; 115; 116; 101; 110; 116; 77; 97; 112].
Definition n_py_list : str := [95; 108; 114; 101; 112; 114; 95; 112; 121; 95; 108; 105; 115; 116].
Definition n_py_tuple : str := [95; 108; 114; 101; 112; 114; 95; 112; 121; 95; 116; 117; 112; 108; 101].
Definition n_py_set : str := [95; 108; 114; 101; 112; 114; 95; 112; 121; 95; 115; 101; 116].
Definition n_py_dict : str := [95; 108; 114; 101; 112; 114; 95; 112; 121; 95; 100; 105; 99; 116].
Definition delim_eqb (o : option (str * str)) (a : str) (b : N) : bool :=
  match o with Some (x, y) => str_eqb x a && str_eqb y [b] | None => false end.
Definition delims_ok : bool :=
  delim_eqb (delim_of n_list) (open_of KList) (close_of KList)
  && delim_eqb (delim_of n_vector) (open_of KVec) (close_of KVec)
  && delim_eqb (delim_of n_set) (open_of KSet) (close_of KSet)
  && delim_eqb (delim_of n_queue) (open_of KQueue) (close_of KQueue)
  && delim_eqb (delim_of n_map) [123] 125
  && delim_eqb (delim_of n_py_list) (open_of KPyList) (close_of KPyList)
  && delim_eqb (delim_of n_py_tuple) (open_of KPyTuple) (close_of KPyTuple)
  && delim_eqb (delim_of n_py_set) (open_of KPySet) (close_of KPySet)
  && delim_eqb (delim_of n_py_dict) (t_py ++ [123]) 125.
Lemma table_delims : delims_ok = true.
Proof. vm_compute. reflexivity. Qed.

Definition fstr_of (name : str) : option (list str) := assoc_str name pr_fstrings.
Definition n_f_bytes : str := [95; 108; 114; 101; 112; 114; 95; 98; 121; 116; 101; 115].
Definition n_f_datetime : str := [95; 108; 114; 101; 112; 114; 95; 100; 97; 116; 101; 116; 105; 109; 101].
Definition n_f_uuid : str := [95; 108; 114; 101; 112; 114; 95; 117; 117; 105; 100].
Definition n_f_pattern : str := [95; 108; 114; 101; 112; 114; 95; 112; 97; 116; 116; 101; 114; 110].
Definition n_f_fraction : str := [95; 108; 114; 101; 112; 114; 95; 102; 114; 97; 99; 116; 105; 111; 110].
Definition n_f_decimal : str := [95; 108; 114; 101; 112; 114; 95; 100; 101; 99; 105; 109; 97; 108].
Definition fstr_eqb (o : option (list str)) (l : list str) : bool :=
  match o with Some x => list_eqb str_eqb x l | None => false end.
Definition fstrings_ok : bool :=
  fstr_eqb (fstr_of n_f_bytes) [t_bytes; [34]]
  && fstr_eqb (fstr_of n_f_datetime) [t_inst; [34]]
  && fstr_eqb (fstr_of n_f_uuid) [t_uuid; [34]]
  && fstr_eqb (fstr_of n_f_pattern) [[35; 34]; [34]]
  && fstr_eqb (fstr_of n_f_fraction) [[]; [47]; []]
  && fstr_eqb (fstr_of n_f_decimal) [[]; [77]].
Lemma table_fstrings : fstrings_ok = true.
Proof. vm_compute. reflexivity. Qed.

Lemma table_special_floats :
  list_eqb str_eqb pr_special_floats [t_inf; t_ninf; t_nan] = true
  /\ str_eqb (fst pr_separators) sp = true /\ str_eqb (snd pr_separators) comma_sp = true.
Proof. vm_compute. repeat split; reflexivity. Qed.

(** the reader's constants: ## names, whitespace class, token terminators, \u lengths *)
Fixpoint in_ranges (c : N) (r : list (N * N)) : bool :=
  match r with [] => false | (lo, hi) :: t => ((lo <=? c) && (c <=? hi)) || in_ranges c t end.
Definition ws_agree (c : N) : bool := Bool.eqb (is_ws c) ((c =? 44) || in_ranges c rd_uc_space).

(** where either side sees white space *)
Lemma ws_where c : is_ws c || ((c =? 44) || in_ranges c rd_uc_space) = true ->
  c <= 160 \/ c = 5760 \/ 8192 <= c <= 8287 \/ c = 12288.
Proof.
  unfold is_ws. cbn [in_ranges rd_uc_space]. intro H.
  repeat (apply orb_true_iff in H as [H|H]); try discriminate;
    try (apply andb_true_iff in H as [H H']; apply N.leb_le in H, H'); try apply N.eqb_eq in H; lia.
Qed.

(** the two agree on EVERY code point: only those four stretches are evaluated, elsewhere both say no *)
Lemma ws_agree_all c : ws_agree c = true.
Proof.
  assert (S : forall_from ws_agree 0 161 && forall_from ws_agree 5760 1 && forall_from ws_agree 8192 96
              && forall_from ws_agree 12288 1 = true) by (vm_compute; reflexivity).
  apply andb_true_iff in S as [S S4]. apply andb_true_iff in S as [S S3]. apply andb_true_iff in S as [S1 S2].
  destruct (is_ws c || ((c =? 44) || in_ranges c rd_uc_space)) eqn:W.
  - destruct (ws_where c W) as [R|[R|[R|R]]];
      [apply (forall_from_spec _ _ _ S1)|apply (forall_from_spec _ _ _ S2)|apply (forall_from_spec _ _ _ S3)
      |apply (forall_from_spec _ _ _ S4)]; simpl; lia.
  - apply orb_false_iff in W as [A B]. unfold ws_agree. rewrite A, B. reflexivity.
Qed.

(** the sweep as Properties/C03.v states it: 12400 is past the last white-space character, 12288 *)
Lemma table_whitespace : forallb ws_agree (map N.of_nat (seq 0 (Nat.mul 124 100))) = true.
Proof. apply forallb_forall. intros c _. apply ws_agree_all. Qed.

Definition terminators_ok : bool :=
  forallb (fun kv => Bool.eqb (mem (fst kv) lisp_dispatch_chars) (negb (mem (fst kv) rd_ns_term_exempt))) rd_dispatch
  && forallb (fun c => mem c (map fst rd_dispatch)) lisp_dispatch_chars.
Lemma table_terminators : terminators_ok = true.
Proof. vm_compute. reflexivity. Qed.

Lemma table_reader_consts :
  assoc_str [73; 110; 102] rd_numeric_constants = Some 1
  /\ assoc_str [45; 73; 110; 102] rd_numeric_constants = Some 2
  /\ assoc_str [78; 97; 78] rd_numeric_constants = Some 0
  /\ rd_unicode_lens = [4; 8]
  /\ forallb (fun kv => match assoc (fst kv) rd_bytes_escapes with Some r => r =? snd kv | None => false end)
             rd_str_escapes = true.
Proof. vm_compute. repeat split; reflexivity. Qed.

(** print settings: the defaults claim readability *)
Lemma table_print_defaults :
  assoc_str [80; 82; 73; 78; 84; 95; 82; 69; 65; 68; 65; 66; 76; 89] pr_print_defaults = Some 1
  /\ assoc_str [80; 82; 73; 78; 84; 95; 76; 69; 78; 71; 84; 72] pr_print_defaults = Some 0
  /\ assoc_str [80; 82; 73; 78; 84; 95; 76; 69; 86; 69; 76] pr_print_defaults = Some 0.
Proof. vm_compute. repeat split; reflexivity. Qed.

(** * Refutations.  Each witness is a case of the correspondence run (and of known_findings.json):
    the model of the code as it is violates the property's spec on it. *)
Definition violates (c : case) : Prop := spec_ok c (model c) = false.

(** F-03a / F-03b (fixed by fixes/C03-str-printer-literal.patch): the former string printer,
    unicode_escape + requoting, is not inverted by the string reader *)
Lemma legacy_escape_refuted :
  read_str_body false (escape_legacy [31] ++ [34]) [] = RErr 1                (* \x1f : unknown escape *)
  /\ read_str_body false (escape_legacy [233] ++ [34]) [] = RErr 1            (* \xe9 *)
  /\ read_str_body false (escape_legacy [20013; 97] ++ [34]) [] = RErr 1      (* 中a : five hex digits *)
  /\ read_str_body false (escape_legacy [20013; 45] ++ [34]) [] = ROk ([20013; 45], []).
Proof. vm_compute. repeat split; reflexivity. Qed.

Definition w_regex_backslash : case := Case 0 pc_default lim_nil (VRegex [92; 115]) [] [].
Definition w_regex_quote : case := Case 0 pc_default lim_nil (VRegex [97; 34; 98]) [] [].
Lemma regex_refuted : violates w_regex_backslash /\ violates w_regex_quote
  /\ model w_regex_backslash = OOk [35; 34; 92; 92; 115; 34] 1 (VRegex [92; 92; 115]) 0 true.
Proof. vm_compute. repeat split; reflexivity. Qed.

Definition w_bytes_quote : case := Case 0 pc_default lim_nil (VBytes [34]) [] [].
Lemma bytes_quote_refuted : violates w_bytes_quote.
Proof. vm_compute. reflexivity. Qed.

Definition w_imag_exp : case := Case 0 pc_default lim_nil (VImag [49; 69; 43; 49; 54]) [] [].
Definition w_imag_negzero : case := Case 0 pc_default lim_nil (VImag [45; 48]) [([106; 45; 48], [48])] [].
Lemma imag_refuted : violates w_imag_exp /\ violates w_imag_negzero.
Proof. vm_compute. split; reflexivity. Qed.

Definition w_kw_space : case := Case 0 pc_default lim_nil (VKw None [97; 32; 98]) [] [].
Definition w_sym_empty : case := Case 0 pc_default lim_nil (VSym None [] None) [] [].
Definition w_sym_digit : case := Case 0 pc_default lim_nil (VSym None [49; 97] None) [] [].
Definition w_sym_nil : case := Case 0 pc_default lim_nil (VSym None [110; 105; 108] None) [] [].
Definition w_sym_gensym : case := Case 0 pc_default lim_nil (VSym None [97; 35] None) [] [].
Definition w_kw_slash : case := Case 0 pc_default lim_nil (VKw None [97; 47; 98]) [] [].
Lemma names_refuted :
  violates w_kw_space /\ violates w_sym_empty /\ violates w_sym_digit /\ violates w_sym_nil
  /\ violates w_sym_gensym /\ violates w_kw_slash.
Proof. vm_compute. repeat split; reflexivity. Qed.

Definition w_dec_nan : case := Case 0 (PC true false false true) lim_nil (VDecS FNaN) [] [].
Lemma dec_special_refuted : violates w_dec_nan.
Proof. vm_compute. reflexivity. Qed.

Definition w_nsmap_nil : case :=
  Case 0 (PC false false true true) lim_nil (VMap false [(VSym (Some [120]) [110; 105; 108] None, VInt 1)] None) [] [].
Lemma nsmap_refuted : violates w_nsmap_nil.
Proof. vm_compute. reflexivity. Qed.

Definition w_meta_reprint : case := Case 0 (PC false true false true) lim_nil (VSeq KVec [] None) [] [].
Lemma meta_reprint_refuted : violates w_meta_reprint.
Proof. vm_compute. reflexivity. Qed.

Definition w_eofthrow : case := Case 1 pc_default lim_nil (VKw None kw_eofthrow) [] [].
Lemma eofthrow_refuted : violates w_eofthrow /\ model w_eofthrow = OReadErr (58 :: kw_eofthrow) 2.
Proof. vm_compute. split; reflexivity. Qed.

(** 10^4300 has 14285 bits.  The kernel's evaluation of such a power is slow, so none is evaluated: with the
    exponents cut along 485/146 < log2 10 < 196/59 (two convergents of log2 10) no power above 2^490 is compared. *)
Lemma pow_chunk_lt a b p q r s m : m <> 0 -> a ^ p < b ^ q -> a ^ r < b ^ s -> a ^ (p * m + r) < b ^ (q * m + s).
Proof.
  intros M H1 H2. rewrite !N.pow_add_r, !N.pow_mul_r.
  apply N.mul_lt_mono; [apply N.pow_lt_mono_l; assumption|assumption].
Qed.

Lemma pow10_4300 : 2 ^ 14284 < 10 ^ 4300 < 2 ^ 14285.
Proof.
  split.
  - apply (pow_chunk_lt 2 10 485 146 219 66 29); [discriminate|reflexivity|reflexivity].
  - apply (pow_chunk_lt 10 2 59 196 52 173 72); [discriminate|reflexivity|reflexivity].
Qed.

Lemma size_decides T k n : 2 ^ k < T -> T < 2 ^ N.succ k ->
  (if N.size n <=? k then false else if N.succ (N.succ k) <=? N.size n then true else T <=? n) = (T <=? n).
Proof.
  intros P1 P2. pose proof (N.size_gt n) as Sg. pose proof (N.size_le n) as Sl. rewrite N.succ_double_spec in Sl.
  destruct (N.leb_spec (N.size n) k) as [L|L].
  - symmetry. apply N.leb_gt. apply (N.pow_le_mono_r 2) in L; [|discriminate]. lia.
  - destruct (N.leb_spec (N.succ (N.succ k)) (N.size n)) as [L2|L2]; [|reflexivity].
    symmetry. apply N.leb_le. apply (N.pow_le_mono_r 2) in L2; [|discriminate]. rewrite N.pow_succ_r' in L2. lia.
Qed.

(** the 4300-digit test of the model is "10^4300 <= |z|" *)
Lemma int_too_long_spec z : int_too_long z = (10 ^ 4300 <=? Z.abs_N z).
Proof. exact (size_decides (10 ^ 4300) 14284 (Z.abs_N z) (proj1 pow10_4300) (proj2 pow10_4300)). Qed.

(** F-03e: any integer over the limit is refused by the printer; the witness is the smallest one *)
Lemma long_int_refuted z : int_too_long z = true ->
  let c := Case 0 pc_default lim_nil (VInt z) [] [] in violates c /\ model c = OPrintErr 2.
Proof.
  intros H c.
  assert (M : model c = OPrintErr 2) by (unfold c, model; cbn [vexists long_int]; rewrite H; reflexivity).
  split; [unfold violates; rewrite M; reflexivity|exact M].
Qed.

Definition w_int_limit : case := Case 0 pc_default lim_nil (VInt (10 ^ 4300)) [] [].
Lemma int_limit_refuted : violates w_int_limit /\ model w_int_limit = OPrintErr 2.
Proof.
  apply long_int_refuted. rewrite int_too_long_spec.
  change (10 ^ 4300)%Z with (Z.of_N 10 ^ Z.of_N 4300)%Z. rewrite <- N2Z.inj_pow, Zabs2N.id. apply N.leb_refl.
Qed.

(** the model prescribes that two printings of one value agree *)
Lemma print_deterministic_model : forall c,
  match model c with OOk _ _ _ _ det => det = true | _ => True end.
Proof.
  intros [via pc lim v orc badre]. unfold model. destruct (vexists long_int v); [exact I|].
  destruct (read_text _ _ _ _ _ _ _) as [[|b r]| |]; try exact I.
  destruct ((via =? 1) && value_eqb false b (VKw None kw_eofthrow)); [exact I|reflexivity].
Qed.
