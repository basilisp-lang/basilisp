(** C03: from the executable grammars ([repr_grammar], [dec_grammar],
    [imag_plain]) to the shapes of ProofsFloat, the scanner condition, and imaginary numbers. *)
From Coq Require Import List ZArith Bool Lia.
Import ListNotations.
From Verif Require Import Common.ListX C19.Bencode C19.Edn C19.EdnProofs.
From Verif Require Import C03.Printer C03.ReadBack C03.Guard C03.ProofsNum C03.ProofsFloat.
Local Open Scope N_scope.

Lemma sign_split tok : exists sg, is_sign sg /\ tok = sg ++ strip_minus tok.
Proof.
  exists (opt_minus (starts_with 45 tok)). split; [destruct (starts_with 45 tok); [right|left]; reflexivity|].
  apply strip_minus_split.
Qed.

Lemma one_digit_inv l : one_digit l = true -> exists d, l = [d] /\ is_digit d = true.
Proof. destruct l as [|d [|? ?]]; try discriminate. simpl. eauto. Qed.

(** [repr_grammar] and [dec_grammar] are one grammar: [x] is the exponent letter, [dot] says that a text
    without exponent needs a fraction, [dsok] is the test of the exponent digits *)
Definition num_grammar (x : N) (dot : bool) (dsok : str -> bool) (tok : str) : bool :=
  let b := strip_minus tok in
  match split_at x b with
  | None =>
      match split_at 46 b with
      | Some (ip, fp) => int_body ip && digits1 fp
      | None => negb dot && int_body b
      end
  | Some (m, e) =>
      (match split_at 46 m with
       | Some (ip, fp) => one_digit ip && digits1 fp
       | None => one_digit m
       end)
      && match e with
         | s :: ds => ((s =? 43) || (s =? 45)) && dsok ds
         | [] => false
         end
  end.
Lemma repr_num tok :
  repr_grammar tok = num_grammar 101 true (fun ds => forallb is_digit ds && (2 <=? length ds)%nat) tok.
Proof.
  unfold repr_grammar, num_grammar. destruct (split_at 101 _) as [[m [|s ds]]|]; try reflexivity.
  rewrite (andb_assoc (_ || _)). reflexivity.
Qed.
Lemma dec_num tok : dec_grammar tok = num_grammar 69 false digits1 tok.
Proof. reflexivity. Qed.

Definition noexp_shape (dot : bool) (tok : str) : Prop :=
  exists sg ip fr, is_sign sg /\ tok = sg ++ ip ++ fr /\ int_body ip = true /\ is_frac fr /\ (dot = true -> fr <> []).
Definition exp_shape (x : N) (tok : str) : Prop :=
  exists sg d0 fr es ds, is_sign sg /\ tok = sg ++ (d0 :: fr) ++ x :: es :: ds /\ is_digit d0 = true /\ is_frac fr
                         /\ is_es es /\ digits1 ds = true.

Lemma num_grammar_shape x dot dsok tok : (forall ds, dsok ds = true -> digits1 ds = true) ->
  num_grammar x dot dsok tok = true -> noexp_shape dot tok \/ exp_shape x tok.
Proof.
  unfold num_grammar. intros DS H. destruct (sign_split tok) as (sg & Hs & E).
  destruct (split_at x (strip_minus tok)) as [[m e]|] eqn:SE.
  - right. destruct (split_at_inv _ _ _ _ SE) as [EB _]. apply andb_true_iff in H as [Hm He].
    destruct e as [|es ds]; [discriminate|]. apply andb_true_iff in He as [Hes Dd]. apply DS in Dd.
    assert (Es : is_es es).
    { apply orb_true_iff in Hes as [X|X]; apply N.eqb_eq in X; [left|right]; exact X. }
    assert (M : exists d0 fr, m = d0 :: fr /\ is_digit d0 = true /\ is_frac fr).
    { destruct (split_at 46 m) as [[ip fp]|] eqn:SD.
      - destruct (split_at_inv _ _ _ _ SD) as [-> _]. apply andb_true_iff in Hm as [Ho Df].
        destruct (one_digit_inv ip Ho) as (d0 & -> & Dd0). exists d0, (46 :: fp). repeat split; auto. right. eauto.
      - destruct (one_digit_inv m Hm) as (d0 & -> & Dd0). exists d0, []. repeat split; auto. left. reflexivity. }
    destruct M as (d0 & fr & -> & Dd0 & Hf). exists sg, d0, fr, es, ds. repeat split; auto.
    rewrite E at 1. rewrite EB. reflexivity.
  - left. destruct (split_at 46 (strip_minus tok)) as [[ip fp]|] eqn:SD.
    + destruct (split_at_inv _ _ _ _ SD) as [EB _]. apply andb_true_iff in H as [Hi Df].
      exists sg, ip, (46 :: fp). repeat split; auto; [rewrite E at 1; rewrite EB; reflexivity|right; eauto|discriminate].
    + apply andb_true_iff in H as [ND Hi]. exists sg, (strip_minus tok), []. repeat split; auto.
      * rewrite app_nil_r. exact E.
      * left. reflexivity.
      * intros ->. discriminate.
Qed.

(** a character the scanner of [_read_num] takes without looking at what follows it *)
Definition nodash_char (c : N) : bool := maybe_num c && negb (c =? 45).

Lemma scan_nodash l : forallb nodash_char l = true -> scan_ok l = true.
Proof.
  induction l as [|c t IH]; [reflexivity|]. intro H. simpl in H. apply andb_true_iff in H as [Hc Ht].
  unfold nodash_char in Hc. apply andb_true_iff in Hc as [M N45]. apply negb_true_iff in N45.
  simpl. rewrite N45, M, (IH Ht). reflexivity.
Qed.

Lemma digit_nodash c : is_digit c = true -> nodash_char c = true.
Proof. intro D. destruct (digit_fact c D) as (_ & _ & N45 & _ & M & _). unfold nodash_char. rewrite M, N45. reflexivity. Qed.

Lemma digits_nodash l : forallb is_digit l = true -> forallb nodash_char l = true.
Proof. intro D. rewrite forallb_forall in *. intros x I. apply digit_nodash, D, I. Qed.

Lemma frac_nodash fr : is_frac fr -> forallb nodash_char fr = true.
Proof.
  intros [->|(fp & -> & D)]; [reflexivity|]. destruct (digits1_inv fp D) as [Df _].
  simpl. change (nodash_char 46) with true. apply digits_nodash, Df.
Qed.

Lemma scan_ok_cons_minus c l : scan_ok (45 :: c :: l) = begin_num c && scan_ok (c :: l).
Proof. reflexivity. Qed.

Lemma scan_sign sg c t : is_sign sg -> is_digit c = true -> scan_ok (c :: t) = true -> scan_ok (sg ++ c :: t) = true.
Proof.
  intros [->| ->] D S; [exact S|]. simpl app. rewrite scan_ok_cons_minus.
  destruct (digit_fact c D) as (_ & _ & _ & _ & _ & B). rewrite B. exact S.
Qed.

Lemma scan_noexp sg ip fr : is_sign sg -> int_body ip = true -> is_frac fr -> scan_ok (sg ++ ip ++ fr) = true.
Proof.
  intros Hs Hi Hf. destruct (int_body_digits ip Hi) as [Di NE]. destruct ip as [|c t]; [congruence|].
  pose proof Di as Di'. simpl in Di'. apply andb_true_iff in Di' as [Dc Dt].
  simpl app. apply scan_sign; [exact Hs|exact Dc|]. apply scan_nodash.
  change (c :: t ++ fr) with ((c :: t) ++ fr). rewrite forallb_app, (digits_nodash _ Di), (frac_nodash fr Hf). reflexivity.
Qed.

Lemma scan_exp sg d0 fr e es ds : is_sign sg -> is_digit d0 = true -> is_frac fr -> is_E e -> is_es es ->
  digits1 ds = true -> scan_ok (sg ++ (d0 :: fr) ++ e :: es :: ds) = true.
Proof.
  intros Hs Hd Hf He Hes Hds. destruct (digits1_cons ds Hds) as (c & t & -> & Dc & Dt).
  simpl app. apply scan_sign; [exact Hs|exact Hd|].
  replace (d0 :: fr ++ e :: es :: c :: t) with ((d0 :: fr ++ [e]) ++ es :: c :: t)
    by (simpl; rewrite <- app_assoc; reflexivity).
  apply scan_ok_app.
  - apply scan_nodash. simpl. rewrite (digit_nodash d0 Hd). simpl. rewrite forallb_app, (frac_nodash fr Hf).
    simpl. destruct He; subst; reflexivity.
  - destruct Hes as [->| ->].
    + apply (digits_scan (c :: t)). simpl. rewrite Dc, Dt. reflexivity.
    + rewrite scan_ok_cons_minus.
      destruct (digit_fact c Dc) as (_ & _ & N45 & _ & M & B). rewrite B. cbn [andb].
      apply digits_scan. simpl. rewrite Dc, Dt. reflexivity.
  - intros t' E'. assert (X : ends_with 45 (d0 :: fr ++ [e]) = true) by (rewrite E', ends_with_app_last; reflexivity).
    change (d0 :: fr ++ [e]) with ((d0 :: fr) ++ [e]) in X. rewrite ends_with_app_last in X.
    destruct He; subst; discriminate.
Qed.

Section Imag.
  Variable py_float py_dec py_imag : str -> option str.
  Notation classify := (classify py_float py_dec py_imag).

  Lemma imag_shape tok : dec_frac (strip_minus tok) = true ->
    exists sg c t, is_sign sg /\ tok = sg ++ c :: t /\ is_digit c = true /\ strip_minus tok = c :: t
                   /\ forallb (fun x => is_digit x || (x =? 46)) t = true.
  Proof.
    intro H. destruct (sign_split tok) as (sg & Hs & E). unfold dec_frac in H.
    destruct (split_at 46 (strip_minus tok)) as [[ip fp]|] eqn:SD.
    - destruct (split_at_inv _ _ _ _ SD) as [EB _]. apply andb_true_iff in H as [Di Df].
      destruct (digits1_cons ip Di) as (c & t & -> & Dc & Dt).
      exists sg, c, (t ++ 46 :: fp). repeat split; auto.
      + rewrite E at 1. rewrite EB. reflexivity.
      + rewrite forallb_app. simpl. rewrite forallb_forall in *.
        assert (X : forallb (fun x => is_digit x || (x =? 46)) t = true).
        { rewrite forallb_forall. intros x I. rewrite (Dt x I). reflexivity. }
        rewrite X. simpl. rewrite forallb_forall. intros x I. rewrite (Df x I). reflexivity.
    - destruct (digits1_cons _ H) as (c & t & EB & Dc & Dt).
      exists sg, c, t. repeat split; auto.
      + rewrite E at 1. rewrite EB. reflexivity.
      + rewrite forallb_forall in *. intros x I. rewrite (Dt x I). reflexivity.
  Qed.

  Lemma classify_imag tok rest : dec_frac (strip_minus tok) = true ->
    classify (tok ++ [74]) rest = tok_or_err (py_imag tok) VImag rest.
  Proof.
    intro H. destruct (imag_shape tok H) as (sg & c & t & Hs & E & Dc & SM & Dt).
    assert (SMs : strip_minus (tok ++ [74]) = (c :: t) ++ [74]).
    { rewrite E, <- app_assoc. simpl app. apply strip_minus_sign; assumption. }
    (* the characters of the token: a minus sign, digits, dots, J; the J is outside the alphabets of the first
       three regexes, and the others need an x, a slash, an e, an r *)
    assert (I74 : In 74 (tok ++ [74])) by (apply in_or_app; right; left; reflexivity).
    assert (CH : forall x, In x (tok ++ [74]) -> alpha [45; 46; 74] x = true).
    { intros x I. apply in_app_or in I as [I|[<-|[]]]; [|reflexivity]. rewrite E in I.
      apply in_app_or in I as [I|[<-|I]].
      - destruct Hs; subst; [destruct I|destruct I as [<-|[]]; reflexivity].
      - unfold alpha. rewrite Dc. reflexivity.
      - rewrite forallb_forall in Dt. destruct (orb_prop _ _ (Dt x I)) as [F|F]; [unfold alpha; rewrite F; reflexivity|].
        apply N.eqb_eq in F. subst x. reflexivity. }
    pose proof (alpha_notin _ _ CH) as NX.
    assert (CX : re_complex (tok ++ [74]) = true).
    { unfold re_complex. rewrite SMs, ends_with_app_last, removelast_last, <- SM. exact H. }
    unfold classify.
    rewrite (re_integer_not _ 74 I74 eq_refl), (re_float_not _ 74 I74 eq_refl), (re_octal_not _ 74 I74 eq_refl),
      (re_hex_not _ (NX 88 eq_refl) (NX 120 eq_refl)), (re_ratio_not _ (NX 47 eq_refl)),
      (re_sci_not _ (NX 101 eq_refl) (NX 69 eq_refl)), (re_radix_not _ (NX 114 eq_refl)), CX, removelast_last.
    reflexivity.
  Qed.

  Lemma scan_imag tok : dec_frac (strip_minus tok) = true -> scan_ok (tok ++ [74]) = true.
  Proof.
    intro H. destruct (imag_shape tok H) as (sg & c & t & Hs & E & Dc & SM & Dt).
    rewrite E, <- app_assoc. simpl app. apply scan_sign; [exact Hs|exact Dc|].
    apply scan_nodash. simpl. rewrite (digit_nodash c Dc). simpl. rewrite forallb_app. simpl.
    change (nodash_char 74) with true. rewrite andb_true_r.
    rewrite forallb_forall in *. intros x I. specialize (Dt x I). apply orb_true_iff in Dt as [Dx|Dx].
    - apply digit_nodash, Dx.
    - apply N.eqb_eq in Dx. subst x. reflexivity.
  Qed.
End Imag.
