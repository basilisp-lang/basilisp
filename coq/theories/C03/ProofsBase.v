(** C03: what may follow a printed value, tokens, symbols and keywords, strings. *)
From Coq Require Import List ZArith Bool Lia.
Import ListNotations.
From Verif Require Import Common.ListX Gen.Tables C19.Bencode C19.Edn C19.EdnProofs.
From Verif Require Import C03.Printer C03.ReadBack C03.Guard.
Local Open Scope N_scope.

(** * What may follow a printed value: nothing, a space, a comma, a closing bracket *)
Definition rest_ok (rest : str) : bool :=
  match rest with [] => true | c :: _ => mem c [32; 44; 41; 93; 125] end.

Lemma rest_ok_facts c t : rest_ok (c :: t) = true ->
  term Lisp c = true /\ is_digit c = false /\ (c =? 45) = false /\ maybe_num c = false /\ begin_num c = false.
Proof.
  simpl. rewrite !orb_false_r. intro H.
  repeat (apply orb_true_iff in H as [H|H]); apply N.eqb_eq in H; subst; vm_compute; auto.
Qed.

(** a token ends at any terminator *)
Definition rest_term (rest : str) : Prop := tok_end Lisp rest.

Lemma rest_ok_term rest : rest_ok rest = true -> rest_term rest.
Proof. destruct rest as [|c t]; [exact (fun _ => I)|]. intro H. apply rest_ok_facts in H. apply H. Qed.

Lemma read_sym_ok ns nm rest : name_ok nm = true -> ns_ok ns = true -> reserved nm = false ->
  rest_term rest -> read_sym (qualified ns nm ++ rest) = ROk (VSym ns nm None, rest).
Proof.
  intros H1 H2 H3 R. unfold read_sym. rewrite (read_namespaced_qualified Lisp ns nm rest H1 H2 R).
  destruct (name_ok_inv nm H1) as (c & t & E & D & S & Sc).
  rewrite (ends_with_safe nm S).
  unfold reserved in H3. apply orb_false_iff in H3 as [H3 Hf]. apply orb_false_iff in H3 as [Hn Ht].
  destruct ns as [n|].
  - simpl in H2. apply andb_true_iff in H2 as [_ Sg]. rewrite Sg. reflexivity.
  - cbn match. rewrite Hn, Ht, Hf. reflexivity.
Qed.

Lemma read_kw_ok ns nm rest : kw_ok3 ns nm = true -> rest_term rest ->
  read_kw (qualified ns nm ++ rest) = ROk (VKw ns nm, rest).
Proof.
  unfold kw_ok3. intros H R. apply andb_true_iff in H as [H1 H2].
  destruct (qualified_head ns nm H1 H2) as (c & t & E & Sc & D).
  unfold read_kw.
  assert (A : starts_with 58 (qualified ns nm ++ rest) = false).
  { rewrite E. simpl. destruct (safe_fact c Sc) as (_ & _ & _ & _ & N58 & _). apply N.eqb_neq, N58. }
  assert (B : match qualified ns nm ++ rest with c :: _ => is_digit c | [] => false end = false).
  { rewrite E. simpl. exact D. }
  rewrite A, B. rewrite (read_namespaced_qualified Lisp ns nm rest H1 H2 R). reflexivity.
Qed.

  Definition str_tables_ok : bool :=
    forallb (fun kr => match snd kr with
                       | [b; e] => (b =? 92) && match assoc e rd_str_escapes with
                                                | Some k => k =? fst kr
                                                | None => false
                                                end
                       | _ => false
                       end) pr_str_escapes
    && is_some (assoc 92 pr_str_escapes) && is_some (assoc 34 pr_str_escapes).

Lemma str_tables_ok_true : str_tables_ok = true.
Proof. vm_compute. reflexivity. Qed.

(** the string printer followed by the string reader is the identity, for EVERY string *)
Lemma read_str_escape s : forall acc rest,
  read_str_body false (escape s ++ 34 :: rest) acc = ROk (acc ++ s, rest).
Proof.
  apply (escape_read pr_str_escapes rd_str_escapes str_tables_ok_true (read_str_body false)).
  - intros e r t a E. cbn [read_str_body]. change (92 =? 92) with true. cbn iota. rewrite E. reflexivity.
  - reflexivity.
  - intros c t a A B. cbn [read_str_body]. rewrite A, B. reflexivity.
Qed.

(** text without backslash and double quote is read literally, raw or not *)
Lemma plain_char_facts c : plain_char c = true -> (c =? 92) = false /\ (c =? 34) = false.
Proof.
  unfold plain_char. intro H. apply andb_true_iff in H as [H A]. apply andb_true_iff in H as [_ B].
  apply negb_true_iff in A, B. auto.
Qed.

Lemma read_str_plain raw s : forall acc rest, plain_text s = true ->
  read_str_body raw (s ++ 34 :: rest) acc = ROk (acc ++ s, rest).
Proof.
  induction s as [|c t IH]; intros acc rest H.
  - simpl. rewrite app_nil_r. reflexivity.
  - simpl in H. apply andb_true_iff in H as [Hc Ht]. destruct (plain_char_facts c Hc) as [A B].
    cbn [app read_str_body]. rewrite A, B, (IH _ _ Ht), <- app_assoc. reflexivity.
Qed.

(** unicode_escape and the requoting leave plain text alone *)
Lemma escape_legacy_plain p : plain_text p = true -> escape_legacy p = p.
Proof.
  unfold escape_legacy, py_unicode_escape, requote. induction p as [|c t IH]; [reflexivity|].
  intro H. simpl in H. apply andb_true_iff in H as [Hc Ht]. destruct (plain_char_facts c Hc) as [A B].
  unfold plain_char in Hc. apply andb_true_iff in Hc as [Hc _]. apply andb_true_iff in Hc as [Hc _].
  apply andb_true_iff in Hc as [L U].
  simpl flat_map at 2. unfold ue_char at 1.
  assert (N9 : c =? 9 = false) by (apply N.eqb_neq; apply N.leb_le in L; lia).
  assert (N10 : c =? 10 = false) by (apply N.eqb_neq; apply N.leb_le in L; lia).
  assert (N13 : c =? 13 = false) by (apply N.eqb_neq; apply N.leb_le in L; lia).
  rewrite N9, N10, N13, A, L, U. cbn [andb]. rewrite flat_map_app. simpl flat_map at 1. rewrite B, app_nil_r.
  simpl. f_equal. apply IH, Ht.
Qed.
