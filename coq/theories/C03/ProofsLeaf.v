(** C03: [_read_next] dispatch and the round trip of every leaf of the universe. *)
From Coq Require Import List ZArith Bool Lia.
Import ListNotations.
From Verif Require Import Common.ListX Gen.Tables C19.Bencode C19.BencodeProofs C19.Edn C19.EdnProofs.
From Verif Require Import C03.Printer C03.ReadBack C03.Guard C03.ProofsBase C03.ProofsNum C03.ProofsFloat C03.ProofsTok.
Local Open Scope N_scope.

Definition head_ok (c : N) : bool := negb (is_ws c) && negb (mem c [41; 93; 125]).

Definition headed (text : str) : Prop := exists c t, text = c :: t /\ head_ok c = true.
Lemma headed_b text : match text with c :: _ => head_ok c | [] => false end = true -> headed text.
Proof. destruct text as [|c t]; [discriminate|]. intro H. exists c, t. auto. Qed.

Definition safe_kind_facts (c : N) : bool :=
  implb (safe c) (head_ok c && (is_digit c || (c =? 45) || (kind c =? 10)) && negb (c =? 58)).
Lemma safe_kind_all : forallb safe_kind_facts (map N.of_nat (seq 33 94)) = true.
Proof. vm_compute. reflexivity. Qed.

Lemma safe_kind c : safe c = true -> head_ok c = true /\ (is_digit c = true \/ c = 45 \/ kind c = 10) /\ c <> 58.
Proof.
  intro S. pose proof (safe_range c S) as R.
  pose proof (range_reflect safe_kind_facts 33 94 safe_kind_all c) as F.
  assert (F' : safe_kind_facts c = true) by (apply F; simpl; lia). clear F.
  unfold safe_kind_facts in F'. rewrite S in F'. cbn [implb] in F'.
  apply andb_true_iff in F' as [F' F3]. apply andb_true_iff in F' as [F1 F2].
  apply negb_true_iff, N.eqb_neq in F3. repeat split; auto.
  apply orb_true_iff in F2 as [F2|F2]; [apply orb_true_iff in F2 as [F2|F2]|].
  - left. exact F2.
  - right. left. apply N.eqb_eq. exact F2.
  - right. right. apply N.eqb_eq. exact F2.
Qed.

Lemma digit_kind c : is_digit c = true -> head_ok c = true /\ kind c = 7.
Proof.
  intro D. split; [exact (head_ok_digit c D)|].
  destruct (digit_fact c D) as (_ & _ & _ & _ & _ & B). unfold kind. rewrite B. reflexivity.
Qed.

Lemma drop_ws_head c t : is_ws c = false -> drop_ws (c :: t) = c :: t.
Proof. intro H. simpl. rewrite H. reflexivity. Qed.

Lemma head_ok_ws c : head_ok c = true -> is_ws c = false.
Proof. unfold head_ok. intro H. apply andb_true_iff in H as [H _]. apply negb_true_iff in H. exact H. Qed.

Section Leaf.
  Variable py_float py_dec py_imag py_uuid py_inst : str -> option str.
  Variable re_ok : str -> bool.
  Notation read_next := (read_next py_float py_dec py_imag py_uuid py_inst re_ok).
  Notation read_coll := (read_coll py_float py_dec py_imag py_uuid py_inst re_ok).
  Notation read_num := (read_num py_float py_dec py_imag).
  Notation classify := (classify py_float py_dec py_imag).

  (** [reads text x sz]: wherever the text is followed by a separator, a closing bracket or the
      end of the input, the reader (with at least [sz] units of fuel) reads exactly [x] and
      stops right after the text *)
  Definition reads (text : str) (x : value) (sz : nat) : Prop :=
    forall f rest, rest_ok rest = true -> (sz <= f)%nat -> read_next f (text ++ rest) = ROk (x, rest).

  Lemma reads_mono text x a b : (a <= b)%nat -> reads text x a -> reads text x b.
  Proof. intros L H f rest R F. apply H; [exact R|lia]. Qed.

  (** one step of the reader's fixpoints, so that no proof unfolds the whole of [read_next] *)
  Lemma next_num f c t : kind c = 7 -> read_next (S f) (c :: t) = read_num (c :: t) [].
  Proof. intro K. cbn [ReadBack.read_next]. rewrite K. reflexivity. Qed.
  Lemma next_sym f c t : kind c = 10 -> read_next (S f) (c :: t) = read_sym (c :: t).
  Proof. intro K. cbn [ReadBack.read_next]. rewrite K. reflexivity. Qed.
  Lemma next_kw f t : read_next (S f) (58 :: t) = read_kw t.
  Proof. reflexivity. Qed.
  Lemma next_str f t : read_next (S f) (34 :: t) = bind (read_str_body false t []) (fun '(s, r) => ROk (VStr s, r)).
  Proof. reflexivity. Qed.
  Lemma next_regex f t : read_next (S f) (35 :: 34 :: t) =
    bind (read_str_body true t []) (fun '(s, r) => if re_ok s then ROk (VRegex s, r) else RErr 1).
  Proof. reflexivity. Qed.
  Lemma next_const f t : read_next (S f) (35 :: 35 :: t) = read_const t.
  Proof. reflexivity. Qed.
  Lemma next_bytes f t : read_next (S f) (t_bytes ++ t) = bind (read_bytes_body t []) (fun '(b, r) => ROk (VBytes b, r)).
  Proof. reflexivity. Qed.
  Lemma next_nsmap f t : read_next (S f) (35 :: 58 :: t) =
    if starts_with 58 t then RErr 7
    else bind (read_namespaced Lisp t)
           (fun '((kns, mns), r) =>
              match kns with
              | Some _ => RErr 1
              | None => match drop_ws r with
                        | 123 :: r' => bind (read_coll f 125 r' []) (fun '(vs, r'') => finish_map (Some mns) vs r'')
                        | _ => RErr 1
                        end
              end).
  Proof. reflexivity. Qed.
  Lemma next_meta f t : read_next (S f) (94 :: t) =
    match drop_ws t with
    | [] => RErr 1
    | t1 =>
        bind (read_next f t1)
          (fun '(m, r) =>
             match m with
             | VMap false mm _ =>
                 match drop_ws r with
                 | [] => RErr 1
                 | r1 => bind (read_next f r1) (fun '(o, r2) => bind (attach_meta mm o) (fun x => ROk (x, r2)))
                 end
             | VSym _ _ _ | VKw _ _ | VSeq KVec _ _ => RErr 7
             | _ => RErr 1
             end)
    end.
  Proof. reflexivity. Qed.

  Lemma sym_text_next f ns nm rest : name_ok nm = true -> ns_ok ns = true -> dash_ok (qualified ns nm) = true ->
    rest_ok rest = true ->
    read_next (S f) (qualified ns nm ++ rest) = read_sym (qualified ns nm ++ rest).
  Proof.
    intros H1 H2 DO R. destruct (qualified_head ns nm H1 H2) as (c & t & E & Sc & D).
    destruct (safe_kind c Sc) as (_ & K & _). rewrite E in *. simpl app.
    destruct K as [K|[K|K]]; [congruence| |apply next_sym, K].
    subst c. rewrite next_num by reflexivity.
    assert (NB : match t ++ rest with c2 :: _ => begin_num c2 | [] => false end = false).
    { destruct t as [|c2 t2].
      - simpl. destruct rest as [|r0 rr]; [reflexivity|]. apply (rest_ok_facts r0 rr R).
      - simpl in DO. simpl. apply negb_true_iff in DO. exact DO. }
    rewrite read_num_dash, NB. reflexivity.
  Qed.

  Lemma reads_sym ns nm : name_ok nm = true -> ns_ok ns = true -> dash_ok (qualified ns nm) = true ->
    reserved nm = false -> reads (qualified ns nm) (VSym ns nm None) 1.
  Proof.
    intros H1 H2 DO RS f rest R F. destruct f as [|f]; [lia|].
    rewrite sym_text_next by assumption. apply read_sym_ok; auto. apply rest_ok_term, R.
  Qed.

  Definition bare_val (w : str) : value :=
    if str_eqb w s_nil then VNil else if str_eqb w s_true then VBool true
    else if str_eqb w s_false then VBool false else VSym None w None.

  Lemma reads_bare w : name_ok w = true -> dash_ok w = true -> reads w (bare_val w) 1.
  Proof.
    intros H1 DO f rest R F. destruct f as [|f]; [lia|].
    change (w ++ rest) with (qualified None w ++ rest). rewrite sym_text_next by (auto; reflexivity).
    unfold read_sym. rewrite (read_namespaced_qualified Lisp None w rest H1 eq_refl (rest_ok_term rest R)).
    destruct (name_ok_inv w H1) as (c & t & E & D & S & Sc). rewrite (ends_with_safe w S). unfold bare_val.
    destruct (str_eqb w s_nil); [reflexivity|]. destruct (str_eqb w s_true); [reflexivity|].
    destruct (str_eqb w s_false); reflexivity.
  Qed.

  Lemma reads_nil : reads s_nil VNil 1.
  Proof. exact (reads_bare s_nil eq_refl eq_refl). Qed.
  Lemma reads_true : reads s_true (VBool true) 1.
  Proof. exact (reads_bare s_true eq_refl eq_refl). Qed.
  Lemma reads_false : reads s_false (VBool false) 1.
  Proof. exact (reads_bare s_false eq_refl eq_refl). Qed.

  Lemma reads_kw ns nm : kw_ok3 ns nm = true -> reads (58 :: qualified ns nm) (VKw ns nm) 1.
  Proof.
    intros K f rest R F. destruct f as [|f]; [lia|]. simpl app. rewrite next_kw.
    apply read_kw_ok; [exact K|apply rest_ok_term, R].
  Qed.

  Lemma reads_num tok v : (exists c t, tok = c :: t /\ kind c = 7) -> scan_ok tok = true ->
    (forall rest, classify tok rest = ROk (v, rest)) -> reads tok v 1.
  Proof.
    intros (c & t & E & K) S C f rest R F. destruct f as [|f]; [lia|].
    rewrite E. simpl app. rewrite next_num by exact K. change (c :: t ++ rest) with ((c :: t) ++ rest).
    rewrite <- E. rewrite (read_num_scan py_float py_dec py_imag tok [] rest S R). apply C.
  Qed.

  Lemma kind_45 : kind 45 = 7. Proof. reflexivity. Qed.

  Lemma sign_digit_head sg c t : is_sign sg -> is_digit c = true ->
    exists c' t', sg ++ c :: t = c' :: t' /\ kind c' = 7 /\ head_ok c' = true.
  Proof.
    intros [->| ->] D.
    - exists c, t. destruct (digit_kind c D). auto.
    - exists 45, (c :: t). repeat split; reflexivity.
  Qed.

  Lemma dec_Z_head z : exists c t, dec_Z z = c :: t /\ kind c = 7 /\ head_ok c = true.
  Proof.
    unfold dec_Z. destruct (dec_N_spec (Z.abs_N z)) as (_ & D & NE).
    destruct (dec_N (Z.abs_N z)) as [|c t] eqn:E; [congruence|].
    simpl in D. apply andb_true_iff in D as [Dc _]. destruct (digit_kind c Dc).
    destruct (z <? 0)%Z; [exists 45, (c :: t)|exists c, t]; repeat split; auto.
  Qed.

  Lemma reads_int z : reads (dec_Z z) (VInt z) 1.
  Proof.
    destruct (dec_Z_head z) as (c & t & E & K & _).
    apply reads_num; [eauto|apply dec_Z_scan|]. intro rest. apply classify_int.
  Qed.

  Lemma reads_ratio n d : (2 <= d)%Z -> Z.gcd n d = 1%Z -> reads (dec_Z n ++ 47 :: dec_Z d) (VRatio n d) 1.
  Proof.
    intros D G. destruct (dec_Z_head n) as (c & t & E & K & _).
    apply reads_num.
    - exists c, (t ++ 47 :: dec_Z d). rewrite E. auto.
    - apply (ratio_scan n d). lia.
    - intro rest. apply (classify_ratio py_float py_dec py_imag n d rest D G).
  Qed.

  (** what [reads_num] needs of a printed float or Decimal [tok], with [sfx] the suffix M or nothing *)
  Definition num_token (tok sfx : str) : Prop :=
    scan_ok (tok ++ sfx) = true /\ (exists c t, tok = c :: t /\ kind c = 7 /\ head_ok c = true)
    /\ forall rest, classify (tok ++ sfx) rest = fl_result py_float py_dec tok sfx rest.

  Lemma scan_sfx tok sfx : is_sfx sfx -> scan_ok tok = true -> ends_with 45 tok = false -> scan_ok (tok ++ sfx) = true.
  Proof.
    intros [->| ->] S NL; [rewrite app_nil_r; exact S|]. apply scan_ok_app; [exact S|reflexivity|].
    intros t E. rewrite E, ends_with_app_last in NL. discriminate.
  Qed.

  Lemma shape_token x dot tok sfx : is_E x -> is_sfx sfx -> (dot = true \/ sfx <> []) ->
    noexp_shape dot tok \/ exp_shape x tok -> num_token tok sfx.
  Proof.
    intros He Hx Hd [(sg & ip & fr & Hs & -> & Hi & Hf & Hfr)|(sg & d0 & fr & es & ds & Hs & -> & Hd0 & Hf & Hes & Dd)].
    - repeat split.
      + apply scan_sfx; [exact Hx|apply scan_noexp; assumption|apply noexp_last; auto].
      + destruct (int_body_digits ip Hi) as [Di NE]. destruct ip as [|c t]; [congruence|].
        simpl in Di. apply andb_true_iff in Di as [Dc _]. simpl app. apply sign_digit_head; assumption.
      + intro rest. apply classify_noexp; auto. destruct Hd as [Hd|Hd]; auto.
    - repeat split.
      + apply scan_sfx; [exact Hx|apply scan_exp; assumption|apply exp_last; auto].
      + simpl app. apply sign_digit_head; assumption.
      + intro rest. apply classify_exp; assumption.
  Qed.

  Lemma repr_token tok : repr_grammar tok = true -> num_token tok [].
  Proof.
    assert (DS2 : forall ds, forallb is_digit ds && (2 <=? length ds)%nat = true -> digits1 ds = true).
    { intros ds H. apply andb_true_iff in H as [D L]. unfold digits1. rewrite D. destruct ds; [discriminate|reflexivity]. }
    rewrite repr_num. intro G. apply (shape_token 101 true); [left; reflexivity|left; reflexivity|auto|].
    apply (num_grammar_shape _ _ _ _ DS2 G).
  Qed.

  Lemma dec_token tok : dec_grammar tok = true -> num_token tok [77].
  Proof.
    rewrite dec_num. intro G. apply (shape_token 69 false); [right; reflexivity|right; reflexivity|right; discriminate|].
    apply (num_grammar_shape _ _ _ _ (fun ds H => H) G).
  Qed.

  Lemma float_routing tok rest : repr_grammar tok = true ->
    classify tok rest = tok_or_err (py_float tok) (fun t => VFloat (FTok t)) rest.
  Proof. intro G. destruct (repr_token tok G) as (_ & _ & C). specialize (C rest). rewrite app_nil_r in C. exact C. Qed.

  Lemma reads_const (nm : str) (k : N) : name_ok nm = true -> assoc_str nm rd_numeric_constants = Some k ->
    reads (35 :: 35 :: nm) (VFloat (if k =? 0 then FNaN else if k =? 1 then FInf else FNegInf)) 1.
  Proof.
    intros H A f rest R F. destruct f as [|f]; [lia|]. simpl app. rewrite next_const. unfold read_const.
    change (nm ++ rest) with (qualified None nm ++ rest).
    rewrite (read_namespaced_qualified Lisp None nm rest H eq_refl (rest_ok_term rest R)). rewrite A. reflexivity.
  Qed.
  Lemma reads_inf : reads t_inf (VFloat FInf) 1.
  Proof. exact (reads_const [73; 110; 102] 1 eq_refl eq_refl). Qed.
  Lemma reads_ninf : reads t_ninf (VFloat FNegInf) 1.
  Proof. exact (reads_const [45; 73; 110; 102] 2 eq_refl eq_refl). Qed.
  Lemma reads_nan : reads t_nan (VFloat FNaN) 1.
  Proof. exact (reads_const [78; 97; 78] 0 eq_refl eq_refl). Qed.

  Lemma reads_str s : reads (34 :: escape s ++ [34]) (VStr s) 1.
  Proof.
    intros f rest R F. destruct f as [|f]; [lia|]. simpl app. rewrite next_str, <- app_assoc. simpl app.
    rewrite read_str_escape. reflexivity.
  Qed.

  Lemma reads_regex p : regex_plain p = true -> re_ok p = true ->
    reads (35 :: 34 :: escape_legacy p ++ [34]) (VRegex p) 1.
  Proof.
    intros P OK f rest R F. destruct f as [|f]; [lia|]. simpl app. rewrite next_regex, <- app_assoc. simpl app.
    rewrite (escape_legacy_plain p P), (read_str_plain true p [] rest P). simpl. rewrite OK. reflexivity.
  Qed.

  Lemma reads_plain_str s : plain_text s = true -> reads (34 :: s ++ [34]) (VStr s) 1.
  Proof.
    intros P f rest R F. destruct f as [|f]; [lia|]. simpl app. rewrite next_str, <- app_assoc. simpl app.
    rewrite (read_str_plain false s [] rest P). reflexivity.
  Qed.

  (** the four tags that [resolve_tag] knows *)
  Definition data_tags : list str := [t_s_py; t_s_queue; t_s_uuid; t_s_inst].

  Lemma next_tag f (tag : str) c0 t0 : In tag data_tags -> is_ws c0 = false ->
    read_next (S f) (35 :: tag ++ 32 :: c0 :: t0) =
    bind (read_next f (c0 :: t0))
         (fun '(v, r'') => bind (resolve_tag py_uuid py_inst None tag v) (fun x => ROk (x, r''))).
  Proof. intros [<-|[<-|[<-|[<-|[]]]]] W; cbn -[resolve_tag]; rewrite W; reflexivity. Qed.

  Lemma reads_tagged (tag : str) text inner outer sz : In tag data_tags -> headed text ->
    reads text inner sz -> resolve_tag py_uuid py_inst None tag inner = ROk outer ->
    reads (35 :: tag ++ 32 :: text) outer (S sz).
  Proof.
    intros T (c0 & t0 & ET & HO) HR RT f rest R F. destruct f as [|f]; [lia|].
    simpl app. rewrite <- app_assoc. simpl app. rewrite ET. simpl app.
    rewrite (next_tag f tag c0 (t0 ++ rest) T (head_ok_ws c0 HO)).
    change (c0 :: t0 ++ rest) with ((c0 :: t0) ++ rest). rewrite <- ET.
    rewrite (HR f rest R) by lia. cbn [bind]. rewrite RT. reflexivity.
  Qed.

  Lemma reads_uuid s : plain_text s = true -> py_uuid s = Some s -> reads (t_uuid ++ s ++ [34]) (VTag 0 s) 2.
  Proof.
    intros P U. apply (reads_tagged t_s_uuid (34 :: s ++ [34]) (VStr s));
      [simpl; auto|apply headed_b; reflexivity|apply reads_plain_str, P|simpl; rewrite U; reflexivity].
  Qed.
  Lemma reads_inst s : plain_text s = true -> py_inst s = Some s -> reads (t_inst ++ s ++ [34]) (VTag 1 s) 2.
  Proof.
    intros P U. apply (reads_tagged t_s_inst (34 :: s ++ [34]) (VStr s));
      [simpl; auto 6|apply headed_b; reflexivity|apply reads_plain_str, P|simpl; rewrite U; reflexivity].
  Qed.
End Leaf.
(* the reader's six CPython parameters are read off the [reads] in the conclusion *)
Arguments reads_mono {_ _ _ _ _ _}.
Arguments reads_kw {_ _ _ _ _ _}.
Arguments reads_sym {_ _ _ _ _ _}.
Arguments reads_tagged {_ _ _ _ _ _}.
