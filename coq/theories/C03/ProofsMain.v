(** C03: the round trip of every guarded value, by structural induction
    (any depth, any width), and of the whole text through [read_text]. *)
From Coq Require Import List ZArith Bool Lia.
Import ListNotations.
From Verif Require Import Common.ListX Gen.Prims C19.Bencode C19.Edn C19.EdnProofs.
From Verif Require Import C03.Printer C03.ReadBack C03.Guard C03.Limits C03.ProofsTok
 C03.ProofsLeaf C03.ProofsColl.
Local Open Scope N_scope.

Definition is_leaf (v : value) : bool :=
  match v with VSym _ _ _ | VSeq _ _ _ | VMap _ _ _ => false | _ => true end.

Section ValueInd.
  Variable P : value -> Prop.
  Definition Pm (m : list (value * value)) : Prop := Forall (fun kv => P (fst kv) /\ P (snd kv)) m.
  Definition Po (meta : option (list (value * value))) : Prop :=
    match meta with Some mm => Pm mm | None => True end.
  Hypothesis Hleaf : forall v, is_leaf v = true -> P v.
  Hypothesis Hsym : forall ns nm meta, Po meta -> P (VSym ns nm meta).
  Hypothesis Hseq : forall k l meta, Forall P l -> Po meta -> P (VSeq k l meta).
  Hypothesis Hmap : forall py m meta, Pm m -> Po meta -> P (VMap py m meta).
  (** Coq's generated principle has no hypothesis for the values inside the lists, maps and metadata *)
  Fixpoint value_ind' (v : value) : P v :=
    let gm := fix gm (m : list (value * value)) : Pm m :=
      match m with
      | [] => Forall_nil _
      | kv :: t => Forall_cons kv (conj (value_ind' (fst kv)) (value_ind' (snd kv))) (gm t)
      end in
    let go := fun meta : option (list (value * value)) =>
      match meta return Po meta with Some mm => gm mm | None => I end in
    let gl := fix gl (l : list value) : Forall P l :=
      match l with [] => Forall_nil _ | x :: t => Forall_cons x (value_ind' x) (gl t) end in
    match v with
    | VSym ns nm meta => Hsym ns nm meta (go meta)
    | VSeq k l meta => Hseq k l meta (gl l) (go meta)
    | VMap py m meta => Hmap py m meta (gm m) (go meta)
    | VNil => Hleaf VNil eq_refl
    | VBool b => Hleaf (VBool b) eq_refl
    | VInt z => Hleaf (VInt z) eq_refl
    | VRatio n d => Hleaf (VRatio n d) eq_refl
    | VFloat f => Hleaf (VFloat f) eq_refl
    | VDec t => Hleaf (VDec t) eq_refl
    | VDecS f => Hleaf (VDecS f) eq_refl
    | VImag t => Hleaf (VImag t) eq_refl
    | VStr s => Hleaf (VStr s) eq_refl
    | VKw ns nm => Hleaf (VKw ns nm) eq_refl
    | VTag t s => Hleaf (VTag t s) eq_refl
    | VRegex p => Hleaf (VRegex p) eq_refl
    | VBytes b => Hleaf (VBytes b) eq_refl
    end.
End ValueInd.

(** fuel a value needs; a nested fixpoint cannot share [ms], [mz] with the outside, hence [msize], [mzsize] below *)
Fixpoint vsize (v : value) : nat :=
  let ms := fun (m : list (value * value)) =>
    list_sum (map (fun kv => (vsize (fst kv) + vsize (snd kv))%nat) m) in
  let mz := fun (meta : option (list (value * value))) =>
    match meta with Some mm => (4 + ms mm)%nat | None => 0%nat end in
  match v with
  | VSym _ _ meta => (1 + mz meta)%nat
  | VSeq _ l meta => (3 + list_sum (map vsize l) + mz meta)%nat
  | VMap _ m meta => (3 + ms m + mz meta)%nat
  | VTag _ _ => 2%nat
  | _ => 1%nat
  end.
Definition msize (m : list (value * value)) : nat :=
  list_sum (map (fun kv => (vsize (fst kv) + vsize (snd kv))%nat) m).
Definition mzsize (meta : option (list (value * value))) : nat :=
  match meta with Some mm => (4 + msize mm)%nat | None => 0%nat end.
Lemma vsize_sym ns nm meta : vsize (VSym ns nm meta) = (1 + mzsize meta)%nat. Proof. reflexivity. Qed.
Lemma vsize_seq k l meta : vsize (VSeq k l meta) = (3 + list_sum (map vsize l) + mzsize meta)%nat. Proof. reflexivity. Qed.
Lemma vsize_map py m meta : vsize (VMap py m meta) = (3 + msize m + mzsize meta)%nat. Proof. reflexivity. Qed.
Lemma vsize_pos v : (1 <= vsize v)%nat.
Proof. destruct v; simpl; lia. Qed.

Lemma join_len sepr (texts : list str) : (list_sum (map (@length N) texts) <= length (join sepr texts))%nat.
Proof.
  induction texts as [|x t IH]; [simpl; lia|].
  cbn [join map]. rewrite app_length. destruct t as [|y t']; [simpl; lia|].
  rewrite app_length. change (list_sum (length x :: map (@length N) (y :: t')))
    with (length x + list_sum (map (@length N) (y :: t')))%nat. lia.
Qed.

Lemma shared_ns_spec m n : shared_ns m = Some n ->
  n <> [] /\ m <> [] /\ forall kv, In kv m -> key_ns (fst kv) = Some n.
Proof.
  unfold shared_ns. destruct m as [|[k v] t]; [discriminate|].
  destruct (key_ns k) as [n0|] eqn:K; [|discriminate].
  destruct (negb (match n0 with [] => true | _ => false end) && forallb _ t) eqn:C; [|discriminate].
  intro E. inversion E; subst n0. apply andb_true_iff in C as [NE A].
  split; [destruct n; [discriminate|discriminate]|]. split; [discriminate|].
  intros kv [<-|I]; [exact K|]. rewrite forallb_forall in A. specialize (A kv I).
  unfold ostr_eqb in A. apply (option_eqb_spec str_eqb str_eqb_eq) in A. exact A.
Qed.

Section Main.
  Variable py_float py_dec py_imag py_uuid py_inst : str -> option str.
  Variable re_ok : str -> bool.
  Variable is_repr is_dec is_imag is_uuid is_inst : str -> bool.
  Hypothesis H_float_repr_inverse : forall t, is_repr t = true -> py_float t = Some t.
  Hypothesis H_repr_grammar : forall t, is_repr t = true -> repr_grammar t = true.
  Hypothesis H_dec_str_inverse : forall t, is_dec t = true -> py_dec t = Some t.
  Hypothesis H_dec_grammar : forall t, is_dec t = true -> dec_grammar t = true.
  Hypothesis H_imag_inverse : forall t, is_imag t = true -> imag_plain t = true -> py_imag t = Some t.
  Hypothesis H_uuid_inverse : forall t, is_uuid t = true -> py_uuid t = Some t.
  Hypothesis H_inst_inverse : forall t, is_inst t = true -> py_inst t = Some t.
  Variable pc : pctl.

  Notation read_next := (read_next py_float py_dec py_imag py_uuid py_inst re_ok).
  Notation reads := (reads py_float py_dec py_imag py_uuid py_inst re_ok).
  Notation elem_ok := (elem_ok py_float py_dec py_imag py_uuid py_inst re_ok).
  Notation G := (guard is_repr is_dec is_imag is_uuid is_inst re_ok pc).
  Notation classify := (classify py_float py_dec py_imag).

  Definition RT (v : value) : Prop :=
    G v = true ->
    elem_ok (pr pc false v) v (vsize v) /\ (vsize v <= 4 * length (pr pc false v))%nat.

  Lemma mk_rt text v sz : headed text -> reads text v sz -> (1 <= sz <= 2)%nat ->
    elem_ok text v sz /\ (sz <= 4 * length text)%nat.
  Proof.
    intros (c & t & E & H) R S.
    split; [repeat split; [exists c, t; auto|exact R|lia]|]. rewrite E. simpl. lia.
  Qed.

  Lemma RT_leaf v : is_leaf v = true -> RT v.
  Proof.
    destruct v; try discriminate; intros _ Gv; simpl in Gv.
    - apply mk_rt; [apply headed_b; reflexivity|apply reads_nil|simpl; lia].
    - destruct b; (apply mk_rt; [apply headed_b; reflexivity| |simpl; lia]); [apply reads_true|apply reads_false].
    - destruct (dec_Z_head z) as (c & t & E & _ & HO).
      apply mk_rt; [exists c, t; auto|apply reads_int|simpl; lia].
    - apply andb_true_iff in Gv as [D2 Gc]. apply Z.leb_le in D2. apply Z.eqb_eq in Gc.
      destruct (dec_Z_head n) as (c & t & E & _ & HO).
      apply mk_rt; [exists c, (t ++ 47 :: dec_Z d); simpl; rewrite E; auto|apply reads_ratio; assumption|simpl; lia].
    - destruct f.
      + apply mk_rt; [apply headed_b; reflexivity|apply reads_inf|simpl; lia].
      + apply mk_rt; [apply headed_b; reflexivity|apply reads_ninf|simpl; lia].
      + apply mk_rt; [apply headed_b; reflexivity|apply reads_nan|simpl; lia].
      + destruct (repr_token py_float py_dec py_imag tok (H_repr_grammar tok Gv)) as (SC & (c & t & E & K & HO) & C).
        rewrite app_nil_r in SC. apply mk_rt; [exists c, t; auto| |simpl; lia].
        simpl. apply reads_num; [eauto|exact SC|]. intro rest. specialize (C rest). rewrite app_nil_r in C.
        rewrite C. simpl. rewrite (H_float_repr_inverse tok Gv). reflexivity.
    - apply andb_true_iff in Gv as [DUP Gd].
      destruct (dec_token py_float py_dec py_imag tok (H_dec_grammar tok Gd)) as (SC & (c & t & E & K & HO) & C).
      assert (EP : pr pc false (VDec tok) = tok ++ [77]) by (simpl; rewrite DUP; reflexivity).
      rewrite EP. apply mk_rt; [exists c, (t ++ [77]); rewrite E; auto| |simpl; lia].
      apply reads_num; [exists c, (t ++ [77]); rewrite E; auto|exact SC|]. intro rest.
      rewrite C. simpl. rewrite (H_dec_str_inverse tok Gd). reflexivity.
    - apply andb_true_iff in Gv as [Gi PL]. pose proof PL as PL'. unfold imag_plain in PL'.
      apply andb_true_iff in PL' as [DF _].
      destruct (imag_shape tok DF) as (sg & c & t & Hs & E & Dc & _ & _).
      destruct (sign_digit_head sg c t Hs Dc) as (c' & t' & E' & K & HO).
      simpl pr. apply mk_rt; [exists c', (t' ++ [74]); rewrite E, E'; auto| |simpl; lia].
      apply reads_num; [exists c', (t' ++ [74]); rewrite E, E'; auto|apply scan_imag, DF|]. intro rest.
      rewrite (classify_imag py_float py_dec py_imag tok rest DF), (H_imag_inverse tok Gi PL). reflexivity.
    - assert (EP : pr pc false (VStr s) = 34 :: escape s ++ [34]) by (simpl; rewrite Gv; reflexivity).
      rewrite EP. apply mk_rt; [apply headed_b; reflexivity|apply reads_str|simpl; lia].
    - apply mk_rt; [apply headed_b; reflexivity|apply reads_kw, Gv|simpl; lia].
    - apply andb_true_iff in Gv as [Gv Gs]. apply andb_true_iff in Gv as [T2 PT]. apply N.ltb_lt in T2.
      assert (ET : t = 0 \/ t = 1) by lia. destruct ET as [->| ->]; cbn [N.eqb] in Gs.
      + apply mk_rt; [apply headed_b; reflexivity| |simpl; lia].
        apply reads_uuid; [exact PT|apply H_uuid_inverse, Gs].
      + apply mk_rt; [apply headed_b; reflexivity| |simpl; lia].
        apply reads_inst; [exact PT|apply H_inst_inverse, Gs].
    - apply andb_true_iff in Gv as [Gv OK]. apply andb_true_iff in Gv as [RD PL].
      assert (EP : pr pc false (VRegex p) = 35 :: 34 :: escape_legacy p ++ [34]) by (simpl; rewrite RD; reflexivity).
      rewrite EP. apply mk_rt; [apply headed_b; reflexivity|apply reads_regex; assumption|simpl; lia].
    - apply mk_rt; [apply headed_b; reflexivity|apply reads_bytes, Gv|simpl; lia].
  Qed.

  Definition bare (k : value) : value :=
    match k with VKw _ nm => VKw None nm | VSym _ nm _ => VSym None nm None | _ => k end.

  Lemma stripped_key k n : G k = true -> key_ns k = Some n ->
    match k with VSym _ _ (Some _) => false | _ => true end = true ->
    (elem_ok (pr pc true k) (bare k) (vsize k) /\ (vsize k <= 4 * length (pr pc true k))%nat)
    /\ name_ok n = true /\ ns_key n (bare k) = k.
  Proof.
    intros Gk K NM. destruct k; try discriminate; simpl in K, Gk; subst ns.
    - unfold kw_ok3 in Gk. apply andb_true_iff in Gk as [H1 H2]. pose proof H2 as H2'. simpl in H2'.
      apply andb_true_iff in H2' as [Hn _].
      destruct (name_ok_inv nm H1) as (c & t & E & D & S & Sc).
      repeat split; auto.
      + apply headed_b. reflexivity.
      + simpl. apply (reads_kw None nm). unfold kw_ok3. rewrite H1. reflexivity.
      + simpl. lia.
    - destruct meta; [discriminate|]. apply andb_true_iff in Gk as [SO _]. unfold sym_ok3 in SO.
      apply andb_true_iff in SO as [SO RS]. apply andb_true_iff in SO as [SO DN].
      apply andb_true_iff in SO as [SO DQ]. apply andb_true_iff in SO as [H1 H2]. apply negb_true_iff in RS.
      pose proof H2 as H2'. simpl in H2'. apply andb_true_iff in H2' as [Hn _].
      destruct (name_ok_inv nm H1) as (c & t & E & D & S & Sc). destruct (safe_kind c Sc) as (HO & _ & _).
      repeat split; auto.
      + exists c, t. simpl. auto.
      + simpl. apply (reads_sym None nm); auto.
      + simpl. rewrite E. simpl. lia.
  Qed.

  (** [kt]: how a key is printed, [kr]: what its text reads as *)
  Definition entries (kt : value -> str) (kr : value -> value) (m : list (value * value)) : list entry :=
    map (fun kv => ((kt (fst kv), kr (fst kv), vsize (fst kv)), (pr pc false (snd kv), snd kv, vsize (snd kv)))) m.

  Lemma entries_rt kt kr m :
    (forall kv, In kv m -> G (fst kv) = true /\ G (snd kv) = true /\ RT (snd kv)
       /\ elem_ok (kt (fst kv)) (kr (fst kv)) (vsize (fst kv)) /\ (vsize (fst kv) <= 4 * length (kt (fst kv)))%nat) ->
    Forall (e_ok py_float py_dec py_imag py_uuid py_inst re_ok) (entries kt kr m)
    /\ (msize m <= 4 * list_sum (map (fun e => length (e_text e)) (entries kt kr m)))%nat
    /\ list_sum (map e_sz (entries kt kr m)) = msize m
    /\ map e_text (entries kt kr m) = map (fun kv => kt (fst kv) ++ 32 :: pr pc false (snd kv)) m
    /\ map e_pair (entries kt kr m) = map (fun kv => (kr (fst kv), snd kv)) m.
  Proof.
    intros H. unfold entries, msize. rewrite !map_map. repeat split; try reflexivity.
    - apply Forall_forall. intros e I. apply in_map_iff in I as (kv & <- & I).
      destruct (H kv I) as (_ & Gv & RV & EK & _). split; [exact EK|apply (RV Gv)].
    - induction m as [|kv t IH]; [simpl; lia|].
      destruct (H kv (in_eq _ _)) as (_ & Gv & RV & _ & LK). destruct (RV Gv) as (_ & LV).
      specialize (IH (fun kv' I => H kv' (in_cons _ _ _ I))).
      cbn [map list_sum fold_right] in *. unfold e_text at 1. unfold el_text. cbn [fst snd]. rewrite app_length. cbn [length]. unfold list_sum in *. lia.
  Qed.

  Lemma map_core m : Pm RT m ->
    forallb (fun kv => G (fst kv) && G (snd kv)) m = true ->
    nsmap_ok pc m = true ->
    elem_ok (mapbody pc m) (VMap false m None) (2 + msize m)
    /\ (4 + msize m <= 4 * length (mapbody pc m))%nat.
  Proof.
    intros IH GM NS. unfold mapbody, mapbody_g, idl, nsmap_ok in *.
    assert (F : forall kv, In kv m -> (G (fst kv) = true /\ RT (fst kv)) /\ G (snd kv) = true /\ RT (snd kv)).
    { intros kv I. rewrite forallb_forall in GM. destruct (andb_prop _ _ (GM kv I)).
      destruct (proj1 (Forall_forall _ _) IH kv I). auto. }
    destruct (if p_nsmaps pc then shared_ns m else None) as [n|] eqn:SH; cbn [is_some].
    - (* namespace prefix: every key is read bare and gets the namespace back from [ns_key] *)
      destruct (p_nsmaps pc); [|discriminate]. rewrite SH in NS. rewrite forallb_forall in NS.
      destruct (shared_ns_spec m n SH) as (_ & NEm & KN).
      pose proof (fun kv I => stripped_key (fst kv) n (proj1 (proj1 (F kv I))) (KN kv I) (NS kv I)) as KEY.
      destruct (entries_rt (pr pc true) bare m) as (OK & LEN & SZ & TX & EM); set (es := entries (pr pc true) bare m) in *.
      { intros kv I. destruct (F kv I) as ((Gk & _) & Gv & RV). destruct (KEY kv I) as ((EK & LK) & _). auto. }
      assert (Hn : name_ok n = true) by (destruct m as [|kv t]; [congruence|apply (KEY kv (in_eq _ _))]).
      rewrite <- TX. split.
      + repeat split; [apply headed_b; reflexivity| |lia]. rewrite <- SZ.
        replace m with (map (fun kv => (ns_key n (fst kv), snd kv)) (map e_pair es));
          [exact (reads_ns_map n es Hn OK)|].
        rewrite EM, map_map. rewrite <- (map_id m) at 2. apply map_ext_in. intros [k v] I. cbn [fst snd].
        f_equal. apply (KEY (k, v) I).
      + simpl. rewrite !app_length. simpl. rewrite app_length. simpl.
        pose proof (join_len comma_sp (map e_text es)) as J. rewrite map_map in J. lia.
    - destruct (entries_rt (pr pc false) (fun k => k) m) as (OK & LEN & SZ & TX & EM); set (es := entries (pr pc false) (fun k => k) m) in *.
      { intros kv I. destruct (F kv I) as ((Gk & RK) & Gv & RV). destruct (RK Gk). auto. }
      rewrite <- TX. simpl app. split.
      + repeat split; [apply headed_b; reflexivity| |lia]. rewrite <- SZ.
        replace m with (map e_pair es); [exact (reads_plain_map es OK)|].
        rewrite EM. rewrite <- (map_id m) at 2. apply map_ext. intros [k v]. reflexivity.
      + simpl. rewrite app_length. simpl.
        pose proof (join_len comma_sp (map e_text es)) as J. rewrite map_map in J. lia.
  Qed.

  Definition gmeta_b (meta : option (list (value * value))) : bool :=
    match meta with
    | Some mm => p_meta pc && (forallb (fun kv => G (fst kv) && G (snd kv)) mm && nsmap_ok pc mm)
    | None => true
    end.

  (** kinds that carry no metadata are guarded to have none *)
  Lemma kind_meta (b : bool) meta : (if b then gmeta_b meta else is_none meta) = true ->
    gmeta_b meta = true /\ (if b return list N then metapfx pc meta else []) = metapfx pc meta /\ (is_some meta = true -> b = true).
  Proof. destruct b, meta; try discriminate; auto. Qed.

  Lemma with_meta meta ctext core v szc :
    Po RT meta -> gmeta_b meta = true ->
    elem_ok ctext core szc -> (szc <= 4 * length ctext)%nat ->
    (match meta with Some mm => attach_meta mm core = ROk v | None => core = v end) ->
    elem_ok (metapfx pc meta ++ ctext) v (szc + mzsize meta)
    /\ (szc + mzsize meta <= 4 * length (metapfx pc meta ++ ctext))%nat.
  Proof.
    intros IH GM (HC & RC & LC) LEN AT. destruct meta as [mm|].
    - simpl in GM. apply andb_true_iff in GM as [PM GM]. apply andb_true_iff in GM as [GMM NS].
      destruct (map_core mm IH GMM NS) as ((HM & RM & LM) & LENM).
      unfold metapfx, metapfx_g. rewrite PM. cbv iota. cbn [mzsize]. split.
      + repeat split.
        * apply headed_b. reflexivity.
        * simpl app. rewrite <- app_assoc.
          apply (reads_mono _ _ (S ((2 + msize mm) + szc))); [lia|].
          exact (reads_meta (mapbody pc mm) mm ctext core v _ _ HM HC RM RC AT).
        * lia.
      + simpl. rewrite !app_length. simpl. lia.
    - subst v. simpl. rewrite Nat.add_0_r. repeat split; auto.
  Qed.

  Lemma elems_ok l : Forall RT l -> forallb G l = true ->
    Forall (el_ok py_float py_dec py_imag py_uuid py_inst re_ok) (map (fun v => (pr pc false v, v, vsize v)) l)
    /\ (list_sum (map vsize l) <= 4 * list_sum (map (fun v => length (pr pc false v)) l))%nat.
  Proof.
    intros IH. induction IH as [|v t RV _ IHt]; intro GL; [split; [constructor|simpl; lia]|].
    simpl in GL. apply andb_true_iff in GL as [Gv Gt]. destruct (IHt Gt) as (A & B). destruct (RV Gv) as (EV & LV).
    split; [constructor; [exact EV|exact A]|simpl; lia].
  Qed.

  Lemma seq_core k l : plain_kind k = true -> Forall RT l -> forallb G l = true ->
    elem_ok (open_of k ++ join sp (map (pr pc false) l) ++ [close_of k]) (VSeq k l None) (2 + list_sum (map vsize l))
    /\ (4 + list_sum (map vsize l) <= 4 * length (open_of k ++ join sp (map (pr pc false) l) ++ [close_of k]))%nat.
  Proof.
    intros PK IH GL. destruct (elems_ok l IH GL) as (OK & LEN).
    pose proof (reads_plain_seq _ _ _ _ _ _ k _ PK OK) as R.
    rewrite !map_map in R. cbn [fst snd] in R. rewrite map_id in R.
    split.
    - repeat split; [|exact R|lia]. destruct k; try discriminate; apply headed_b; reflexivity.
    - rewrite !app_length. pose proof (join_len sp (map (pr pc false) l)) as J. rewrite map_map in J.
      assert (1 <= length (open_of k))%nat by (destruct k; simpl; lia). simpl length at 3. lia.
  Qed.

  Lemma inner_seq k : { k' | plain_kind k' = true /\ (plain_kind k = true -> k' = k) }.
  Proof. exists (inner k). destruct k; split; try reflexivity; discriminate. Qed.

  Theorem RT_all v : RT v.
  Proof.
    induction v as [v Lf|ns nm meta IHm|k l meta IHl IHm|py m meta IHe IHm] using value_ind'.
    - apply RT_leaf, Lf.
    - intro Gv. simpl in Gv. apply andb_true_iff in Gv as [SO GM].
      unfold sym_ok3 in SO. apply andb_true_iff in SO as [SO RS]. apply andb_true_iff in SO as [SO DN].
      apply andb_true_iff in SO as [SO DQ]. apply andb_true_iff in SO as [H1 H2]. apply negb_true_iff in RS.
      destruct (qualified_head ns nm H1 H2) as (c & t & E & Sc & D). destruct (safe_kind c Sc) as (HO & _ & _).
      rewrite pr_sym, vsize_sym.
      apply (with_meta meta (qualified ns nm) (VSym ns nm None) (VSym ns nm meta) 1 IHm GM).
      + repeat split; [exists c, t; auto|apply reads_sym; auto|lia].
      + rewrite E. simpl. lia.
      + destruct meta; reflexivity.
    - (* sequences: the bracketed text of the inner kind, behind its tag, behind its metadata *)
      intro Gv. simpl in Gv. apply andb_true_iff in Gv as [GL GM]. apply kind_meta in GM as (GM & EM & HK).
      destruct (seq_core (inner k) l (inner_plain k) IHl GL) as ((A1 & A2 & A3) & B).
      rewrite pr_seq, vsize_seq, EM, open_inner, close_inner, <- app_assoc.
      apply (with_meta meta _ (VSeq k l None) (VSeq k l meta) (S (2 + list_sum (map vsize l))) IHm GM).
      + repeat split; [apply headed_tag, A1|apply reads_wrapped; assumption|lia].
      + rewrite app_length. lia.
      + destruct meta as [mm|]; [|reflexivity]. simpl. rewrite (HK eq_refl). reflexivity.
    - intro Gv. simpl in Gv. apply andb_true_iff in Gv as [GMm GM]. apply andb_true_iff in GMm as [GE NS].
      destruct (map_core m IHe GE NS) as ((A1 & A2 & A3) & B).
      rewrite pr_map, vsize_map. destruct py.
      + destruct meta; [discriminate|]. cbn [mzsize]. rewrite Nat.add_0_r. split.
        * repeat split; [apply headed_b; reflexivity| |lia].
          exact (reads_py _ (VMap false m None) (VMap true m None) _ A1 A2 eq_refl).
        * rewrite app_length. simpl. lia.
      + apply (with_meta meta _ (VMap false m None) (VMap false m meta) _ IHm GM).
        * repeat split; [exact A1| |lia]. exact (reads_mono _ _ _ _ (Nat.le_succ_diag_r _) A2).
        * lia.
        * destruct meta; reflexivity.
  Qed.

  Notation read_text := (read_text py_float py_dec py_imag py_uuid py_inst re_ok).
  Notation read_all := (read_all py_float py_dec py_imag py_uuid py_inst re_ok).

  Theorem roundtrip v : G v = true -> read_text (print pc v) = ROk [v].
  Proof.
    intro Gv. destruct (RT_all v Gv) as (((c & t & E & HO) & R & _) & L).
    unfold read_text, print.
    pose proof (R (4 * length (pr pc false v) + 4)%nat [] eq_refl) as R'. rewrite app_nil_r in R'.
    assert (F : (vsize v <= 4 * length (pr pc false v) + 4)%nat) by lia. specialize (R' F).
    set (fuel := (4 * length (pr pc false v) + 4)%nat) in *.
    assert (DW : drop_ws (pr pc false v) = pr pc false v) by (rewrite E; apply drop_ws_head, head_ok_ws, HO).
    cbn [ReadBack.read_all].
    rewrite DW. rewrite E at 1. rewrite <- E. rewrite R'. cbn [bind].
    rewrite E at 1. reflexivity.
  Qed.
End Main.
