(** C03: the printer with *print-length* / *print-level* ([Limits.prl]) is the printer of Printer.v as long as
    no truncation test fires: with both limits nil whatever the guards are, and under *print-dup* when every
    test carries the conjunct [not print_dup]; without the conjunct the text is abbreviated and the reader
    rejects it. *)
From Coq Require Import List ZArith Bool.
Import ListNotations.
From Verif Require Import Common.ListX Gen.Tables C19.Edn.
From Verif Require Import C03.Printer C03.ReadBack C03.Limits C03.ProofsColl C03.ProofsMain.
Local Open Scope N_scope.

(** * [prl]'s two local functions, and its unfolding equations in the shape of ProofsColl's for [pr] *)
Definition lmapbody tg pc len (lv : option Z) : list (value * value) -> str :=
  mapbody_g pc (truncate (length_on (g_map_length tg) (p_dup pc) len)) (fun s x => prl tg pc len (dec_level lv) s x).
Definition lmetapfx tg pc len (lv : option Z) : option (list (value * value)) -> str :=
  metapfx_g pc (level_hit (g_map_level tg) (p_dup pc) lv) (lmapbody tg pc len lv).

Lemma prl_sym tg pc len lvl ns nm meta :
  prl tg pc len lvl false (VSym ns nm meta) = lmetapfx tg pc len lvl meta ++ qualified ns nm.
Proof. reflexivity. Qed.

Lemma prl_seq tg pc len lvl strip k l meta :
  prl tg pc len lvl strip (VSeq k l meta)
  = (if is_py k then t_py else [])
    ++ (if level_hit (g_seq_level tg) (p_dup pc) lvl then t_hash
        else (if has_meta k then lmetapfx tg pc len (dec_level lvl) meta else [])
             ++ open_in k
             ++ join sp (truncate (length_on (g_seq_length tg) (p_dup pc) len)
                           (map (prl tg pc len (dec_level lvl) false) l))
             ++ [close_of k]).
Proof. reflexivity. Qed.

Lemma prl_map tg pc len lvl strip py m meta :
  prl tg pc len lvl strip (VMap py m meta)
  = (if py then t_py else [])
    ++ (if level_hit (g_map_level tg) (p_dup pc) lvl then t_hash
        else (if py then [] else lmetapfx tg pc len None meta) ++ lmapbody tg pc len lvl m).
Proof. reflexivity. Qed.

(** "#py " stands in front of the metadata in [prl] and inside [open_of] in [pr]; a #py kind prints no metadata *)
Lemma seq_frame k (M J : str) :
  (if is_py k then t_py else []) ++ (if has_meta k then M else []) ++ open_in k ++ J ++ [close_of k]
  = (if has_meta k then M else []) ++ open_of k ++ J ++ [close_of k].
Proof. destruct k; reflexivity. Qed.

Lemma prl_leaf tg pc len lvl strip v : is_leaf v = true -> prl tg pc len lvl strip v = pr pc strip v.
Proof. destruct v; try discriminate; reflexivity. Qed.

(** * The abbreviation never fires: a set of levels [L], closed under decrement and containing
    nil, on which no level test fires, and a length that no length test sees *)
Section Inert.
  Variable tg : tguards.
  Variable pc : pctl.
  Variable len : option N.
  Variable L : option Z -> Prop.
  Hypothesis L_none : L None.
  Hypothesis L_dec : forall lv, L lv -> L (dec_level lv).
  Hypothesis seq_level_off : forall lv, L lv -> level_hit (g_seq_level tg) (p_dup pc) lv = false.
  Hypothesis map_level_off : forall lv, L lv -> level_hit (g_map_level tg) (p_dup pc) lv = false.
  Hypothesis seq_length_off : length_on (g_seq_length tg) (p_dup pc) len = None.
  Hypothesis map_length_off : length_on (g_map_length tg) (p_dup pc) len = None.

  Let P (v : value) : Prop := forall strip lv, L lv -> prl tg pc len lv strip v = pr pc strip v.

  Lemma inert_mapbody m lv : Pm P m -> L lv -> lmapbody tg pc len lv m = mapbody pc m.
  Proof.
    intros Hm Hl. unfold lmapbody, mapbody, mapbody_g. rewrite map_length_off. unfold truncate, idl.
    set (b := is_some (if p_nsmaps pc then shared_ns m else None)). clearbody b.
    do 4 f_equal. apply map_ext_Forall. revert Hm. apply Forall_impl. intros kv [Hk Hv].
    now rewrite (Hk _ _ (L_dec _ Hl)), (Hv _ _ (L_dec _ Hl)).
  Qed.

  Lemma inert_metapfx meta lv : Po P meta -> L lv -> lmetapfx tg pc len lv meta = metapfx pc meta.
  Proof.
    destruct meta as [mm|]; intros Hm Hl; [|reflexivity]. unfold lmetapfx, metapfx. simpl.
    now rewrite (map_level_off _ Hl), (inert_mapbody mm lv Hm Hl).
  Qed.

  Lemma inert_all : forall v, P v.
  Proof.
    induction v as [v Lf|ns nm meta IHm|k l meta IHl IHm|py m meta IHe IHm] using value_ind'; intros strip lv Hl.
    - now apply prl_leaf.
    - destruct strip; [reflexivity|]. now rewrite prl_sym, pr_sym, (inert_metapfx meta lv IHm Hl).
    - rewrite prl_seq, (pr_seq pc strip), (seq_level_off _ Hl), seq_length_off.
      rewrite (inert_metapfx meta (dec_level lv) IHm (L_dec _ Hl)). unfold truncate.
      rewrite (map_ext_Forall (prl tg pc len (dec_level lv) false) (pr pc false)); [apply seq_frame|].
      revert IHl. apply Forall_impl. intros x Hx. apply Hx, L_dec, Hl.
    - rewrite prl_map, (pr_map pc strip), (map_level_off _ Hl).
      rewrite (inert_metapfx meta None IHm L_none), (inert_mapbody m lv IHe Hl). now destruct py.
  Qed.
End Inert.

(** * With both limits nil, [prl] is the printer of Printer.v -- whatever the guards *)
Theorem prl_nil_limits : forall tg pc strip v, prl tg pc None None strip v = pr pc strip v.
Proof.
  intros tg pc strip v.
  apply (inert_all tg pc None (fun lv => lv = None)); try reflexivity; try (intros lv ->).
  - reflexivity.
  - apply andb_false_r.
  - apply andb_false_r.
  - unfold length_on. now destruct (if g_seq_length tg then _ else _).
  - unfold length_on. now destruct (if g_map_length tg then _ else _).
Qed.

(** * Under *print-dup*, guarded tests never fire: every length, every level, every value *)
Theorem prl_dup_ignores_limits : forall tg pc len lvl strip v,
  all_guarded tg = true -> p_dup pc = true ->
  prl tg pc len lvl strip v = pr pc strip v.
Proof.
  intros tg pc len lvl strip v Hg Hd.
  unfold all_guarded in Hg. apply andb_prop in Hg as [Hg G4]. apply andb_prop in Hg as [Hg G3].
  apply andb_prop in Hg as [G1 G2].
  apply (inert_all tg pc len (fun _ => True)); intros; try exact I;
    unfold level_hit, length_on; rewrite ?G1, ?G2, ?G3, ?G4, ?Hd; reflexivity.
Qed.

(** the guards of the current tree: the obligation over the regenerated table *)
Lemma table_trunc_guards : the_guards = TG true true true true /\ length pr_trunc_guards = 4%nat.
Proof. vm_compute. split; reflexivity. Qed.

Theorem printl_dup_ignores_limits : forall pc lim v, p_dup pc = true -> printl pc lim v = print pc v.
Proof.
  intros pc lim v Hd. unfold printl, print. apply prl_dup_ignores_limits; [|exact Hd].
  now rewrite (proj1 table_trunc_guards).
Qed.

(** * The guards are needed.  [[1 [2 [3]]]] and [{:a 1, :b 2, :c 3}] under *print-dup*:
    - the code before the repair tested the level without [not print_dup];
    - the seeded regression drops the conjunct from the length test of [map_lrepr]. *)
Definition pc_dup : pctl := PC true false false true.
Definition w_nested : value :=
  VSeq KVec [VInt 1; VSeq KVec [VInt 2; VSeq KVec [VInt 3] None] None] None.
Definition w_map3 : value :=
  VMap false [(VKw None [97], VInt 1); (VKw None [98], VInt 2); (VKw None [99], VInt 3)] None.
Definition read0 := read_text (@Some str) (@Some str) (@Some str) (@Some str) (@Some str) (fun _ => true).

Lemma legacy_level_refuted :
  let tg := TG false true false true in
  prl tg pc_dup None (Some 1%Z) false w_nested = [91; 49; 32; 35; 93]              (* [1 #] *)
  /\ prl tg pc_dup None (Some 0%Z) false w_nested = [35]                             (* # *)
  /\ (exists e, read0 (prl tg pc_dup None (Some 1%Z) false w_nested) = RErr e)
  /\ read0 (print pc_dup w_nested) = ROk [w_nested].
Proof. vm_compute. repeat split; try reflexivity. eexists; reflexivity. Qed.

Lemma unguarded_map_length_refuted :
  let tg := TG true true true false in
  prl tg pc_dup (Some 2) None false w_map3
  = [123; 58; 97; 32; 49; 44; 32; 58; 98; 32; 50; 44; 32; 46; 46; 46; 125]          (* {:a 1, :b 2, ...} *)
  /\ (exists e, read0 (prl tg pc_dup (Some 2) None false w_map3) = RErr e)
  /\ read0 (print pc_dup w_map3) = ROk [w_map3].
Proof. vm_compute. repeat split; try reflexivity. eexists; reflexivity. Qed.

(** truncation as the code does it when *print-dup* is off (what the correspondence compares on
    the settings that do not claim readability) *)
Example truncation_examples :
  let tg := TG true true true true in
  let pc := PC false true false true in
  let m1 := Some [(VKw None [97], VInt 1)] in
  let v := VSeq KVec [VInt 1; VSeq KPyList [VInt 2; VInt 3; VInt 4] None; w_map3] m1 in
  prl tg pc (Some 2) None false v
    = [94; 123; 58; 97; 32; 49; 125; 32; 91; 49; 32; 35; 112; 121; 32; 91; 50; 32; 51; 32; 46; 46; 46; 93; 32; 46; 46; 46; 93]
      (* ^{:a 1} [1 #py [2 3 ...] ...] *)
  /\ prl tg pc None (Some 1%Z) false v
    = [94; 35; 32; 91; 49; 32; 35; 112; 121; 32; 35; 32; 35; 93]                     (* ^# [1 #py # #] *)
  /\ prl tg pc (Some 0) (Some 2%Z) false v
    = [94; 123; 46; 46; 46; 125; 32; 91; 46; 46; 46; 93].                            (* ^{...} [...] *)
Proof. vm_compute. repeat split; reflexivity. Qed.
