(** C19, bencode.  The decoder runs on fuel; the round trip and prefix-freeness are proved for
    EVERY fuel with "or out of fuel" as an extra outcome ([upto], [bad]), and [decode_star_fuel]
    shows that the fuel [decode] supplies never runs out. *)
From Coq Require Import List NArith ZArith Bool Lia Permutation Sorted.
Import ListNotations.
From Verif Require Import Common.ListX Common.Order Common.Sort C19.Bencode C19.Spec.
Local Open Scope N_scope.

Lemma skipn_S_length_app {A} (l r : list A) x : skipn (S (length l)) (l ++ x :: r) = r.
Proof. induction l; simpl in *; auto. Qed.

Lemma index_of_none c l : (forall x, In x l -> x <> c) -> index_of c l = None.
Proof.
  induction l as [|x t IH]; simpl; intro H; [reflexivity|].
  destruct (N.eqb_spec x c) as [E|_]; [exfalso; apply (H x); auto|].
  rewrite IH; auto.
Qed.

Lemma index_of_app c l r : (forall x, In x l -> x <> c) -> index_of c (l ++ c :: r) = Some (length l).
Proof.
  induction l as [|x t IH]; simpl; intro H.
  - rewrite N.eqb_refl. reflexivity.
  - destruct (N.eqb_spec x c) as [E|_]; [exfalso; apply (H x); auto|].
    rewrite IH; auto.
Qed.

(** [Spec.digits_value] with an accumulator, the form [scan_digits] computes *)
Definition uval_acc (acc : N) (l : bytes) : N := fold_left (fun a c => 10 * a + (c - 48)) l acc.

Lemma is_digit_iff c : is_digit c = true <-> 48 <= c <= 57.
Proof. unfold is_digit. rewrite andb_true_iff, !N.leb_le. reflexivity. Qed.

Lemma digit_range c : is_digit c = true -> 48 <= c <= 57.
Proof. apply is_digit_iff. Qed.

(** The numerals [udigits] prints are non-empty
    runs of digits with the right value and, except for 0, no leading zero.  The fuel
    [N.size n] of [dec_N] is enough because [n < 2 ^ N.size n]. *)
Lemma udigits_spec f : forall n, n < 2 ^ N.of_nat f ->
  exists c t, udigits (S f) n = c :: t /\ forallb is_digit (c :: t) = true
              /\ uval_acc 0 (c :: t) = n /\ (n <> 0 -> c <> 48).
Proof.
  induction f as [|f IH]; intros n Hn.
  - change (N.of_nat 0) with 0 in Hn. rewrite N.pow_0_r in Hn. assert (n = 0) by lia. subst.
    exists 48, []. repeat split; congruence.
  - change (udigits (S (S f)) n)
      with (if n <? 10 then [48 + n] else udigits (S f) (n / 10) ++ [48 + n mod 10]).
    destruct (N.ltb_spec n 10) as [L|L].
    + exists (48 + n), []. repeat split; [|unfold uval_acc; cbn [fold_left]; lia|lia].
      cbn [forallb]. rewrite andb_true_r. apply is_digit_iff. lia.
    + pose proof (N.div_mod n 10 ltac:(lia)) as DM. pose proof (N.mod_lt n 10 ltac:(lia)) as ML.
      destruct (IH (n / 10)) as (c & t & E & D & V & NZ).
      { apply N.div_lt_upper_bound; [lia|]. rewrite Nat2N.inj_succ, N.pow_succ_r' in Hn. lia. }
      (* lia does not see through [n / 10] and [n mod 10] *)
      generalize dependent (n mod 10). generalize dependent (n / 10). intros q E V NZ m DM ML.
      rewrite E. exists c, (t ++ [48 + m]). rewrite app_comm_cons. repeat split.
      * rewrite forallb_app, D. cbn [forallb]. rewrite andb_true_r. apply is_digit_iff. lia.
      * unfold uval_acc in *. rewrite fold_left_app, V. cbn [fold_left]. lia.
      * intros _. apply NZ. lia.
Qed.

Lemma dec_N_shape n :
  exists c t, dec_N n = c :: t /\ forallb is_digit (c :: t) = true
              /\ uval_acc 0 (c :: t) = n /\ (n <> 0 -> c <> 48).
Proof. apply udigits_spec. rewrite N2Nat.id. apply N.size_gt. Qed.

Lemma dec_N_spec n :
  uval_acc 0 (dec_N n) = n /\ forallb is_digit (dec_N n) = true /\ dec_N n <> [].
Proof. destruct (dec_N_shape n) as (c & t & -> & D & V & _). repeat split; auto. discriminate. Qed.

Lemma dec_N_canonical n : n <> 0 -> exists c t, dec_N n = c :: t /\ c <> 48 /\ forallb is_digit (c :: t) = true.
Proof. intro NZ. destruct (dec_N_shape n) as (c & t & E & D & _ & H). exists c, t. auto. Qed.

Lemma dec_N_chars n x : In x (dec_N n) -> 48 <= x <= 57.
Proof.
  destruct (dec_N_spec n) as (_ & D & _). intro I.
  rewrite forallb_forall in D. apply digit_range, D, I.
Qed.

Lemma dec_N_no (c : N) n : ~ (48 <= c <= 57) -> forall x, In x (dec_N n) -> x <> c.
Proof. intros H x I E. subst. apply H. eapply dec_N_chars; eauto. Qed.

Lemma dec_Z_chars z x : In x (dec_Z z) -> x = 45 \/ 48 <= x <= 57.
Proof.
  unfold dec_Z. destruct (z <? 0)%Z; simpl; intro I.
  - destruct I as [E|I]; [left; congruence|right; eapply dec_N_chars; eauto].
  - right; eapply dec_N_chars; eauto.
Qed.

Lemma scan_digits_all l : forall acc, forallb is_digit l = true -> scan_digits 1 acc l = Some (uval_acc acc l).
Proof.
  induction l as [|c t IH]; intros acc H; simpl in *; [reflexivity|].
  apply andb_true_iff in H as [Hc Ht]. rewrite Hc. apply IH, Ht.
Qed.

Lemma scan_digits_start l : l <> [] -> forallb is_digit l = true -> scan_digits 0 0 l = Some (uval_acc 0 l).
Proof.
  destruct l as [|c t]; [congruence|]. intros _ H. simpl in *.
  apply andb_true_iff in H as [Hc Ht]. rewrite Hc. apply scan_digits_all, Ht.
Qed.

Lemma digit_not_space c : is_digit c = true -> is_space c = false.
Proof.
  intro H. apply digit_range in H. unfold is_space.
  destruct (N.eqb_spec c 32); [lia|]. destruct (N.leb_spec 9 c), (N.leb_spec c 13); simpl; try reflexivity; lia.
Qed.

Lemma py_int_dec_N n : py_int (dec_N n) = Some (Z.of_N n).
Proof.
  destruct (dec_N_shape n) as (c & t & -> & D & V & _).
  pose proof D as D'. simpl in D'. apply andb_true_iff in D' as [Hc _].
  unfold py_int. simpl drop_spaces. rewrite (digit_not_space _ Hc). apply digit_range in Hc.
  destruct (N.eqb_spec c 45); [lia|]. destruct (N.eqb_spec c 43); [lia|].
  rewrite scan_digits_start, V by (auto; discriminate). reflexivity.
Qed.

Lemma py_int_dec_Z z : py_int (dec_Z z) = Some z.
Proof.
  unfold dec_Z. destruct (Z.ltb_spec z 0) as [L|L].
  - destruct (dec_N_spec (Z.abs_N z)) as (V & D & NE).
    unfold py_int. simpl drop_spaces. change (is_space 45) with false. cbn iota.
    change (45 =? 45) with true. cbn iota.
    rewrite scan_digits_start, V by auto. simpl. f_equal. lia.
  - rewrite py_int_dec_N. f_equal. lia.
Qed.

(** Coq's own principle for [bval] has no hypothesis for the elements of the nested lists. *)
Section BvalInd.
  Variable P : bval -> Prop.
  Hypothesis Hnil : P BNil.
  Hypothesis Hint : forall z, P (BInt z).
  Hypothesis Hstr : forall s, P (BStr s).
  Hypothesis Hlist : forall l, Forall P l -> P (BList l).
  Hypothesis Hdict : forall m, Forall (fun kv => P (snd kv)) m -> P (BDict m).
  Fixpoint bval_ind' (v : bval) : P v :=
    match v with
    | BNil => Hnil
    | BInt z => Hint z
    | BStr s => Hstr s
    | BList l => Hlist l ((fix go (l : list bval) : Forall P l :=
                             match l with
                             | [] => Forall_nil _
                             | x :: t => Forall_cons x (bval_ind' x) (go t)
                             end) l)
    | BDict m => Hdict m ((fix go (m : list (bytes * bval)) : Forall (fun kv => P (snd kv)) m :=
                             match m with
                             | [] => Forall_nil _
                             | kv :: t => Forall_cons kv (bval_ind' (snd kv)) (go t)
                             end) m)
    end.
End BvalInd.

(** stating both for every fuel spares a lemma about the decoder being monotone in the fuel *)
Definition upto {A} (r expected : res A) : Prop := r = Fuel \/ r = expected.
Definition bad {A} (r : res A) : Prop := r = Fuel \/ r = Exc.

Lemma prefix_split {A} (l1 l2 p q : list A) :
  l1 ++ l2 = p ++ q -> (exists t, t <> [] /\ l1 = p ++ t) \/ (exists t, p = l1 ++ t /\ l2 = t ++ q).
Proof.
  intro E. apply app_eq_app in E as (l & [[E1 E2]|[E1 E2]]).
  - destruct l as [|a l].
    + right. exists []. rewrite app_nil_r in *. subst. split; reflexivity.
    + left. exists (a :: l). split; [discriminate|assumption].
  - right. exists l. auto.
Qed.

Definition encp (kv : bytes * bval) : bytes := enc_bstr (fst kv) ++ encode (snd kv).

Lemma enc_bstr_head s : exists c t, enc_bstr s = c :: t /\ 48 <= c <= 57.
Proof.
  unfold enc_bstr. destruct (dec_N_shape (N.of_nat (length s))) as (c & t & E & D & _).
  exists c, (t ++ 58 :: s). rewrite E. split; [reflexivity|].
  simpl in D. apply andb_true_iff in D as [D _]. apply digit_range, D.
Qed.

Lemma encode_head v : exists c t, encode v = c :: t /\ c <> 101.
Proof.
  destruct v; simpl.
  - exists 48, [58]. split; [reflexivity|lia].
  - eexists _, _. split; [reflexivity|lia].
  - destruct (enc_bstr_head s) as (c & t & E & R). exists c, t. split; [assumption|lia].
  - eexists _, _. split; [reflexivity|lia].
  - eexists _, _. split; [reflexivity|lia].
Qed.

Lemma keys_sorted_iff ks : keys_sorted ks = true <-> StronglySorted (fun a b => str_ltb a b = true) ks.
Proof.
  induction ks as [|k t IH]; simpl; [split; [constructor|reflexivity]|].
  rewrite andb_true_iff, forallb_forall, IH, <- Forall_forall. split.
  - intros [A B]. constructor; assumption.
  - intro S. inversion S; auto.
Qed.

Lemma sort_pairs_sorted (l : list (bytes * bytes)) : keys_sorted (map fst l) = true -> sort_pairs l = l.
Proof.
  intro K. apply sort_fixed. apply keys_sorted_iff in K.
  induction l as [|x l IH]; [constructor|]. inversion K as [|? ? Kl Kx]; subst. constructor; [auto|].
  rewrite Forall_forall in *. intros y I. apply str_ltb_asym, Kx, in_map, I.
Qed.

Lemma encode_dict_sorted m : keys_sorted (map fst m) = true ->
  encode (BDict m) = 100 :: concat (map encp m) ++ [101].
Proof.
  intro H. simpl. rewrite sort_pairs_sorted.
  - rewrite map_map. reflexivity.
  - rewrite map_map. simpl. exact H.
Qed.

Lemma decode_bstr_rt s r : decode_bstr (enc_bstr s ++ r) = Ok (BStr s, r).
Proof.
  unfold enc_bstr, decode_bstr. rewrite <- app_assoc. simpl app.
  rewrite index_of_app by (apply dec_N_no; lia).
  rewrite firstn_length_app, py_int_dec_N, skipn_S_length_app.
  destruct s as [|a s].
  - reflexivity.
  - destruct (Z.eqb_spec (Z.of_N (N.of_nat (length (a :: s)))) 0) as [E|_]; [simpl in E; lia|].
    unfold slice_to, slice_from. simpl app.
    destruct (Z.ltb_spec (Z.of_nat (length (a :: s ++ r))) (Z.of_N (N.of_nat (length (a :: s))))) as [L|_].
    { rewrite nat_N_Z in L. simpl length in L. rewrite app_length in L. lia. }
    destruct (Z.leb_spec 0 (Z.of_N (N.of_nat (length (a :: s))))) as [_|L]; [|lia].
    rewrite nat_N_Z, Nat2Z.id.
    change (a :: s ++ r) with ((a :: s) ++ r). rewrite firstn_length_app, skipn_length_app. reflexivity.
Qed.

Lemma index_of_lt c l i : index_of c l = Some i -> (i < length l)%nat.
Proof.
  revert i. induction l as [|x t IH]; simpl; intros i H; [discriminate|].
  destruct (x =? c).
  - inversion H. lia.
  - destruct (index_of c t) eqn:E; simpl in H; [|discriminate]. inversion H. specialize (IH _ eq_refl). lia.
Qed.

Lemma decode_bstr_prefix s p q : q <> [] -> enc_bstr s = p ++ q -> decode_bstr p = Exc.
Proof.
  intros Q E. unfold enc_bstr in E. apply prefix_split in E as [(t & T & E)|(t & E1 & E2)].
  - (* cut inside the length digits *)
    unfold decode_bstr. rewrite index_of_none; [reflexivity|].
    intros x I. apply (dec_N_no 58 (N.of_nat (length s))); [lia|]. rewrite E. apply in_or_app. auto.
  - destruct t as [|c t].
    + rewrite app_nil_r in E1. subst p. unfold decode_bstr. rewrite index_of_none; [reflexivity|].
      apply dec_N_no. lia.
    + simpl in E2. inversion E2; subst c. subst p.
      unfold decode_bstr. rewrite index_of_app by (apply dec_N_no; lia).
      rewrite firstn_length_app, py_int_dec_N, skipn_S_length_app.
      assert (L : (length s = length t + length q)%nat) by (rewrite H1, app_length; reflexivity).
      assert (0 < length q)%nat by (destruct q; [congruence|simpl; lia]).
      destruct (Z.eqb_spec (Z.of_N (N.of_nat (length s))) 0) as [E|_]; [lia|].
      unfold slice_to. destruct t as [|a t]; [reflexivity|].
      destruct (Z.ltb_spec (Z.of_nat (length (a :: t))) (Z.of_N (N.of_nat (length s)))) as [_|L']; [reflexivity|].
      rewrite nat_N_Z in L'. lia.
Qed.

Lemma decode_star_digit f c t : 48 <= c <= 57 -> decode_star (S f) (c :: t) = decode_bstr (c :: t).
Proof.
  intro R. simpl.
  destruct (N.eqb_spec c 105); [lia|]. destruct (N.eqb_spec c 108); [lia|]. destruct (N.eqb_spec c 100); [lia|].
  reflexivity.
Qed.

Lemma decode_list_step f data acc c t : data = c :: t -> c <> 101 ->
  decode_list (S f) data acc =
  match decode_star f data with
  | Ok (v, d) => decode_list f d (acc ++ [v])
  | Exc => Exc
  | Fuel => Fuel
  end.
Proof. intros -> H. simpl. destruct (N.eqb_spec c 101); [congruence|reflexivity]. Qed.

Lemma decode_dict_step f data m c t : data = c :: t -> c <> 101 ->
  decode_dict (S f) data m =
  match decode_bstr data with
  | Ok (BStr k, d) =>
      match decode_star f d with
      | Ok (v, d') => decode_dict f d' (dict_assoc k v m)
      | Exc => Exc
      | Fuel => Fuel
      end
  | Ok (_, _) => Exc
  | Exc => Exc
  | Fuel => Fuel
  end.
Proof. intros -> H. simpl. destruct (N.eqb_spec c 101); [congruence|reflexivity]. Qed.

Lemma keys_sorted_app_lt l1 k l2 :
  keys_sorted (l1 ++ k :: l2) = true -> Forall (fun a => str_ltb a k = true) l1.
Proof.
  induction l1 as [|a l1 IH]; simpl; intro H; [constructor|].
  apply andb_true_iff in H as [Ha Hl]. constructor; [|apply IH, Hl].
  rewrite forallb_app in Ha. apply andb_true_iff in Ha as [_ Ha]. simpl in Ha.
  apply andb_true_iff in Ha as [Ha _]. exact Ha.
Qed.

Lemma dict_assoc_append k v acc :
  Forall (fun a => str_ltb a k = true) (map fst acc) -> dict_assoc k v acc = acc ++ [(k, v)].
Proof.
  induction acc as [|[k' v'] acc IH]; simpl; intro H; [reflexivity|].
  inversion H; subst. rewrite (str_ltb_asym _ _ H2).
  destruct (str_eqb k k') eqn:E.
  - apply str_eqb_eq in E. subst. rewrite str_ltb_irrefl in H2. discriminate.
  - rewrite IH by assumption. reflexivity.
Qed.

Definition rt_at (v : bval) : Prop :=
  wf v = true -> forall f r, upto (decode_star f (encode v ++ r)) (Ok (v, r)).

Lemma rt_list l : Forall rt_at l -> forallb wf l = true ->
  forall f acc r, upto (decode_list f (concat (map encode l) ++ 101 :: r) acc) (Ok (BList (acc ++ l), r)).
Proof.
  induction l as [|x l IH]; intros HF W f acc r.
  - destruct f; [left; reflexivity|]. right. simpl. rewrite app_nil_r. reflexivity.
  - inversion HF as [|? ? Hx Hl]; subst. simpl in W. apply andb_true_iff in W as [Wx Wl].
    destruct f as [|f]; [left; reflexivity|].
    simpl concat. rewrite <- app_assoc.
    destruct (encode_head x) as (c & t & E & Hc).
    rewrite (decode_list_step f _ acc c (t ++ concat (map encode l) ++ 101 :: r)) by (rewrite ?E; auto).
    destruct (Hx Wx f (concat (map encode l) ++ 101 :: r)) as [R|R]; rewrite R; [left; reflexivity|].
    replace (acc ++ x :: l) with ((acc ++ [x]) ++ l) by (rewrite <- app_assoc; reflexivity).
    apply IH; assumption.
Qed.

Lemma rt_dict m : Forall (fun kv => rt_at (snd kv)) m -> forallb (fun kv => wf (snd kv)) m = true ->
  forall f acc r, keys_sorted (map fst (acc ++ m)) = true ->
  upto (decode_dict f (concat (map encp m) ++ 101 :: r) acc) (Ok (BDict (acc ++ m), r)).
Proof.
  induction m as [|[k v] m IH]; intros HF W f acc r KS.
  - destruct f; [left; reflexivity|]. right. simpl. rewrite app_nil_r. reflexivity.
  - inversion HF as [|? ? Hx Hl]; subst. simpl in W, Hx. apply andb_true_iff in W as [Wx Wl].
    destruct f as [|f]; [left; reflexivity|].
    simpl concat. unfold encp at 1. simpl fst; simpl snd. rewrite <- !app_assoc.
    destruct (enc_bstr_head k) as (c & t & E & Hc).
    rewrite (decode_dict_step f _ acc c (t ++ encode v ++ concat (map encp m) ++ 101 :: r))
      by (rewrite ?E; auto; lia).
    rewrite decode_bstr_rt.
    destruct (Hx Wx f (concat (map encp m) ++ 101 :: r)) as [R|R]; rewrite R; [left; reflexivity|].
    rewrite dict_assoc_append.
    + replace (acc ++ (k, v) :: m) with ((acc ++ [(k, v)]) ++ m) by (rewrite <- app_assoc; reflexivity).
      apply IH; try assumption. rewrite <- app_assoc. exact KS.
    + rewrite map_app in KS. simpl in KS. eapply keys_sorted_app_lt; eauto.
Qed.

Lemma rt_all v : rt_at v.
Proof.
  induction v using bval_ind'; intros W f r; simpl in W; [discriminate|..];
    (destruct f; [left; reflexivity|]).
  - right. simpl.
    unfold decode_int. rewrite <- app_assoc. simpl app.
    rewrite index_of_app.
    + rewrite firstn_length_app, py_int_dec_Z, skipn_S_length_app. reflexivity.
    + intros x I E. apply dec_Z_chars in I. lia.
  - right. destruct (enc_bstr_head s) as (c & t & E & R). simpl encode. rewrite E. simpl app.
    rewrite decode_star_digit by assumption.
    change (c :: t ++ r) with ((c :: t) ++ r). rewrite <- E. apply decode_bstr_rt.
  - simpl encode. simpl app. rewrite <- app_assoc. simpl.
    apply (rt_list l H W f [] r).
  - apply andb_true_iff in W as [KS W]. rewrite encode_dict_sorted by assumption.
    simpl app. rewrite <- app_assoc. simpl.
    apply (rt_dict m H W f [] r). exact KS.
Qed.

Definition pf_at (v : bval) : Prop :=
  wf v = true -> forall p q f, q <> [] -> encode v = p ++ q -> bad (decode_star f p).

Lemma pf_list l : Forall pf_at l -> forallb wf l = true ->
  forall p q f acc, q <> [] -> concat (map encode l) ++ [101] = p ++ q -> bad (decode_list f p acc).
Proof.
  induction l as [|x l IH]; intros HF W p q f acc Q E.
  - simpl in E. destruct p as [|a p]; [destruct f; [left|right]; reflexivity|].
    inversion E. destruct p; [|discriminate]. simpl in *. congruence.
  - inversion HF as [|? ? Hx Hl]; subst. simpl in W. apply andb_true_iff in W as [Wx Wl].
    simpl concat in E. rewrite <- app_assoc in E.
    destruct (encode_head x) as (c & t & Ex & Hc).
    apply prefix_split in E as [(u & U & E)|(u & E1 & E2)].
    + destruct f as [|f]; [left; reflexivity|]. destruct p as [|a p]; [right; reflexivity|].
      assert (a = c) by (rewrite Ex in E; inversion E; reflexivity). subst a.
      rewrite (decode_list_step f _ acc c p) by auto.
      destruct (Hx Wx (c :: p) u f U E) as [R|R]; rewrite R; [left|right]; reflexivity.
    + subst p. destruct f as [|f]; [left; reflexivity|].
      rewrite (decode_list_step f _ acc c (t ++ u)) by (rewrite ?Ex; auto).
      destruct (rt_all x Wx f u) as [R|R]; rewrite R; [left; reflexivity|].
      eapply IH; eauto.
Qed.

Lemma pf_dict m : Forall (fun kv => pf_at (snd kv)) m -> forallb (fun kv => wf (snd kv)) m = true ->
  forall p q f acc, q <> [] -> concat (map encp m) ++ [101] = p ++ q -> bad (decode_dict f p acc).
Proof.
  induction m as [|[k v] m IH]; intros HF W p q f acc Q E.
  - simpl in E. destruct p as [|a p]; [destruct f; [left|right]; reflexivity|].
    inversion E. destruct p; [|discriminate]. simpl in *. congruence.
  - inversion HF as [|? ? Hx Hl]; subst. simpl in W, Hx. apply andb_true_iff in W as [Wx Wl].
    simpl concat in E. unfold encp at 1 in E. simpl fst in E; simpl snd in E. rewrite <- !app_assoc in E.
    destruct (enc_bstr_head k) as (c & t & Ek & Hc).
    apply prefix_split in E as [(u & U & E)|(u & E1 & E2)].
    + (* cut inside the key *)
      destruct f as [|f]; [left; reflexivity|]. destruct p as [|a p]; [right; reflexivity|].
      assert (a = c) by (rewrite Ek in E; inversion E; reflexivity). subst a.
      rewrite (decode_dict_step f _ acc c p) by (auto; lia).
      rewrite (decode_bstr_prefix k (c :: p) u U E). right; reflexivity.
    + subst p. destruct f as [|f]; [left; reflexivity|].
      rewrite (decode_dict_step f _ acc c (t ++ u)) by (rewrite ?Ek; auto; lia).
      rewrite decode_bstr_rt.
      apply prefix_split in E2 as [(w & Wn & E)|(w & E1 & E2)].
      * (* cut inside the value *)
        destruct (Hx Wx u w f Wn E) as [R|R]; rewrite R; [left|right]; reflexivity.
      * subst u. destruct (rt_all v Wx f w) as [R|R]; rewrite R; [left; reflexivity|].
        eapply IH; eauto.
Qed.

Lemma pf_all v : pf_at v.
Proof.
  induction v using bval_ind'; intros W p q f Q E; simpl in W; [discriminate|..];
    (destruct f; [left; reflexivity|]); (destruct p as [|a p]; [right; reflexivity|]).
  - right. simpl in E. injection E as Ea E'. subst a. simpl. unfold decode_int.
    rewrite index_of_none; [reflexivity|].
    intros x I Ex. subst x.
    apply prefix_split in E' as [(u & U & E1)|(u & E1 & E2)].
    + assert (I' : In 101 (dec_Z z)) by (rewrite E1; apply in_or_app; auto).
      apply dec_Z_chars in I'. lia.
    + destruct u as [|b u].
      * rewrite app_nil_r in E1. subst p. apply dec_Z_chars in I. lia.
      * simpl in E2. assert (Eq : u ++ q = []) by (inversion E2; auto).
        apply app_eq_nil in Eq. destruct Eq; congruence.
  - right. simpl in E. destruct (enc_bstr_head s) as (c & t & Es & R).
    assert (a = c) by (rewrite Es in E; inversion E; reflexivity). subst a.
    rewrite decode_star_digit by assumption. eapply decode_bstr_prefix; eauto.
  - simpl in E. inversion E; subst a. simpl. eapply pf_list; eauto.
  - apply andb_true_iff in W as [KS W].
    rewrite encode_dict_sorted in E by assumption.
    simpl in E. inversion E; subst a. simpl. eapply pf_dict; eauto.
Qed.

Lemma decode_int_len data v d : decode_int data = Ok (v, d) -> (length d <= length data)%nat.
Proof.
  unfold decode_int. destruct (index_of 101 data) as [i|]; [|discriminate].
  destruct (py_int (firstn i data)); [|discriminate]. intro H.
  assert (E : d = skipn (S i) data) by congruence. rewrite E, skipn_length. lia.
Qed.

Lemma decode_bstr_len data v d : decode_bstr data = Ok (v, d) -> (length d < length data)%nat.
Proof.
  unfold decode_bstr. destruct (index_of 58 data) as [i|] eqn:I; [|discriminate].
  apply index_of_lt in I.
  destruct (py_int (firstn i data)) as [n|]; [|discriminate].
  assert (L : (length (skipn (S i) data) < length data)%nat) by (rewrite skipn_length; lia).
  destruct (n =? 0)%Z.
  - intro H. assert (E : d = skipn (S i) data) by congruence. rewrite E. exact L.
  - destruct (slice_to (skipn (S i) data) n); [|discriminate].
    intro H. assert (E : d = slice_from (skipn (S i) data) n) by congruence. rewrite E.
    unfold slice_from. destruct (0 <=? n)%Z; rewrite skipn_length; lia.
Qed.

Lemma consumes f :
  (forall data v d, decode_star f data = Ok (v, d) -> (length d < length data)%nat) /\
  (forall data acc v d, decode_list f data acc = Ok (v, d) -> (length d < length data)%nat) /\
  (forall data m v d, decode_dict f data m = Ok (v, d) -> (length d < length data)%nat).
Proof.
  induction f as [|f (IHs & IHl & IHd)]; [repeat split; intros; discriminate|].
  repeat split.
  - intros [|c tl] v d; simpl; [discriminate|].
    destruct (c =? 105); [intro H; apply decode_int_len in H; lia|].
    destruct (c =? 108); [intro H; apply IHl in H; lia|].
    destruct (c =? 100); [intro H; apply IHd in H; lia|].
    intro H. apply decode_bstr_len in H. exact H.
  - intros [|c tl] acc v d; simpl; [discriminate|].
    destruct (c =? 101); [intro H; inversion H; subst; lia|].
    destruct (decode_star f (c :: tl)) as [[v1 d1]| |] eqn:E; try discriminate.
    apply IHs in E. intro H. apply IHl in H. simpl in *. lia.
  - intros [|c tl] m v d; simpl; [discriminate|].
    destruct (c =? 101); [intro H; inversion H; subst; lia|].
    destruct (decode_bstr (c :: tl)) as [[k1 d1]| |] eqn:E; try discriminate.
    apply decode_bstr_len in E.
    destruct k1; try discriminate.
    destruct (decode_star f d1) as [[v2 d2]| |] eqn:E2; try discriminate.
    apply IHs in E2. intro H. apply IHd in H. simpl in *. lia.
Qed.

Lemma decode_int_not_fuel data : decode_int data <> Fuel.
Proof.
  unfold decode_int. destruct (index_of 101 data); [|discriminate]. destruct (py_int _); discriminate.
Qed.

Lemma decode_bstr_not_fuel data : decode_bstr data <> Fuel.
Proof.
  unfold decode_bstr. destruct (index_of 58 data); [|discriminate].
  destruct (py_int _); [|discriminate]. destruct (_ =? 0)%Z; [discriminate|].
  destruct (slice_to _ _); discriminate.
Qed.

(** Each level of nesting costs one unit of fuel and one byte, each list or dict item one
    more unit and at least one byte: fuel [2 * length data + 1] cannot run out. *)
Lemma enough f :
  (forall data, (2 * length data < f)%nat -> decode_star f data <> Fuel) /\
  (forall data acc, (2 * length data + 1 < f)%nat -> decode_list f data acc <> Fuel) /\
  (forall data m, (2 * length data + 1 < f)%nat -> decode_dict f data m <> Fuel).
Proof.
  induction f as [|f (IHs & IHl & IHd)]; [repeat split; intros; lia|].
  destruct (consumes f) as (Cs & Cl & Cd).
  repeat split.
  - intros [|c tl] L; simpl; [discriminate|]. simpl in L.
    destruct (c =? 105); [apply decode_int_not_fuel|].
    destruct (c =? 108); [apply IHl; lia|].
    destruct (c =? 100); [apply IHd; lia|].
    apply decode_bstr_not_fuel.
  - intros [|c tl] acc L; simpl; [discriminate|].
    destruct (c =? 101); [discriminate|].
    destruct (decode_star f (c :: tl)) as [[v1 d1]| |] eqn:E.
    + apply Cs in E. apply IHl. simpl in *. lia.
    + discriminate.
    + exfalso. revert E. apply IHs. simpl in *. lia.
  - intros [|c tl] m L; simpl; [discriminate|].
    destruct (c =? 101); [discriminate|].
    destruct (decode_bstr (c :: tl)) as [[k1 d1]| |] eqn:E.
    + apply decode_bstr_len in E. destruct k1; try discriminate.
      destruct (decode_star f d1) as [[v2 d2]| |] eqn:E2.
      * apply Cs in E2. apply IHd. simpl in *. lia.
      * discriminate.
      * exfalso. revert E2. apply IHs. simpl in *. lia.
    + discriminate.
    + destruct (decode_bstr_not_fuel _ E).
Qed.

Theorem decode_star_fuel data : decode_star (fuel_for data) data <> Fuel.
Proof. apply (proj1 (enough (fuel_for data))). unfold fuel_for. lia. Qed.

Theorem decode_fuel data : decode data <> DFuel.
Proof.
  unfold decode. pose proof (decode_star_fuel data).
  destruct (decode_star (fuel_for data) data) as [[[] ?]| |]; congruence.
Qed.

Lemma decode_val_len data v rest : decode data = DVal v rest -> (length rest < length data)%nat.
Proof.
  unfold decode. destruct (decode_star (fuel_for data) data) as [[v1 d1]| |] eqn:E; try discriminate.
  apply (proj1 (consumes _)) in E. destruct v1; intro H; inversion H; subst; exact E.
Qed.

Lemma decode_all_loop_fuel n : forall items data, (length data < n)%nat -> decode_all_loop n items data <> None.
Proof.
  induction n as [|n IH]; intros items data L; [lia|]. simpl.
  destruct (decode data) as [v rest|rest|] eqn:E.
  - apply decode_val_len in E. apply IH. lia.
  - discriminate.
  - exfalso. revert E. apply decode_fuel.
Qed.

Theorem decode_all_fuel data : decode_all data <> None.
Proof. apply decode_all_loop_fuel. lia. Qed.

Theorem bencode_roundtrip v r : wf v = true -> decode (encode v ++ r) = DVal v r.
Proof.
  intro W. unfold decode.
  destruct (rt_all v W (fuel_for (encode v ++ r)) r) as [R|R].
  - exfalso. revert R. apply decode_star_fuel.
  - rewrite R. destruct v; try reflexivity. discriminate.
Qed.

Definition proper_prefix (p e : bytes) : Prop := exists q, q <> [] /\ e = p ++ q.

Theorem bencode_prefix_free v p : wf v = true -> proper_prefix p (encode v) -> decode p = DInc p.
Proof.
  intros W (q & Q & E). unfold decode.
  destruct (pf_all v W p q (fuel_for p) Q E) as [R|R].
  - exfalso. revert R. apply decode_star_fuel.
  - rewrite R. reflexivity.
Qed.

Lemma encode_ref v : wf v = true -> encode v = ref_encode v.
Proof.
  induction v using bval_ind'; intro W; simpl in W; try discriminate; try reflexivity.
  - simpl. do 3 f_equal. apply map_ext_Forall, (Forall_guarded _ _ _ H W).
  - apply andb_true_iff in W as [KS W]. rewrite encode_dict_sorted by assumption.
    simpl. do 3 f_equal. apply map_ext_Forall.
    eapply Forall_impl; [|exact (Forall_guarded _ _ _ H W)].
    intros kv E. unfold encp. rewrite E. reflexivity.
Qed.

Lemma encode_nonempty v : (0 < length (encode v))%nat.
Proof. destruct (encode_head v) as (c & t & E & _). rewrite E. simpl. lia. Qed.

Lemma decode_nil : decode [] = DInc [].
Proof. reflexivity. Qed.

Lemma stream_loop msgs : forallb wf msgs = true -> forall k n items,
  (length (firstn k (concat (map encode msgs))) < n)%nat ->
  decode_all_loop n items (firstn k (concat (map encode msgs))) =
  Some (items ++ fst (split_stream msgs k), snd (split_stream msgs k)).
Proof.
  induction msgs as [|m t IH]; intros W k n items L.
  - simpl. rewrite firstn_nil. destruct n; [simpl in L; lia|]. simpl. rewrite app_nil_r. reflexivity.
  - simpl in W. apply andb_true_iff in W as [Wm Wt].
    simpl map in *. simpl concat in *. rewrite firstn_app in *.
    cbn [split_stream]. rewrite <- (encode_ref m Wm).
    destruct n as [|n]; [lia|]. cbn [decode_all_loop].
    destruct (Nat.leb_spec (length (encode m)) k) as [Le|Gt].
    + rewrite firstn_all2 in * by assumption.
      rewrite bencode_roundtrip by assumption.
      rewrite IH; try assumption.
      * cbn [fst snd]. rewrite <- app_assoc. reflexivity.
      * rewrite app_length in L. pose proof (encode_nonempty m). lia.
    + replace (k - length (encode m))%nat with 0%nat by lia. rewrite firstn_O, app_nil_r.
      rewrite (bencode_prefix_free m) ; try assumption.
      * cbn [fst snd]. rewrite app_nil_r. reflexivity.
      * exists (skipn k (encode m)). split.
        -- intro E. apply (f_equal (@length N)) in E. rewrite skipn_length in E. simpl in E. lia.
        -- symmetry. apply firstn_skipn.
Qed.

Theorem bencode_stream msgs k : forallb wf msgs = true ->
  decode_all (firstn k (concat (map encode msgs))) = Some (split_stream msgs k).
Proof.
  intro W. unfold decode_all. rewrite stream_loop by (auto; lia).
  simpl. destruct (split_stream msgs k); reflexivity.
Qed.

Lemma bencode_nonvacuous :
  let m1 := BDict [([97], BList [BInt (-7); BStr []]); ([98], BStr [101])] in
  let m2 := BInt 10 in
  wf m1 = true /\ wf m2 = true /\
  decode_all (firstn 21 (concat (map encode [m1; m2]))) = Some ([m1], [105; 49]).
Proof. vm_compute. auto. Qed.

(** The writer is injective on well-formed values and its image is a prefix code: what
    precedes the first message boundary determines the message, so no encoding is a proper
    prefix of another and a concatenation of messages has one reading only. *)
Lemma encode_app_inj v w r s : wf v = true -> wf w = true ->
  encode v ++ r = encode w ++ s -> v = w /\ r = s.
Proof.
  intros Hv Hw E. pose proof (bencode_roundtrip v r Hv) as R.
  rewrite E, (bencode_roundtrip w s Hw) in R. inversion R. auto.
Qed.

Theorem encode_prefix_code v w q : wf v = true -> wf w = true ->
  encode v = encode w ++ q -> v = w /\ q = [].
Proof.
  intros Hv Hw E. destruct (encode_app_inj v w [] q Hv Hw) as [A B]; [rewrite app_nil_r; exact E|]. auto.
Qed.

Theorem encode_injective v w : wf v = true -> wf w = true -> encode v = encode w -> v = w.
Proof. intros Hv Hw E. apply (encode_app_inj v w [] [] Hv Hw). congruence. Qed.

Theorem stream_injective : forall ms ns, forallb wf ms = true -> forallb wf ns = true ->
  concat (map encode ms) = concat (map encode ns) -> ms = ns.
Proof.
  assert (NE : forall m t, encode m ++ t <> []).
  { intros m t E. pose proof (encode_nonempty m) as L. destruct (encode m); [inversion L|discriminate]. }
  induction ms as [|m ms IH]; intros [|n ns] Hm Hn E; cbn [map concat forallb] in *.
  - reflexivity.
  - symmetry in E. destruct (NE _ _ E).
  - destruct (NE _ _ E).
  - apply andb_prop in Hm as [Hm Hms]. apply andb_prop in Hn as [Hn Hns].
    destruct (encode_app_inj m n _ _ Hm Hn E) as [-> E']. f_equal. auto.
Qed.

Lemma numeral_canonical z : canonical_numeral (dec_Z z) = true /\ numeral_value (dec_Z z) = z.
Proof.
  unfold dec_Z. destruct (dec_N_shape (Z.abs_N z)) as (c & t & E & D & V & H).
  pose proof D as D'. simpl in D'. apply andb_true_iff in D' as [Dc Dt].
  pose proof (digit_range c Dc) as R. change (uval_acc 0) with digits_value in V.
  destruct (Z.ltb_spec z 0) as [L|L]; rewrite E.
  - assert (N48 : (c =? 48) = false) by (apply N.eqb_neq, H; lia). split.
    + unfold canonical_numeral. change (45 =? 48) with false. change (45 =? 45) with true. cbv iota.
      rewrite Dc, Dt, N48. reflexivity.
    + unfold numeral_value. change (45 =? 45) with true. cbv iota. rewrite V. lia.
  - assert (N45 : (c =? 45) = false) by (apply N.eqb_neq; lia). split.
    + unfold canonical_numeral. rewrite N45, Dc, Dt. destruct (N.eqb_spec c 48) as [->|_]; [|reflexivity].
      (* a leading zero: the number is 0 and its numeral is "0" *)
      destruct (N.eq_dec (Z.abs_N z) 0) as [Z0|NZ]; [|destruct (H NZ); reflexivity].
      rewrite Z0 in E. inversion E. reflexivity.
    + unfold numeral_value. rewrite N45, V. lia.
Qed.

(** Dict entries in any order: [encode] sorts them by key whatever the payload, so
    [encode (norm v) = encode v], and [norm v] is canonical when the keys are distinct. *)
Lemma encode_norm v : encode (norm v) = encode v.
Proof.
  induction v using bval_ind'; try reflexivity.
  - simpl. do 3 f_equal. rewrite map_map. apply map_ext_Forall, H.
  - simpl. do 4 f_equal.
    unfold sort_vals, sort_pairs.
    rewrite (sort_map val_lt key_lt (fun kv => (fst kv, encode (snd kv)))) by reflexivity.
    rewrite map_map. simpl.
    rewrite (map_ext_Forall _ (fun kv => (fst kv, encode (snd kv)))).
    + apply (sort_idempotent _ _ _ (swo_preimage fst _ _ _ str_swo)), Forall_True.
    + eapply Forall_impl; [|exact H]. intros kv E. simpl in E. rewrite E. reflexivity.
Qed.

Lemma distinctb_NoDup l : distinctb l = true <-> NoDup l.
Proof.
  induction l as [|x t IH]; simpl; [split; [constructor|reflexivity]|].
  rewrite andb_true_iff, IH, negb_true_iff. split.
  - intros [A B]. constructor; [|exact B]. intro I.
    rewrite (proj2 (existsb_exists _ _)) in A; [discriminate|]. exists x. split; [exact I|apply str_eqb_refl].
  - intro N. inversion N as [|? ? NI N']; subst. split; [|assumption].
    destruct (existsb (str_eqb x) t) eqn:E; [|reflexivity].
    apply existsb_exists in E as (y & I & E). apply str_eqb_eq in E. subst. contradiction.
Qed.

Lemma sorted_NoDup_strict ks : StronglySorted (ord str_ltb) ks -> NoDup ks -> keys_sorted ks = true.
Proof.
  intros S N. apply keys_sorted_iff. induction S as [|k t S IH F]; [constructor|].
  inversion N; subst. constructor; [auto|].
  rewrite Forall_forall in *. intros x I. specialize (F x I). unfold ord in F.
  destruct (str_ltb k x) eqn:E; [reflexivity|]. rewrite (str_ltb_total k x E F) in *. contradiction.
Qed.

Lemma sorted_keys (l : list (bytes * bval)) : distinctb (map fst l) = true ->
  keys_sorted (map fst (sort_vals l)) = true.
Proof.
  intro D. unfold sort_vals. rewrite (sort_map val_lt str_ltb fst) by reflexivity.
  apply sorted_NoDup_strict.
  - apply (sort_sorted _ _ _ str_swo), Forall_True.
  - apply (Permutation_NoDup (Permutation_sym (sort_perm _ _))), distinctb_NoDup, D.
Qed.

Lemma wf_norm v : dkeys v = true -> wf (norm v) = true.
Proof.
  induction v using bval_ind'; intro D; simpl in *; try assumption; try reflexivity.
  - rewrite forallb_map. apply (forallb_guarded _ _ _ H D).
  - apply andb_true_iff in D as [D1 D2]. apply andb_true_iff. split.
    + apply sorted_keys. rewrite map_map. exact D1.
    + apply forallb_forall, Forall_forall, sort_Forall, Forall_map.
      exact (Forall_guarded _ _ _ H D2).
Qed.

Lemma keys_sorted_distinct ks : keys_sorted ks = true -> distinctb ks = true.
Proof.
  rewrite keys_sorted_iff, distinctb_NoDup. induction 1 as [|k t S IH F]; constructor; [|exact IH].
  intro I. rewrite Forall_forall in F. pose proof (F k I) as L. rewrite str_ltb_irrefl in L. discriminate.
Qed.

Lemma wf_dkeys v : wf v = true -> dkeys v = true.
Proof.
  induction v using bval_ind'; intro W; simpl in *; try assumption; try reflexivity.
  - apply (forallb_guarded _ _ _ H W).
  - apply andb_true_iff in W as [K W].
    rewrite (keys_sorted_distinct _ K). apply (forallb_guarded _ _ _ H W).
Qed.

Theorem bencode_roundtrip_any_order v r : dkeys v = true -> decode (encode v ++ r) = DVal (norm v) r.
Proof. intro D. rewrite <- encode_norm. apply bencode_roundtrip, wf_norm, D. Qed.

(** ... hence for what Lisp hands to [encode] *)
Theorem bencode_coercion x r : dkeys (inj x) = true -> decode (encode_l x ++ r) = DVal (norm (inj x)) r.
Proof. apply bencode_roundtrip_any_order. Qed.
