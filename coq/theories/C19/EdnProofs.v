(** C19, EDN: what the writer emits for a guarded value reads back as that value through both
    readers.  The statement that carries the induction ([edn_rt_all]) lets anything follow that
    may follow a value and bounds the fuel by the length of the text. *)
From Coq Require Import List ZArith Bool Lia.
Import ListNotations.
From Verif Require Import Common.ListX Gen.Tables C19.Bencode C19.BencodeProofs C19.Edn.
Local Open Scope N_scope.

(** everything the proofs need to know about a character allowed in names, checked
    against the generated tables *)
Definition safe_facts (c : N) : bool :=
  implb (safe c)
    (negb (term Edn c) && negb (term Lisp c) && negb (is_ws c) && negb (c =? 47) && negb (c =? 58)
     && negb (c =? 35)
     && (is_digit c || (c =? 45) || ((kind Edn c =? 10) && (kind Lisp c =? 10)))
     && implb (c =? 45) ((kind Edn c =? 7) && (kind Lisp c =? 7))).

Lemma safe_facts_all : forallb safe_facts (map N.of_nat (seq 33 94)) = true.
Proof. vm_compute. reflexivity. Qed.

Lemma safe_range c : safe c = true -> 33 <= c <= 126.
Proof.
  unfold safe. intro H. apply andb_true_iff in H as [H _]. apply andb_true_iff in H as [A B].
  apply N.leb_le in A, B. lia.
Qed.

Lemma safe_fact c : safe c = true ->
  term Edn c = false /\ term Lisp c = false /\ is_ws c = false /\ c <> 47 /\ c <> 58 /\ c <> 35 /\
  (is_digit c = true \/ c = 45 \/ (kind Edn c = 10 /\ kind Lisp c = 10)) /\
  (c = 45 -> kind Edn c = 7 /\ kind Lisp c = 7).
Proof.
  intro S. pose proof (safe_range c S) as R.
  pose proof (range_reflect safe_facts 33 94 safe_facts_all c) as F.
  assert (F' : safe_facts c = true) by (apply F; change (N.of_nat (33 + 94)) with 127; lia). clear F.
  unfold safe_facts in F'. rewrite S in F'. cbn [implb] in F'.
  apply andb_true_iff in F' as [F' F8]. apply andb_true_iff in F' as [F' F7].
  apply andb_true_iff in F' as [F' F6]. apply andb_true_iff in F' as [F' F5].
  apply andb_true_iff in F' as [F' F4]. apply andb_true_iff in F' as [F' F3].
  apply andb_true_iff in F' as [F1 F2].
  apply negb_true_iff in F1, F2, F3, F4, F5, F6.
  apply N.eqb_neq in F4, F5, F6.
  repeat split; auto.
  - apply orb_true_iff in F7 as [F7|F7]; [apply orb_true_iff in F7 as [F7|F7]|].
    + left; exact F7.
    + right; left. apply N.eqb_eq; exact F7.
    + right; right. apply andb_true_iff in F7 as [A B]. apply N.eqb_eq in A, B. auto.
  - subst c. vm_compute. reflexivity.
  - subst c. vm_compute. reflexivity.
Qed.

Lemma term_of d c : term d c = match d with Edn => term Edn c | Lisp => term Lisp c end.
Proof. destruct d; reflexivity. Qed.

Lemma safe_not_term d c : safe c = true -> term d c = false.
Proof. intro S. destruct (safe_fact c S) as (A & B & _). destruct d; assumption. Qed.

(** what may follow a written value: nothing, a space, or a closing bracket *)
Definition rest_ok (rest : str) : bool :=
  match rest with [] => true | c :: _ => mem c [32; 41; 93; 125] end.

(** what the readers need to know about the character after a value *)
Lemma closer_fact c t : rest_ok (c :: t) = true ->
  term Edn c = true /\ term Lisp c = true /\ is_digit c = false /\ (c =? 45) = false /\ (c =? 46) = false
  /\ maybe_num c = false /\ begin_num c = false.
Proof.
  simpl. rewrite !orb_false_r. intro H.
  repeat (apply orb_true_iff in H as [H|H]); apply N.eqb_eq in H; subst; vm_compute; auto 10.
Qed.

(** a token ends at the end of the input or at any terminator *)
Definition tok_end (d : dialect) (rest : str) : Prop :=
  match rest with [] => True | c :: _ => term d c = true end.

Lemma rest_ok_tok_end d rest : rest_ok rest = true -> tok_end d rest.
Proof.
  destruct rest as [|c t]; [exact (fun _ => I)|]. intro H.
  destruct (closer_fact c t H) as (A & B & _). destruct d; assumption.
Qed.

Lemma take_token_prefix d l X : forallb safe l = true ->
  take_token d (l ++ X) = (l ++ fst (take_token d X), snd (take_token d X)).
Proof.
  induction l as [|c t IH]; intro SS; cbn [app take_token].
  - destruct (take_token d X); reflexivity.
  - simpl in SS. apply andb_true_iff in SS as [Sc St].
    rewrite (safe_not_term d c Sc), (IH St). reflexivity.
Qed.

Lemma take_token_app d tok rest :
  forallb safe tok = true -> tok_end d rest -> take_token d (tok ++ rest) = (tok, rest).
Proof.
  intros S T. rewrite (take_token_prefix d tok rest S).
  destruct rest as [|c r]; cbn [take_token]; [|simpl in T; rewrite T]; rewrite app_nil_r; reflexivity.
Qed.

Definition noslash (l : str) : bool := forallb (fun c => negb (c =? 47)) l.

Lemma safe_noslash l : forallb safe l = true -> noslash l = true.
Proof.
  unfold noslash. intro H. rewrite forallb_forall in *. intros c I. specialize (H c I).
  destruct (safe_fact c H) as (_ & _ & _ & N47 & _). apply negb_true_iff, N.eqb_neq, N47.
Qed.

Lemma after_last_slash_none l : noslash l = true -> after_last_slash l = None.
Proof.
  induction l as [|c t IH]; simpl; [reflexivity|]. intro H. apply andb_true_iff in H as [Hc Ht].
  rewrite (IH Ht). apply negb_true_iff in Hc. rewrite Hc. reflexivity.
Qed.

Lemma after_last_slash_app a b : noslash b = true -> after_last_slash (a ++ 47 :: b) = Some b.
Proof.
  intro H. induction a as [|c t IH]; simpl.
  - rewrite (after_last_slash_none b H). reflexivity.
  - rewrite IH. reflexivity.
Qed.

Lemma split_at_none c l : forallb (fun x => negb (x =? c)) l = true -> split_at c l = None.
Proof.
  induction l as [|x t IH]; [reflexivity|]. intro H. simpl in H. apply andb_true_iff in H as [Hx Ht].
  apply negb_true_iff in Hx. simpl. rewrite Hx, (IH Ht). reflexivity.
Qed.

Lemma split_at_first c a b : forallb (fun x => negb (x =? c)) a = true -> split_at c (a ++ c :: b) = Some (a, b).
Proof.
  induction a as [|x t IH]; intro H.
  - simpl. rewrite N.eqb_refl. reflexivity.
  - simpl in H. apply andb_true_iff in H as [Hx Ht]. apply negb_true_iff in Hx.
    simpl. rewrite Hx, (IH Ht). reflexivity.
Qed.

Lemma split_slash_at l : split_slash l = split_at 47 l.
Proof. induction l as [|c t IH]; simpl; [|rewrite IH]; reflexivity. Qed.

Lemma name_ok_inv s : name_ok s = true ->
  exists c t, s = c :: t /\ is_digit c = false /\ forallb safe s = true /\ safe c = true.
Proof.
  destruct s as [|c t]; [discriminate|]. simpl. intro H. apply andb_true_iff in H as [D S].
  apply negb_true_iff in D. exists c, t. repeat split; auto.
  apply andb_true_iff in S as [S _]. exact S.
Qed.

Lemma ident_start_safe c : safe c = true -> is_digit c = false -> ident_start c = true.
Proof.
  intros S D. unfold ident_start. rewrite D. destruct (safe_fact c S) as (_ & _ & _ & N47 & _).
  apply N.eqb_neq in N47. rewrite N47. reflexivity.
Qed.

Lemma valid_ident_2 c c2 t :
  valid_ident (c :: c2 :: t) =
  ident_start c && match after_last_slash (c :: c2 :: t) with
                   | None => true
                   | Some [] => ends_2slash (c :: c2 :: t)
                   | Some (x :: _) => negb (is_digit x)
                   end.
Proof. reflexivity. Qed.

Lemma valid_qualified ns nm : name_ok nm = true -> ns_ok ns = true ->
  valid_ident (qualified ns nm) = true /\ split_ident (qualified ns nm) = (ns, nm)
  /\ forallb safe (match ns with Some n => n ++ nm | None => nm end) = true.
Proof.
  intros Hn Hs. destruct (name_ok_inv nm Hn) as (c & t & E & D & S & Sc).
  pose proof (safe_noslash nm S) as NS.
  destruct ns as [n|]; simpl.
  - simpl in Hs. apply andb_true_iff in Hs as [Hs _].
    destruct (name_ok_inv n Hs) as (c' & t' & E' & D' & S' & Sc').
    pose proof (safe_noslash n S') as NS'.
    repeat split.
    + subst n. simpl app. destruct (t' ++ 47 :: nm) as [|c2 t2] eqn:Et; [destruct t'; discriminate|].
      rewrite valid_ident_2, <- Et.
      rewrite (ident_start_safe c' Sc' D').
      change (c' :: t' ++ 47 :: nm) with ((c' :: t') ++ 47 :: nm).
      rewrite (after_last_slash_app _ nm NS). subst nm. rewrite D. reflexivity.
    + unfold split_ident. destruct (str_eqb (n ++ 47 :: nm) [47]) eqn:Eq.
      * apply str_eqb_eq in Eq. subst n. simpl in Eq. inversion Eq. subst c'.
        destruct (safe_fact 47 Sc') as (_ & _ & _ & N47 & _). congruence.
      * rewrite split_slash_at, (split_at_first 47 n nm NS'). reflexivity.
    + rewrite forallb_app, S', S. reflexivity.
  - repeat split; auto.
    + subst nm. destruct t as [|c2 t2].
      * simpl. rewrite (ident_start_safe c Sc D). apply orb_true_r.
      * rewrite valid_ident_2, (ident_start_safe c Sc D).
        rewrite (after_last_slash_none (c :: c2 :: t2) NS). reflexivity.
    + unfold split_ident. destruct (str_eqb nm [47]) eqn:Eq.
      * apply str_eqb_eq in Eq. subst nm. inversion Eq. subst c.
        destruct (safe_fact 47 Sc) as (_ & _ & _ & N47 & _). congruence.
      * rewrite split_slash_at, (split_at_none 47 nm NS). reflexivity.
Qed.

Lemma qualified_app ns nm rest : qualified ns nm ++ rest =
  (match ns with Some n => n ++ 47 :: nm | None => nm end) ++ rest.
Proof. destruct ns; reflexivity. Qed.

Lemma term_slash d : term d 47 = false.
Proof. destruct d; vm_compute; reflexivity. Qed.

Lemma take_token_qualified d ns nm rest :
  name_ok nm = true -> ns_ok ns = true -> tok_end d rest ->
  take_token d (qualified ns nm ++ rest) = (qualified ns nm, rest).
Proof.
  intros Hn Hs R. destruct (valid_qualified ns nm Hn Hs) as (_ & _ & Sf).
  destruct ns as [n|]; unfold qualified.
  - rewrite forallb_app in Sf. apply andb_true_iff in Sf as [Sn Sm].
    rewrite <- app_assoc. rewrite (take_token_prefix d n _ Sn).
    change ((47 :: nm) ++ rest) with (47 :: (nm ++ rest)).
    cbn [take_token]. rewrite term_slash, (take_token_app d nm rest Sm R). reflexivity.
  - apply take_token_app; assumption.
Qed.

Lemma read_namespaced_qualified d ns nm rest :
  name_ok nm = true -> ns_ok ns = true -> tok_end d rest ->
  read_namespaced d (qualified ns nm ++ rest) = ROk ((ns, nm), rest).
Proof.
  intros Hn Hs R. destruct (valid_qualified ns nm Hn Hs) as (V & Sp & _).
  unfold read_namespaced. rewrite (take_token_qualified d ns nm rest Hn Hs R), V, Sp. reflexivity.
Qed.

Lemma qualified_head ns nm : name_ok nm = true -> ns_ok ns = true ->
  exists c t, qualified ns nm = c :: t /\ safe c = true /\ is_digit c = false.
Proof.
  intros Hn Hs. destruct (name_ok_inv nm Hn) as (c & t & E & D & S & Sc).
  destruct ns as [n|]; simpl.
  - simpl in Hs. apply andb_true_iff in Hs as [Hs _].
    destruct (name_ok_inv n Hs) as (c' & t' & E' & D' & S' & Sc'). subst n.
    exists c', (t' ++ 47 :: nm). auto.
  - exists c, t. auto.
Qed.

Lemma ends_with_safe l : forallb safe l = true -> ends_with 35 l = false.
Proof.
  induction l as [|x t IH]; [reflexivity|]. intro H. simpl in H. apply andb_true_iff in H as [Hx Ht].
  destruct t as [|y t'].
  - simpl. destruct (safe_fact x Hx) as (_ & _ & _ & _ & _ & N35 & _). apply N.eqb_neq. exact N35.
  - change (ends_with 35 (x :: y :: t')) with (ends_with 35 (y :: t')). apply IH, Ht.
Qed.

(** what an unqualified name reads as *)
Definition bare_value (nm : str) : edn :=
  if str_eqb nm s_nil then ENil else if str_eqb nm s_true then EBool true
  else if str_eqb nm s_false then EBool false else ESym None nm.

Lemma read_sym_bare d nm rest : name_ok nm = true -> tok_end d rest ->
  read_sym d (nm ++ rest) = ROk (bare_value nm, rest).
Proof.
  intros Hn T. unfold read_sym. change (nm ++ rest) with (qualified None nm ++ rest).
  rewrite (read_namespaced_qualified d None nm rest Hn eq_refl T).
  destruct (name_ok_inv nm Hn) as (c & t & E & D & S & Sc).
  destruct d; [|rewrite (ends_with_safe nm S); cbn match]; unfold bare_value;
    destruct (str_eqb nm s_nil), (str_eqb nm s_true), (str_eqb nm s_false); reflexivity.
Qed.

Lemma read_sym_ok d ns nm rest : sym_ok ns nm = true -> tok_end d rest ->
  read_sym d (qualified ns nm ++ rest) = ROk (ESym ns nm, rest).
Proof.
  unfold sym_ok. intros H T.
  apply andb_true_iff in H as [H H4]. apply andb_true_iff in H as [H H3]. apply andb_true_iff in H as [H1 H2].
  destruct ns as [n|].
  - unfold read_sym. rewrite (read_namespaced_qualified d (Some n) nm rest H1 H2 T).
    destruct (name_ok_inv nm H1) as (c & t & E & D & S & Sc).
    apply negb_true_iff in H4. simpl in H2. apply andb_true_iff in H2 as [_ Sg].
    destruct d.
    + rewrite H4, Sg. reflexivity.
    + rewrite (ends_with_safe nm S), Sg. reflexivity.
  - apply andb_true_iff in H4 as [H4 Hf]. apply andb_true_iff in H4 as [Hn Ht].
    apply negb_true_iff in Hn, Ht, Hf.
    change (qualified None nm) with nm. rewrite (read_sym_bare d nm rest H1 T).
    unfold bare_value. rewrite Hn, Ht, Hf. reflexivity.
Qed.

Lemma read_kw_ok d ns nm rest : kw_ok d ns nm = true -> tok_end d rest ->
  read_kw d (qualified ns nm ++ rest) = ROk (EKw ns nm, rest).
Proof.
  unfold kw_ok. intros H T.
  apply andb_true_iff in H as [H H3]. apply andb_true_iff in H as [H1 H2].
  destruct (qualified_head ns nm H1 H2) as (c & t & E & Sc & D).
  unfold read_kw.
  assert (A : starts_with 58 (qualified ns nm ++ rest) = false).
  { rewrite E. simpl. destruct (safe_fact c Sc) as (_ & _ & _ & _ & N58 & _). apply N.eqb_neq, N58. }
  assert (B : match qualified ns nm ++ rest with c :: _ => is_digit c | [] => false end = false).
  { rewrite E. simpl. exact D. }
  rewrite A, B, !andb_false_r.
  rewrite (read_namespaced_qualified d ns nm rest H1 H2 T).
  destruct d; simpl in *.
  - apply negb_true_iff in H3. rewrite H3. reflexivity.
  - reflexivity.
Qed.

Definition digit_facts (c : N) : bool :=
  implb (is_digit c)
    ((kind Edn c =? 7) && (kind Lisp c =? 7) && negb (c =? 45) && negb (c =? 46) && maybe_num c && begin_num c).

Lemma digit_facts_all : forallb digit_facts (map N.of_nat (seq 48 10)) = true.
Proof. vm_compute. reflexivity. Qed.

Lemma digit_fact c : is_digit c = true ->
  kind Edn c = 7 /\ kind Lisp c = 7 /\ (c =? 45) = false /\ (c =? 46) = false /\ maybe_num c = true
  /\ begin_num c = true.
Proof.
  intro D. pose proof (digit_range c D) as R.
  pose proof (range_reflect digit_facts 48 10 digit_facts_all c) as F.
  assert (F' : digit_facts c = true) by (apply F; change (N.of_nat (48 + 10)) with 58; lia). clear F.
  unfold digit_facts in F'. rewrite D in F'. cbn [implb] in F'.
  apply andb_true_iff in F' as [F' F6]. apply andb_true_iff in F' as [F' F5].
  apply andb_true_iff in F' as [F' F4]. apply andb_true_iff in F' as [F' F3].
  apply andb_true_iff in F' as [F1 F2].
  apply negb_true_iff in F3, F4. apply N.eqb_eq in F1, F2. auto 10.
Qed.

Lemma kind_digit d c : is_digit c = true -> kind d c = 7.
Proof. intro D. destruct (digit_fact c D) as (A & B & _). destruct d; assumption. Qed.

Lemma kind_minus d : kind d 45 = 7.
Proof. destruct d; vm_compute; reflexivity. Qed.

Section Num.
  Variable pf : str -> option str.

  Definition edn_finish (chars : str) (is_float : bool) (rest : str) : rres (edn * str) :=
    if is_float then match pf chars with Some tok => ROk (EFloat tok, rest) | None => RErr 2 end
    else match py_int chars with Some z => ROk (EInt z, rest) | None => RErr 2 end.

  Lemma edn_num_digits ds : forall chars fl rest, forallb is_digit ds = true ->
    edn_num pf (ds ++ rest) chars fl = edn_num pf rest (chars ++ ds) fl.
  Proof.
    induction ds as [|c t IH]; intros chars fl rest H; simpl app.
    - rewrite app_nil_r. reflexivity.
    - simpl in H. apply andb_true_iff in H as [Hc Ht].
      destruct (digit_fact c Hc) as (_ & _ & N45 & N46 & _).
      cbn [edn_num]. rewrite N45, N46, Hc. rewrite (IH _ _ _ Ht), <- app_assoc. reflexivity.
  Qed.

  Lemma edn_num_end chars fl rest : rest_ok rest = true ->
    edn_num pf rest chars fl = edn_finish chars fl rest.
  Proof.
    intro R. destruct rest as [|c t]; [reflexivity|].
    destruct (closer_fact c t R) as (_ & _ & D & N45 & N46 & _).
    cbn [edn_num]. rewrite N45, N46, D. reflexivity.
  Qed.

  Lemma maybe_not_minus c : maybe_num c = true -> (c =? 45) = false.
  Proof.
    unfold maybe_num. intro H. apply N.eqb_neq. intro E. subst c. vm_compute in H. discriminate.
  Qed.

  Lemma lisp_num_run tk : forall chars rest, forallb maybe_num tk = true ->
    lisp_num pf (tk ++ rest) chars = lisp_num pf rest (chars ++ tk).
  Proof.
    induction tk as [|c t IH]; intros chars rest H; simpl app.
    - rewrite app_nil_r. reflexivity.
    - simpl in H. apply andb_true_iff in H as [Hc Ht].
      cbn [lisp_num]. rewrite (maybe_not_minus c Hc), Hc, (IH _ _ Ht), <- app_assoc. reflexivity.
  Qed.

  Lemma lisp_num_end chars rest : rest_ok rest = true ->
    lisp_num pf rest chars = lisp_classify pf chars rest.
  Proof.
    intro R. destruct rest as [|c t]; [reflexivity|].
    destruct (closer_fact c t R) as (_ & _ & _ & N45 & _ & MN & _).
    cbn [lisp_num]. rewrite N45, MN. reflexivity.
  Qed.

  Lemma edn_num_minus chars fl t :
    edn_num pf (45 :: t) chars fl =
    if match t with c2 :: _ => begin_num c2 | [] => false end then edn_num pf t (chars ++ [45]) fl
    else if pushback_ok chars then read_sym Edn (chars ++ 45 :: t) else RErr 1.
  Proof. reflexivity. Qed.

  Lemma lisp_num_minus chars t :
    lisp_num pf (45 :: t) chars =
    if match t with c2 :: _ => begin_num c2 | [] => false end then lisp_num pf t (chars ++ [45])
    else if pushback_ok chars then read_sym Lisp (chars ++ 45 :: t) else RErr 1.
  Proof. reflexivity. Qed.

  Lemma digits_maybe ds : forallb is_digit ds = true -> forallb maybe_num ds = true.
  Proof.
    intro H. rewrite forallb_forall in *. intros c I. destruct (digit_fact c (H c I)) as (_ & _ & _ & _ & M & _). exact M.
  Qed.
End Num.

Lemma int_body_dec_N n : int_body (dec_N n) = true.
Proof.
  destruct (N.eq_dec n 0) as [->|NZ]; [reflexivity|].
  destruct (dec_N_canonical n NZ) as (c & t & -> & N48 & D).
  simpl in D. apply andb_true_iff in D as [Dc Dt].
  destruct t as [|c2 t2]; [exact Dc|]. unfold int_body. rewrite Dc, Dt.
  apply N.eqb_neq in N48. rewrite N48. reflexivity.
Qed.

Lemma int_body_digits l : int_body l = true -> forallb is_digit l = true /\ l <> [].
Proof.
  destruct l as [|c t]; [discriminate|]. destruct t as [|c2 t2]; simpl.
  - intro H. rewrite H. split; [reflexivity|discriminate].
  - intro H. apply andb_true_iff in H as [H Ht]. apply andb_true_iff in H as [Hc _].
    rewrite Hc. simpl in Ht. rewrite Ht. split; [reflexivity|discriminate].
Qed.

Definition opt_minus (neg : bool) : str := if neg then [45] else [].

Lemma dec_Z_split z : dec_Z z = opt_minus (z <? 0)%Z ++ dec_N (Z.abs_N z).
Proof. unfold dec_Z. destruct (z <? 0)%Z; reflexivity. Qed.

Lemma strip_minus_split tok : tok = opt_minus (starts_with 45 tok) ++ strip_minus tok.
Proof.
  destruct tok as [|c t]; [reflexivity|]. unfold strip_minus, starts_with.
  destruct (N.eqb_spec c 45) as [->|_]; reflexivity.
Qed.

Lemma strip_minus_opt neg c t : is_digit c = true -> strip_minus (opt_minus neg ++ c :: t) = c :: t.
Proof.
  intro D. destruct neg; [reflexivity|]. unfold strip_minus. simpl.
  destruct (digit_fact c D) as (_ & _ & N45 & _). rewrite N45. reflexivity.
Qed.

Lemma digits_no c l : is_digit c = false -> forallb is_digit l = true -> forallb (fun x => negb (x =? c)) l = true.
Proof.
  intros NC D. rewrite forallb_forall in *. intros x I. apply negb_true_iff, N.eqb_neq. intro E. subst x.
  rewrite (D c I) in NC. discriminate.
Qed.

Lemma int_body_nondigit l c : In c l -> is_digit c = false -> int_body l = false.
Proof.
  intros I NC. destruct (int_body l) eqn:E; [|reflexivity].
  apply int_body_digits in E as [D _]. rewrite forallb_forall in D. rewrite (D c I) in NC. discriminate.
Qed.

Lemma split_at_inv c l : forall a b, split_at c l = Some (a, b) ->
  l = a ++ c :: b /\ forallb (fun x => negb (x =? c)) a = true.
Proof.
  induction l as [|x t IH]; simpl; intros a b H; [discriminate|].
  destruct (N.eqb_spec x c) as [->|NE].
  - inversion H; subst. split; reflexivity.
  - destruct (split_at c t) as [[a' b']|]; [|discriminate]. inversion H; subst.
    destruct (IH a' b eq_refl) as [E F]. split; [simpl; f_equal; exact E|].
    simpl. apply N.eqb_neq in NE. rewrite NE, F. reflexivity.
Qed.

Definition table_ok : bool :=
  forallb (fun kr => match snd kr with
                     | [b; e] => (b =? 92) && match assoc e edn_str_escape_chars with
                                              | Some k => k =? fst kr
                                              | None => false
                                              end
                     | _ => false
                     end) edn_write_escapes
  && (match assoc 92 edn_write_escapes with Some _ => true | None => false end)
  && (match assoc 34 edn_write_escapes with Some _ => true | None => false end).

Lemma edn_escape_tables_ok : table_ok = true.
Proof. vm_compute. reflexivity. Qed.

Lemma assoc_in {A} c (t : list (N * A)) r : assoc c t = Some r -> In (c, r) t.
Proof.
  induction t as [|[k v] t IH]; simpl; [discriminate|].
  destruct (N.eqb_spec k c) as [->|_]; intro H; [inversion H; left; reflexivity|right; auto].
Qed.

(** The escape round trip for any writer table [wt], reader table [rt] and string-body
    reader [rd] that treats backslash, quote and other characters the way both sources do:
    [escapes_ok] is the shape of [table_ok]. *)
Section Escapes.
  Variable wt : list (N * str).
  Variable rt : list (N * N).
  Definition escapes_ok : bool :=
    forallb (fun kr => match snd kr with
                       | [b; e] => (b =? 92) && match assoc e rt with Some k => k =? fst kr | None => false end
                       | _ => false
                       end) wt
    && (match assoc 92 wt with Some _ => true | None => false end)
    && (match assoc 34 wt with Some _ => true | None => false end).
  Hypothesis T : escapes_ok = true.
  Variable rd : str -> str -> rres (str * str).
  Hypothesis rd_esc : forall e r t acc, assoc e rt = Some r -> rd (92 :: e :: t) acc = rd t (acc ++ [r]).
  Hypothesis rd_quote : forall t acc, rd (34 :: t) acc = ROk (acc, t).
  Hypothesis rd_plain : forall c t acc, (c =? 92) = false -> (c =? 34) = false -> rd (c :: t) acc = rd t (acc ++ [c]).

  Definition esc1 (c : N) : str := match assoc c wt with Some r => r | None => [c] end.

  Lemma esc1_read c t acc : rd (esc1 c ++ t) acc = rd t (acc ++ [c]).
  Proof.
    unfold escapes_ok in T. apply andb_true_iff in T as [T' T34]. apply andb_true_iff in T' as [T' T92].
    unfold esc1. destruct (assoc c wt) as [r|] eqn:E.
    - apply assoc_in in E. rewrite forallb_forall in T'. specialize (T' _ E). cbn [snd fst] in T'.
      destruct r as [|b [|e [|? ?]]]; try discriminate.
      apply andb_true_iff in T' as [Tb Te]. apply N.eqb_eq in Tb. subst b.
      destruct (assoc e rt) as [k|] eqn:Ek; [|discriminate].
      apply N.eqb_eq in Te. subst k. apply rd_esc, Ek.
    - apply rd_plain; apply N.eqb_neq; intros ->; rewrite E in *; discriminate.
  Qed.

  Lemma escape_read s : forall acc rest, rd (flat_map esc1 s ++ 34 :: rest) acc = ROk (acc ++ s, rest).
  Proof.
    induction s as [|c t IH]; intros acc rest; simpl.
    - rewrite rd_quote, app_nil_r. reflexivity.
    - rewrite <- app_assoc, esc1_read, IH, <- app_assoc. reflexivity.
  Qed.
End Escapes.

Lemma read_str_escape d s : forall acc rest,
  read_str_body d (escape s ++ 34 :: rest) acc = ROk (acc ++ s, rest).
Proof.
  apply (escape_read edn_write_escapes edn_str_escape_chars edn_escape_tables_ok (read_str_body d)).
  - intros e r t a E. cbn [read_str_body]. change (92 =? 92) with true. cbn iota. rewrite E. reflexivity.
  - reflexivity.
  - intros c t a A B. cbn [read_str_body]. rewrite A, B. reflexivity.
Qed.

(** Coq's own principle for [edn] has no hypothesis for the elements of the nested lists. *)
Section EdnInd.
  Variable P : edn -> Prop.
  Hypothesis Hnil : P ENil.
  Hypothesis Hbool : forall b, P (EBool b).
  Hypothesis Hint : forall z, P (EInt z).
  Hypothesis Hfloat : forall t, P (EFloat t).
  Hypothesis Hstr : forall s, P (EStr s).
  Hypothesis Hkw : forall ns nm, P (EKw ns nm).
  Hypothesis Hsym : forall ns nm, P (ESym ns nm).
  Hypothesis Hvec : forall l, Forall P l -> P (EVec l).
  Hypothesis Hlist : forall l, Forall P l -> P (EList l).
  Hypothesis Hset : forall l, Forall P l -> P (ESet l).
  Hypothesis Hmap : forall m, Forall (fun kv => P (fst kv) /\ P (snd kv)) m -> P (EMap m).
  Fixpoint edn_ind' (v : edn) : P v :=
    let go := fix go (l : list edn) : Forall P l :=
                match l with [] => Forall_nil _ | x :: t => Forall_cons x (edn_ind' x) (go t) end in
    match v with
    | ENil => Hnil
    | EBool b => Hbool b
    | EInt z => Hint z
    | EFloat t => Hfloat t
    | EStr s => Hstr s
    | EKw ns nm => Hkw ns nm
    | ESym ns nm => Hsym ns nm
    | EVec l => Hvec l (go l)
    | EList l => Hlist l (go l)
    | ESet l => Hset l (go l)
    | EMap m => Hmap m ((fix gom (m : list (edn * edn)) : Forall (fun kv => P (fst kv) /\ P (snd kv)) m :=
                           match m with
                           | [] => Forall_nil _
                           | kv :: t => Forall_cons kv (conj (edn_ind' (fst kv)) (edn_ind' (snd kv))) (gom t)
                           end) m)
    end.
End EdnInd.

Section Main.
  Variable pf : str -> option str.

  Lemma read_next_sym d f c t : kind d c = 10 -> read_next pf d (S f) (c :: t) = read_sym d (c :: t).
  Proof. intro K. cbn [read_next]. rewrite K. reflexivity. Qed.
  Lemma read_next_num d f c t : kind d c = 7 ->
    read_next pf d (S f) (c :: t) = if is_lisp d then lisp_num pf (c :: t) [] else edn_num pf (c :: t) [] false.
  Proof. intro K. cbn [read_next]. rewrite K. reflexivity. Qed.
  Lemma read_next_kw d f t : read_next pf d (S f) (58 :: t) = read_kw d t.
  Proof. destruct d; reflexivity. Qed.
  Lemma read_next_str d f t : read_next pf d (S f) (34 :: t) =
    match read_str_body d t [] with ROk (s, r) => ROk (EStr s, r) | RErr e => RErr e | RFuel => RFuel end.
  Proof. destruct d; reflexivity. Qed.
  Lemma read_next_vec d f t : read_next pf d (S f) (91 :: t) =
    match read_coll pf d f 93 t [] with ROk (vs, r) => ROk (EVec vs, r) | RErr e => RErr e | RFuel => RFuel end.
  Proof. destruct d; reflexivity. Qed.
  Lemma read_next_list d f t : read_next pf d (S f) (40 :: t) =
    match read_coll pf d f 41 t [] with ROk (vs, r) => ROk (EList vs, r) | RErr e => RErr e | RFuel => RFuel end.
  Proof. destruct d; reflexivity. Qed.
  Lemma read_next_set d f t : read_next pf d (S f) (35 :: 123 :: t) =
    match read_coll pf d f 125 t [] with ROk (vs, r) => ROk (ESet vs, r) | RErr e => RErr e | RFuel => RFuel end.
  Proof. destruct d; reflexivity. Qed.
  Lemma read_next_map d f t : read_next pf d (S f) (123 :: t) =
    match read_coll pf d f 125 t [] with
    | ROk (vs, r) => match pair_up vs with Some m => ROk (EMap m, r) | None => RErr 1 end
    | RErr e => RErr e | RFuel => RFuel end.
  Proof. destruct d; reflexivity. Qed.

  Lemma word_ok w : name_ok w = true -> (forall t, w <> 45 :: t) ->
    forall d f rest, read_next pf d (S f) (w ++ rest) = read_sym d (w ++ rest).
  Proof.
    intros Hw N45 d f rest. destruct (name_ok_inv w Hw) as (c & t & -> & D & _ & Sc).
    destruct (safe_fact c Sc) as (_ & _ & _ & _ & _ & _ & [K|[K|[K1 K2]]] & _).
    - congruence.
    - destruct (N45 t). congruence.
    - apply read_next_sym. destruct d; assumption.
  Qed.

  Lemma rt_word (w : str) d f rest : name_ok w = true -> (forall t, w <> 45 :: t) -> rest_ok rest = true ->
    read_next pf d (S f) (w ++ rest) = ROk (bare_value w, rest).
  Proof.
    intros Hw N45 R. rewrite (word_ok w Hw N45). apply read_sym_bare; [exact Hw|apply rest_ok_tok_end, R].
  Qed.

  (** a number token: an optional minus sign, then a digit *)
  Lemma num_start d f neg c t : is_digit c = true ->
    read_next pf d (S f) (opt_minus neg ++ c :: t) =
    if is_lisp d then lisp_num pf (c :: t) (opt_minus neg) else edn_num pf (c :: t) (opt_minus neg) false.
  Proof.
    intro D. destruct neg; [|apply read_next_num, kind_digit, D].
    destruct (digit_fact c D) as (_ & _ & _ & _ & _ & BN).
    simpl app. rewrite (read_next_num d f 45 _ (kind_minus d)), edn_num_minus, lisp_num_minus, BN. reflexivity.
  Qed.

  Lemma rt_int z d f rest : rest_ok rest = true -> read_next pf d (S f) (dec_Z z ++ rest) = ROk (EInt z, rest).
  Proof.
    intro R. pose proof (py_int_dec_Z z) as PI. rewrite dec_Z_split in *.
    destruct (dec_N_spec (Z.abs_N z)) as (_ & D & NE). pose proof (int_body_dec_N (Z.abs_N z)) as IB.
    destruct (dec_N (Z.abs_N z)) as [|c t]; [congruence|].
    pose proof D as D'. simpl in D'. apply andb_true_iff in D' as [Dc _].
    rewrite <- app_assoc. change ((c :: t) ++ rest) with (c :: t ++ rest). rewrite num_start by exact Dc.
    change (c :: t ++ rest) with ((c :: t) ++ rest). destruct d; simpl is_lisp; cbv iota.
    - rewrite (edn_num_digits pf _ _ _ _ D), (edn_num_end pf _ _ _ R). unfold edn_finish. rewrite PI. reflexivity.
    - rewrite (lisp_num_run pf _ _ _ (digits_maybe _ D)), (lisp_num_end pf _ _ R).
      unfold lisp_classify. rewrite (strip_minus_opt _ c t Dc), IB, PI. reflexivity.
  Qed.

  (** floats: -?D.DDD tokens that [repr] prints *)
  Lemma rt_float tok d f rest : plain_float tok = true -> pf tok = Some tok -> rest_ok rest = true ->
    read_next pf d (S f) (tok ++ rest) = ROk (EFloat tok, rest).
  Proof.
    intros PF IR R. unfold plain_float in PF.
    destruct (split_at 46 (strip_minus tok)) as [[ip fp]|] eqn:SP; [|discriminate].
    apply andb_true_iff in PF as [PF _]. apply andb_true_iff in PF as [IB DF].
    pose proof (proj1 (split_at_inv _ _ _ _ SP)) as EB.
    destruct (int_body_digits ip IB) as (DI & NI). destruct ip as [|c t]; [congruence|].
    pose proof DI as DI'. simpl in DI'. apply andb_true_iff in DI' as [Dc _].
    pose proof (strip_minus_split tok) as ET. rewrite EB in ET.
    set (neg := starts_with 45 tok) in ET. rewrite ET at 1.
    rewrite <- !app_assoc. change ((c :: t) ++ (46 :: fp) ++ rest) with (c :: t ++ 46 :: fp ++ rest).
    rewrite num_start by exact Dc.
    change (c :: t ++ 46 :: fp ++ rest) with ((c :: t) ++ 46 :: fp ++ rest).
    destruct d; simpl is_lisp; cbv iota.
    - rewrite (edn_num_digits pf _ _ _ _ DI). change (edn_num pf (46 :: fp ++ rest) (opt_minus neg ++ c :: t) false)
        with (edn_num pf (fp ++ rest) ((opt_minus neg ++ c :: t) ++ [46]) true).
      rewrite (edn_num_digits pf _ _ _ _ DF), (edn_num_end pf _ _ _ R). unfold edn_finish.
      replace (((opt_minus neg ++ c :: t) ++ [46]) ++ fp) with tok by (rewrite ET at 1; rewrite <- !app_assoc; reflexivity).
      rewrite IR. reflexivity.
    - change (46 :: fp ++ rest) with ((46 :: fp) ++ rest). rewrite app_assoc.
      assert (RUN : forallb maybe_num ((c :: t) ++ 46 :: fp) = true).
      { rewrite forallb_app, (digits_maybe _ DI). simpl. rewrite (digits_maybe fp DF). reflexivity. }
      rewrite (lisp_num_run pf _ _ _ RUN), (lisp_num_end pf _ _ R), <- ET.
      unfold lisp_classify. rewrite EB, (int_body_nondigit _ 46 (in_elt 46 _ _) eq_refl),
        (split_at_first 46 _ _ (digits_no 46 _ eq_refl DI)), IB, DF. simpl.
      rewrite IR. reflexivity.
  Qed.

  Lemma rt_kw d f ns nm rest : kw_ok d ns nm = true -> rest_ok rest = true ->
    read_next pf d (S f) ((58 :: qualified ns nm) ++ rest) = ROk (EKw ns nm, rest).
  Proof. intros K R. simpl app. rewrite read_next_kw. apply read_kw_ok; [assumption|apply rest_ok_tok_end, R]. Qed.

  Lemma rt_str d f s rest :
    read_next pf d (S f) ((34 :: escape s ++ [34]) ++ rest) = ROk (EStr s, rest).
  Proof.
    simpl app. rewrite read_next_str, <- app_assoc. simpl app. rewrite read_str_escape. reflexivity.
  Qed.

  Lemma rt_sym d f ns nm rest : sym_ok ns nm = true -> rest_ok rest = true ->
    read_next pf d (S f) (qualified ns nm ++ rest) = ROk (ESym ns nm, rest).
  Proof.
    intros K R. pose proof K as K'. unfold sym_ok in K'.
    apply andb_true_iff in K' as [K' _]. apply andb_true_iff in K' as [K' DO]. apply andb_true_iff in K' as [H1 H2].
    destruct (qualified_head ns nm H1 H2) as (c & t & E & Sc & D).
    destruct (safe_fact c Sc) as (_ & _ & _ & _ & _ & _ & KK & K45).
    rewrite <- (read_sym_ok d ns nm rest K (rest_ok_tok_end d rest R)). rewrite E in *. simpl app.
    destruct KK as [KK|[KK|[K1 K2]]]; [congruence| |apply read_next_sym; destruct d; assumption].
    subst c. rewrite (read_next_num d f 45 _ (kind_minus d)).
    (* "-" not followed by a digit or "-": pushed back and read as a symbol *)
    assert (NB : match t ++ rest with c2 :: _ => begin_num c2 | [] => false end = false).
    { destruct t as [|c2 t2].
      - simpl. destruct rest as [|r0 rr]; [reflexivity|]. apply (closer_fact r0 rr R).
      - simpl in DO. simpl. apply negb_true_iff in DO. exact DO. }
    destruct d; simpl is_lisp; cbv iota; [rewrite edn_num_minus|rewrite lisp_num_minus]; rewrite NB; reflexivity.
  Qed.

  Definition head_ok (c : N) : bool := negb (is_ws c) && negb (mem c [41; 93; 125]).

  Lemma head_ok_digits : forallb (fun c => implb (is_digit c) (head_ok c)) (map N.of_nat (seq 48 10)) = true.
  Proof. vm_compute. reflexivity. Qed.

  Lemma head_ok_digit c : is_digit c = true -> head_ok c = true.
  Proof.
    intro D. pose proof (digit_range c D) as R.
    pose proof (range_reflect _ 48 10 head_ok_digits c) as F. cbv beta in F.
    rewrite D in F. apply F. simpl. lia.
  Qed.

  Lemma head_ok_safe c : safe c = true -> head_ok c = true.
  Proof.
    intro S. destruct (safe_fact c S) as (T & _ & W & _). unfold head_ok. rewrite W. simpl.
    rewrite !orb_false_r.
    destruct (N.eqb_spec c 41) as [->|_]; [vm_compute in T; discriminate|].
    destruct (N.eqb_spec c 93) as [->|_]; [vm_compute in T; discriminate|].
    destruct (N.eqb_spec c 125) as [->|_]; [vm_compute in T; discriminate|]. reflexivity.
  Qed.

  Lemma closing_char_facts close : mem close [41; 93; 125] = true ->
    is_ws close = false /\ rest_ok [close] = true /\ head_ok close = false.
  Proof.
    simpl. rewrite !orb_false_r. intro H.
    repeat (apply orb_true_iff in H as [H|H]); apply N.eqb_eq in H; subst; vm_compute; auto.
  Qed.

  Lemma opt_minus_head neg c t : is_digit c = true ->
    exists c0 t0, opt_minus neg ++ c :: t = c0 :: t0 /\ head_ok c0 = true.
  Proof.
    intro D. destruct neg; eexists _, _; (split; [reflexivity|]); [vm_compute; reflexivity|apply head_ok_digit, D].
  Qed.

  Definition sep (l : list edn) : str := concat (map (fun v => 32 :: write v) l).
  Definition flat (m : list (edn * edn)) : list edn := concat (map (fun kv => [fst kv; snd kv]) m).

  Lemma write_elems_sep x t : write_elems (map write (x :: t)) = write x ++ sep t.
  Proof.
    revert x. induction t as [|y t IH]; intro x.
    - simpl. reflexivity.
    - change (write_elems (map write (x :: y :: t))) with (write x ++ 32 :: write_elems (map write (y :: t))).
      rewrite IH. reflexivity.
  Qed.

  Lemma map_write_flat m :
    concat (map (fun kv => [write (fst kv); write (snd kv)]) m) = map write (flat m).
  Proof. induction m as [|kv m IH]; simpl; [reflexivity|]. rewrite IH. reflexivity. Qed.

  Lemma sep_len l : (length (sep l) <= S (length (write_elems (map write l))))%nat.
  Proof.
    destruct l as [|x t]; [simpl; lia|]. rewrite write_elems_sep.
    change (sep (x :: t)) with (32 :: write x ++ sep t). simpl. lia.
  Qed.

  Lemma Forall_flat (P : edn -> Prop) m : Forall (fun kv => P (fst kv) /\ P (snd kv)) m -> Forall P (flat m).
  Proof. unfold flat. induction 1 as [|kv m [A B] _ IH]; simpl; auto. Qed.

  Lemma forallb_flat (p : edn -> bool) m : forallb p (flat m) = forallb (fun kv => p (fst kv) && p (snd kv)) m.
  Proof. induction m as [|kv m IH]; simpl; [reflexivity|]. unfold flat in IH. rewrite IH, andb_assoc. reflexivity. Qed.

  (** [isr t]: the token [t] is what [repr] prints for some float *)
  Variable isr : str -> bool.
  Hypothesis Hpf : forall t, isr t = true -> pf t = Some t.

  Lemma write_head d v : guard isr d v = true -> exists c t, write v = c :: t /\ head_ok c = true.
  Proof.
    destruct v; simpl; intro G; try (eexists _, _; split; [reflexivity|vm_compute; reflexivity]).
    - destruct b; eexists _, _; (split; [reflexivity|vm_compute; reflexivity]).
    - rewrite dec_Z_split. destruct (dec_N_shape (Z.abs_N z)) as (c & t & -> & D & _).
      simpl in D. apply andb_true_iff in D as [Dc _]. apply opt_minus_head, Dc.
    - apply andb_true_iff in G as [PF _]. unfold plain_float in PF.
      destruct (split_at 46 (strip_minus tok)) as [[ip fp]|] eqn:SP; [|discriminate].
      apply andb_true_iff in PF as [PF _]. apply andb_true_iff in PF as [IB _].
      apply split_at_inv in SP as [SP _]. destruct (int_body_digits ip IB) as (DI & NI).
      destruct ip as [|c t]; [congruence|]. simpl in DI. apply andb_true_iff in DI as [Dc _].
      rewrite (strip_minus_split tok), SP. apply opt_minus_head, Dc.
    - unfold sym_ok in G. apply andb_true_iff in G as [G _]. apply andb_true_iff in G as [G _].
      apply andb_true_iff in G as [H1 H2].
      destruct (qualified_head ns nm H1 H2) as (c & t & E & Sc & _). exists c, t. split; [exact E|].
      apply head_ok_safe, Sc.
  Qed.

  (** [read_string] supplies one unit of fuel per character; every value and every collection
      item consumes at least one, so the length of the text still to read bounds the fuel needed *)
  Definition edn_rt_at (d : dialect) (v : edn) : Prop :=
    guard isr d v = true -> forall f rest, rest_ok rest = true -> (length (write v) < f)%nat ->
    read_next pf d f (write v ++ rest) = ROk (v, rest).

  Lemma read_coll_space d f close Z acc :
    read_coll pf d f close (32 :: Z) acc = read_coll pf d f close Z acc.
  Proof. destruct f; reflexivity. Qed.

  Lemma read_coll_step d f close c t acc : is_ws c = false -> (c =? close) = false ->
    read_coll pf d (S f) close (c :: t) acc =
    match read_next pf d f (c :: t) with
    | ROk (v, r) => read_coll pf d f close r (acc ++ [v])
    | RErr e => RErr e
    | RFuel => RFuel
    end.
  Proof. intros W C. cbn [read_coll drop_ws]. rewrite W, C. reflexivity. Qed.

  Lemma read_coll_close d f close t acc : is_ws close = false ->
    read_coll pf d (S f) close (close :: t) acc = ROk (acc, t).
  Proof. intro W. cbn [read_coll drop_ws]. rewrite W, N.eqb_refl. reflexivity. Qed.

  Lemma rest_ok_sep t close rest : mem close [41; 93; 125] = true -> rest_ok (sep t ++ close :: rest) = true.
  Proof.
    intro C. destruct t as [|y t]; simpl.
    - destruct (closing_char_facts close C) as (_ & R & _). simpl in R. exact R.
    - reflexivity.
  Qed.

  Lemma read_elems d l : Forall (edn_rt_at d) l -> forallb (guard isr d) l = true ->
    forall f acc rest close, mem close [41; 93; 125] = true ->
    (length (sep l) < f)%nat ->
    read_coll pf d f close (sep l ++ close :: rest) acc = ROk (acc ++ l, rest).
  Proof.
    induction l as [|x t IH]; intros HF G f acc rest close C L.
    - destruct f as [|f]; [simpl in L; lia|]. destruct (closing_char_facts close C) as (W & _).
      change (sep [] ++ close :: rest) with (close :: rest).
      rewrite read_coll_close by assumption. rewrite app_nil_r. reflexivity.
    - inversion HF as [|? ? Hx Ht]; subst. simpl in G. apply andb_true_iff in G as [Gx Gt].
      destruct f as [|f]; [simpl in L; lia|].
      change (sep (x :: t)) with ((32 :: write x) ++ sep t) in *. rewrite <- app_assoc. simpl app.
      rewrite read_coll_space.
      destruct (write_head d x Gx) as (c & tl & E & HO).
      unfold head_ok in HO. apply andb_true_iff in HO as [W NC]. apply negb_true_iff in W, NC.
      assert (CC : (c =? close) = false).
      { apply N.eqb_neq. intro X. subst c. congruence. }
      pose proof (Hx Gx f (sep t ++ close :: rest) (rest_ok_sep t close rest C)) as RX.
      simpl in L. rewrite app_length in L.
      rewrite E in *. simpl app in *. rewrite (read_coll_step d f close c _ acc W CC).
      rewrite RX by lia.
      replace (acc ++ x :: t) with ((acc ++ [x]) ++ t) by (rewrite <- app_assoc; reflexivity).
      apply IH; auto. lia.
  Qed.

  Lemma read_coll_elems d f close l rest acc :
    read_coll pf d f close (write_elems (map write l) ++ close :: rest) acc =
    read_coll pf d f close (sep l ++ close :: rest) acc.
  Proof.
    destruct l as [|x t]; [reflexivity|]. rewrite write_elems_sep.
    change (sep (x :: t)) with ((32 :: write x) ++ sep t). simpl app. rewrite read_coll_space.
    rewrite <- app_assoc. reflexivity.
  Qed.

  (** the items between an opening text [o] and the closing character *)
  Lemma read_body d l f rest (o : str) close : Forall (edn_rt_at d) l -> forallb (guard isr d) l = true ->
    mem close [41; 93; 125] = true -> o <> [] ->
    (length (o ++ write_elems (map write l) ++ [close]) < S f)%nat ->
    read_coll pf d f close (write_elems (map write l) ++ close :: rest) [] = ROk (l, rest).
  Proof.
    intros HF G C NE L. rewrite read_coll_elems. apply (read_elems d l HF G f [] rest close C).
    pose proof (sep_len l). rewrite !app_length in L. destruct o; [congruence|]. simpl in L. lia.
  Qed.

  Lemma pair_up_flat m : pair_up (flat m) = Some m.
  Proof. induction m as [|[k v] m IH]; simpl; [reflexivity|]. unfold flat in IH. rewrite IH. reflexivity. Qed.

  Theorem edn_rt_all d v : edn_rt_at d v.
  Proof.
    induction v using edn_ind'; intros G f rest R L; simpl in G; (destruct f as [|f]; [lia|]).
    - exact (rt_word s_nil d f rest eq_refl ltac:(discriminate) R).
    - destruct b; [exact (rt_word s_true d f rest eq_refl ltac:(discriminate) R)
                  |exact (rt_word s_false d f rest eq_refl ltac:(discriminate) R)].
    - apply rt_int, R.
    - apply andb_true_iff in G as [PF IR]. apply rt_float; auto.
    - apply rt_str.
    - apply rt_kw; assumption.
    - apply rt_sym; assumption.
    - simpl write in *. simpl app. rewrite read_next_vec, <- app_assoc. simpl app.
      rewrite (read_body d l f rest [91] 93 H G eq_refl ltac:(discriminate) L). reflexivity.
    - simpl write in *. simpl app. rewrite read_next_list, <- app_assoc. simpl app.
      rewrite (read_body d l f rest [40] 41 H G eq_refl ltac:(discriminate) L). reflexivity.
    - simpl write in *. simpl app. rewrite read_next_set, <- app_assoc. simpl app.
      rewrite (read_body d l f rest [35; 123] 125 H G eq_refl ltac:(discriminate) L). reflexivity.
    - simpl write in *. simpl app. rewrite read_next_map, <- app_assoc. simpl app.
      rewrite map_write_flat in *. rewrite <- forallb_flat in G.
      rewrite (read_body d (flat m) f rest [123] 125 (Forall_flat _ _ H) G eq_refl ltac:(discriminate) L).
      rewrite pair_up_flat. reflexivity.
  Qed.

  Theorem edn_roundtrip d v : guard isr d v = true -> read_string pf d (write v) = ROk v.
  Proof.
    intro G. unfold read_string.
    pose proof (edn_rt_all d v G (S (length (write v))) [] eq_refl) as H.
    rewrite app_nil_r in H. rewrite H; [reflexivity|lia].
  Qed.
End Main.

(** Witnesses for the findings F-19a, F-19b and (repaired) F-19c *)
Definition tok_1e23 : str := [49; 101; 43; 50; 51].          (* repr(1e23) = "1e+23" *)
Definition kw_a_dot_b : str := [97; 46; 98].                  (* the name of :a.b *)

Lemma edn_float_exp_reads_int pf : read_string pf Edn (write (EFloat tok_1e23)) = ROk (EInt 1).
Proof. vm_compute. reflexivity. Qed.

Lemma edn_kw_dot_rejected pf : read_string pf Edn (write (EKw None kw_a_dot_b)) = RErr 1.
Proof. vm_compute. reflexivity. Qed.

Lemma lisp_kw_dot_accepted pf : read_string pf Lisp (write (EKw None kw_a_dot_b)) = ROk (EKw None kw_a_dot_b).
Proof. vm_compute. reflexivity. Qed.

Lemma lisp_float_exp_reads_float pf :
  pf tok_1e23 = Some tok_1e23 -> read_string pf Lisp (write (EFloat tok_1e23)) = ROk (EFloat tok_1e23).
Proof. intro E. vm_compute. vm_compute in E. rewrite E. reflexivity. Qed.

(** non-vacuity of the guard: a nested value with every constructor *)
Definition sample : edn :=
  EMap [(EKw (Some [97; 46; 98]) [99], EVec [EInt (-12); EFloat [45; 48; 46; 53]; EStr [34; 92; 10; 0; 233]]);
        (ESym None [45; 62], ESet [EList [ENil; EBool true]; ESym (Some [110; 115]) [120]])].
Lemma sample_guard d : guard (fun _ => true) d sample = true.
Proof. destruct d; vm_compute; reflexivity. Qed.
