(** C19, JSON: read-str (write-str v) is the documented coercion of v. *)
From Coq Require Import List ZArith Bool.
Import ListNotations.
From Verif Require Import Common.ListX C19.Json C19.Spec.
Local Open Scope N_scope.

(** Coq's own principle for [jval] has no hypothesis for the elements of the nested lists. *)
Section JInd.
  Variable P : jval -> Prop.
  Hypothesis Hnil : P JNil.
  Hypothesis Hbool : forall b, P (JBool b).
  Hypothesis Hint : forall z, P (JInt z).
  Hypothesis Hfloat : forall t, P (JFloat t).
  Hypothesis Hstr : forall s, P (JStr s).
  Hypothesis Hkw : forall ns nm, P (JKw ns nm).
  Hypothesis Hsym : forall ns nm, P (JSym ns nm).
  Hypothesis Hvec : forall l, Forall P l -> P (JVec l).
  Hypothesis Hlist : forall l, Forall P l -> P (JList l).
  Hypothesis Hset : forall l, Forall P l -> P (JSet l).
  Hypothesis Hmap : forall m, Forall (fun kv => P (snd kv)) m -> P (JMap m).
  Fixpoint jval_ind' (v : jval) : P v :=
    let go := fix go (l : list jval) : Forall P l :=
                match l with [] => Forall_nil _ | x :: t => Forall_cons x (jval_ind' x) (go t) end in
    match v with
    | JNil => Hnil | JBool b => Hbool b | JInt z => Hint z | JFloat t => Hfloat t | JStr s => Hstr s
    | JKw ns nm => Hkw ns nm | JSym ns nm => Hsym ns nm
    | JVec l => Hvec l (go l) | JList l => Hlist l (go l) | JSet l => Hset l (go l)
    | JMap m => Hmap m ((fix gom (m : list (jkey * jval)) : Forall (fun kv => P (snd kv)) m :=
                          match m with
                          | [] => Forall_nil _
                          | kv :: t => Forall_cons kv (jval_ind' (snd kv)) (gom t)
                          end) m)
    end.
End JInd.

(** a dict built from pairs with distinct keys is the list of pairs *)
Lemma dict_set_fresh k v m : existsb (str_eqb k) (map fst m) = false -> dict_set k v m = m ++ [(k, v)].
Proof.
  induction m as [|[k' v'] m IH]; simpl; [reflexivity|]. intro H.
  apply orb_false_iff in H as [H1 H2]. rewrite str_eqb_sym, H1, (IH H2). reflexivity.
Qed.

Lemma nodupb_app_fresh k acc rest : nodupb (acc ++ k :: rest) = true -> existsb (str_eqb k) acc = false.
Proof.
  induction acc as [|k' acc IH]; [reflexivity|]. simpl. intro H.
  apply andb_true_iff in H as [H1 H2]. apply negb_true_iff in H1.
  rewrite existsb_app in H1. apply orb_false_iff in H1 as [_ H1]. simpl in H1.
  apply orb_false_iff in H1 as [H1 _]. rewrite str_eqb_sym, H1. exact (IH H2).
Qed.

Lemma dict_of_distinct (l : list (str * pj)) : forall acc,
  nodupb (map fst acc ++ map fst l) = true ->
  fold_left (fun a kv => dict_set (fst kv) (snd kv) a) l acc = acc ++ l.
Proof.
  induction l as [|[k v] l IH]; intros acc H; simpl.
  - rewrite app_nil_r. reflexivity.
  - rewrite dict_set_fresh by exact (nodupb_app_fresh k _ _ H).
    rewrite IH; [rewrite <- app_assoc; reflexivity|].
    rewrite map_app. simpl. rewrite <- app_assoc. exact H.
Qed.

Lemma coercion_layers v : jkeys_distinct v = true -> from_py (to_py v) = coerce v.
Proof.
  induction v using jval_ind'; intro D; simpl in *; try reflexivity.
  1-3: f_equal; rewrite map_map; apply map_ext_Forall, (Forall_guarded _ _ _ H D).
  apply andb_true_iff in D as [ND D].
  rewrite dict_of_distinct by (simpl; rewrite map_map; exact ND).
  simpl. f_equal. rewrite map_map. apply map_ext_Forall.
  eapply Forall_impl; [|exact (Forall_guarded _ _ _ H D)]. intros kv E. simpl. rewrite E. reflexivity.
Qed.

(** the objects [to_py] hands to json.dumps always have distinct keys *)
Fixpoint pj_wf (p : pj) : bool :=
  match p with
  | PArr l => forallb pj_wf l
  | PObj m => nodupb (map fst m) && forallb (fun kv => pj_wf (snd kv)) m
  | _ => true
  end.

Lemma to_py_wf v : jkeys_distinct v = true -> pj_wf (to_py v) = true.
Proof.
  induction v using jval_ind'; intro D; simpl in *; try reflexivity.
  1-3: rewrite forallb_map; apply (forallb_guarded _ _ _ H D).
  apply andb_true_iff in D as [ND D].
  rewrite dict_of_distinct by (simpl; rewrite map_map; exact ND).
  simpl. rewrite map_map. simpl. rewrite ND, forallb_map. apply (forallb_guarded _ _ _ H D).
Qed.

Section PyJson.
  (** CPython's json.dumps (with the options write-str passes) and json.loads *)
  Variable dumps : pj -> str.
  Variable loads : str -> option pj.
  Hypothesis loads_dumps : forall p, pj_wf p = true -> loads (dumps p) = Some p.

  Definition write_str (v : jval) : str := dumps (to_py v).
  Definition read_str (s : str) : option jval := option_map from_py (loads s).

  Theorem json_coercion v : jkeys_distinct v = true -> read_str (write_str v) = Some (coerce v).
  Proof.
    intro D. unfold read_str, write_str. rewrite loads_dumps by (apply to_py_wf, D).
    simpl. rewrite coercion_layers by exact D. reflexivity.
  Qed.
End PyJson.

(** colliding key names lose an entry (not excluded by the documentation of [:key-fn]) *)
Example json_key_collision :
  from_py (to_py (JMap [(JKKw (Some [97]) [120], JInt 1); (JKKw (Some [98]) [120], JInt 2)]))
  = JMap [(JKStr [120], JInt 2)].
Proof. reflexivity. Qed.
