(** C14 proofs about keyword interning (keyword.py): what a keyword literal of cached code
    is in a process whose string hashes differ from the writer's. *)
From Coq Require Import List ZArith Bool Lia.
Import ListNotations.
From Verif Require Import Common.ListX C14.Cache.

Lemma kwname_eqb_eq a b : kwname_eqb a b = true <-> a = b.
Proof.
  exact (prod_eqb_spec (option_eqb str_eqb) str_eqb (option_eqb_spec str_eqb str_eqb_eq) str_eqb_eq a b).
Qed.

Lemma Forall2_nth {A B} (P : A -> B -> Prop) l1 l2 :
  Forall2 P l1 l2 -> forall i a b, nth_error l1 i = Some a -> nth_error l2 i = Some b -> P a b.
Proof.
  induction 1; intros [|i] a b Ha Hb; simpl in *; try discriminate.
  - inversion Ha; inversion Hb; subst; assumption.
  - eapply IHForall2; eassumption.
Qed.

Section Keywords.
  Variable hash_kw : kwname -> Z.

  Notation step := (step hash_kw).
  Notation run_ops := (run_ops hash_kw).
  Notation kwop_key := (kwop_key hash_kw).

  Lemma step_cases t o :
    (exists k, val_at t (kwop_key o) = Some k /\ step t o = (k, t))
    \/ (val_at t (kwop_key o) = None
        /\ step t o = (mkkw (length t) (kwop_name o) (hash_kw (kwop_name o)),
                       (kwop_key o, mkkw (length t) (kwop_name o) (hash_kw (kwop_name o))) :: t)).
  Proof.
    unfold Cache.step, keyword_from_hash. destruct (val_at t (kwop_key o)) as [k|] eqn:E.
    - left. exists k. split; reflexivity.
    - right. split; reflexivity.
  Qed.

  Lemma step_val t o : val_at (snd (step t o)) (kwop_key o) = Some (fst (step t o)).
  Proof.
    destruct (step_cases t o) as [(k & E & ->)|(E & ->)]; simpl; [exact E|].
    now rewrite Z.eqb_refl.
  Qed.

  Lemma step_mono t o h k : val_at t h = Some k -> val_at (snd (step t o)) h = Some k.
  Proof.
    intro H. destruct (step_cases t o) as [(k' & E & ->)|(E & ->)]; simpl; [exact H|].
    destruct (Z.eqb h (kwop_key o)) eqn:Eh; [|exact H].
    apply Z.eqb_eq in Eh. subst h. congruence.
  Qed.

  Section Sem.
    (** [K h]: the name that table key [h] stands for.  The premise [K (kwop_key o) = kwop_name o]
        on the requests of a history says that no two of them use one key for two different
        names (no collision of the 64-bit hashes involved). *)
    Variable K : Z -> kwname.

    Definition sem_inv (t : intern) : Prop :=
      forall h k, val_at t h = Some k -> k_name k = K h /\ k_hash k = hash_kw (K h).

    Lemma step_sem t o :
      sem_inv t -> K (kwop_key o) = kwop_name o ->
      sem_inv (snd (step t o))
      /\ k_name (fst (step t o)) = kwop_name o
      /\ k_hash (fst (step t o)) = hash_kw (kwop_name o).
    Proof.
      intros I Ko. destruct (step_cases t o) as [(k & E & ->)|(E & ->)]; simpl.
      - destruct (I _ _ E) as [N H]. rewrite Ko in N, H. auto.
      - split; [|auto]. intros h k. simpl.
        destruct (Z.eqb h (kwop_key o)) eqn:Eh.
        + apply Z.eqb_eq in Eh. subst h. intro X; inversion X; subst k; simpl. rewrite Ko. auto.
        + apply I.
    Qed.

    Lemma run_ops_sem ops : forall t,
      sem_inv t -> Forall (fun o => K (kwop_key o) = kwop_name o) ops ->
      Forall2 (fun o k => k_name k = kwop_name o /\ k_hash k = hash_kw (kwop_name o))
              ops (fst (run_ops t ops)).
    Proof.
      induction ops as [|o r IH]; intros t I F; simpl; [constructor|].
      inversion F as [|? ? Ko Fr]; subst.
      destruct (step_sem t o I Ko) as (I' & N & H).
      destruct (step t o) as [k t1] eqn:Es. simpl in *.
      specialize (IH t1 I' Fr). destruct (run_ops t1 r) as [ks t2]. simpl in *.
      constructor; auto.
    Qed.
  End Sem.

  (** the executable form of the premise *)
  Definition keys_consistentb (ops : list kwop) : bool :=
    forallb (fun o1 => forallb (fun o2 =>
      negb (Z.eqb (kwop_key o1) (kwop_key o2)) || kwname_eqb (kwop_name o1) (kwop_name o2)) ops) ops.

  Definition K_of (ops : list kwop) (h : Z) : kwname :=
    match find (fun o => Z.eqb (kwop_key o) h) ops with
    | Some o => kwop_name o
    | None => (None, [])
    end.

  Lemma K_of_ok ops :
    keys_consistentb ops = true -> Forall (fun o => K_of ops (kwop_key o) = kwop_name o) ops.
  Proof.
    intro H. apply Forall_forall. intros o Ho. unfold K_of.
    destruct (find (fun o' => Z.eqb (kwop_key o') (kwop_key o)) ops) as [o'|] eqn:E.
    - apply find_some in E as [Hin Hk].
      unfold keys_consistentb in H. rewrite forallb_forall in H.
      specialize (H o' Hin). rewrite forallb_forall in H. specialize (H o Ho).
      rewrite Hk in H. simpl in H. now apply kwname_eqb_eq.
    - exfalso. pose proof (find_none _ _ E o Ho) as X. simpl in X. now rewrite Z.eqb_refl in X.
  Qed.

  (** whatever hashes the literals carry (whatever process compiled them): the object a
      request yields has the requested name and THIS process's hash of it, so [=], [hash]
      and every hashed lookup treat it exactly as a keyword made here *)
  Theorem kw_semantics ops :
    keys_consistentb ops = true ->
    Forall2 (fun o k => k_name k = kwop_name o /\ k_hash k = hash_kw (kwop_name o))
            ops (fst (run_ops [] ops)).
  Proof.
    intro H. apply (run_ops_sem (K_of ops)); [discriminate|now apply K_of_ok].
  Qed.

  Definition id_inv (t : intern) : Prop :=
    (forall h k, val_at t h = Some k -> (k_id k < length t)%nat)
    /\ (forall h h' k k', val_at t h = Some k -> val_at t h' = Some k' -> k_id k = k_id k' -> h = h').

  Lemma step_id t o : id_inv t -> id_inv (snd (step t o)).
  Proof.
    intros [B I]. destruct (step_cases t o) as [(k & E & ->)|(E & ->)]; simpl; [split; assumption|].
    split.
    - intros h k. simpl. destruct (Z.eqb h (kwop_key o)).
      + intro X; inversion X; simpl. lia.
      + intro X. apply B in X. lia.
    - intros h h' k k'. simpl.
      destruct (Z.eqb h (kwop_key o)) eqn:E1; destruct (Z.eqb h' (kwop_key o)) eqn:E2; intros X Y Z0.
      + apply Z.eqb_eq in E1, E2. congruence.
      + inversion X; subst k; simpl in Z0. apply B in Y. lia.
      + inversion Y; subst k'; simpl in Z0. apply B in X. lia.
      + eapply I; eassumption.
  Qed.

  Lemma run_ops_vals ops : forall t,
    id_inv t ->
    let r := run_ops t ops in
    id_inv (snd r)
    /\ (forall h k, val_at t h = Some k -> val_at (snd r) h = Some k)
    /\ Forall2 (fun o k => val_at (snd r) (kwop_key o) = Some k) ops (fst r).
  Proof.
    induction ops as [|o r IH]; intros t I; simpl.
    - repeat split; auto; try apply I.
    - pose proof (step_id t o I) as I1. pose proof (step_val t o) as V. pose proof (step_mono t o) as M.
      destruct (step t o) as [k t1]. simpl in *.
      destruct (IH t1 I1) as (I2 & M2 & F). destruct (run_ops t1 r) as [ks t2]. simpl in *.
      repeat split; try apply I2; auto.
  Qed.

  (** two requests of a process yield the very same object exactly when they present the
      same table key: a literal carries the hash computed by its compiler, a run-time
      construction uses the hash of the running process *)
  Theorem kw_identity_iff ops i j oi oj ki kj :
    nth_error ops i = Some oi -> nth_error ops j = Some oj ->
    nth_error (fst (run_ops [] ops)) i = Some ki -> nth_error (fst (run_ops [] ops)) j = Some kj ->
    (kw_identical ki kj = true <-> kwop_key oi = kwop_key oj).
  Proof.
    intros Hoi Hoj Hki Hkj.
    destruct (run_ops_vals ops []) as ([B I] & _ & F); [split; discriminate|].
    pose proof (Forall2_nth _ _ _ F i oi ki Hoi Hki) as Vi.
    pose proof (Forall2_nth _ _ _ F j oj kj Hoj Hkj) as Vj. simpl in Vi, Vj.
    unfold kw_identical. rewrite Nat.eqb_eq. split; intro H.
    - eapply I; eassumption.
    - rewrite H in Vi. congruence.
  Qed.

  (** the case of the finding: a literal [:n] whose compiler computed hash [h], and
      [(keyword "n")] in the running process *)
  Corollary literal_vs_constructed h n a b :
    fst (run_ops [] [KLit h n; KNew n]) = [a; b] ->
    (kw_identical a b = true <-> h = hash_kw n)
    /\ kw_eq a b = true /\ k_hash a = k_hash b /\ k_name a = n /\ k_hash a = hash_kw n.
  Proof.
    intro E. split.
    - apply (kw_identity_iff [KLit h n; KNew n] 0 1 (KLit h n) (KNew n) a b); try reflexivity;
        rewrite E; reflexivity.
    - assert (R : kwname_eqb n n = true) by now apply kwname_eqb_eq.
      assert (C : keys_consistentb [KLit h n; KNew n] = true).
      { unfold keys_consistentb. simpl. rewrite R, !orb_true_r. reflexivity. }
      pose proof (kw_semantics _ C) as S. rewrite E in S.
      inversion S as [|? ? ? ? [Na Ha] S']; subst. inversion S' as [|? ? ? ? [Nb Hb] _]; subst.
      simpl in *. repeat split; try congruence.
      unfold kw_eq. rewrite Na, Nb, R. apply orb_true_r.
  Qed.
End Keywords.

(** the witness: hash(("kw", None)) is -7932231888299965713 under PYTHONHASHSEED=1 (the
    writer) and -5457030337372822090 under PYTHONHASHSEED=2 (the reader) *)
Lemma identity_refuted :
  exists (hash_kw : kwname -> Z) (h : Z) (n : kwname) (a b : kwobj),
    fst (run_ops hash_kw [] [KLit h n; KNew n]) = [a; b]
    /\ kw_identical a b = false /\ kw_eq a b = true /\ k_hash a = k_hash b.
Proof.
  exists (fun _ => (-5457030337372822090)%Z), (-7932231888299965713)%Z, (None, [107; 119]%N).
  eexists. eexists. vm_compute. repeat split.
Qed.
