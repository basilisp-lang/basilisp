(** C14 proofs, second part: histories of one process (C14/Reload.v).

    For every history of imports, reloads, edits, damage to the cache file and
    invalidate_caches in which mtime and size identify the content ([honest_history]),
    every (re)load executes the code of the CURRENT source exactly once, takes it from the
    cache only when the header carries the current stats, and leaves behind the cache file
    of the current source.  The proof is an invariant over the steps: the file system stays
    [good] (benign cache, registered source), the process [clean] (no spec carries stats);
    [exec_load_ok] is the case of one load. *)
From Coq Require Import List ZArith Lia.
Import ListNotations.
From Verif Require Import Gen.Tables C14.Cache C14.Spec C14.Proofs C14.Reload.

Section Histories.
  Variable code : Type.
  Variable dumps : code -> bytes.
  Variable loads : bytes -> res code.

  Notation bytecode := (basilisp_bytecode code dumps).
  Notation get := (get_basilisp_bytecode code loads).

  Lemma bytecode_mod m s c m' s' :
    (m mod two32 = m')%Z -> (s mod two32 = s')%Z -> bytecode m s c = bytecode m' s' c.
  Proof.
    intros <- <-. unfold basilisp_bytecode, w_long. now rewrite !Z.mod_mod by (unfold two32; lia).
  Qed.

  Hypothesis H_marshal_roundtrip : forall c, loads (dumps c) = Ok c.
  Hypothesis H_marshal_prefix_fails :
    forall c n, (n < length (dumps c))%nat -> loads (firstn n (dumps c)) = Raise EOFError.

  Variable src : Type.
  Variable compile : src -> code.
  Variable run : code -> option exc.

  Notation fs := (fs src).
  Notation get_cached := (get_cached_code code loads src).
  Notation exec_source := (exec_source code dumps src compile run).
  Notation exec := (exec_module code dumps loads src compile run).
  Notation written := (written code dumps src compile).
  Notation writes := (writes code src compile run).
  Notation executed := (executed code).
  Notation unusable := (unusable code dumps src).

  (** [reg] assigns to every pair of stats (as 32-bit header fields show them) the code
      of the one content a file with these stats has.  A source state is honest when its
      code is the registered one; a cache file is benign when it is of one of the kinds the
      property talks about -- absent, shorter than a header, other magic, a proper prefix
      of a written file, or a complete file written for registered content. *)
  Variable reg : Z -> Z -> code.

  Definition registered (m s : Z) (c : code) : Prop := c = reg (m mod two32)%Z (s mod two32)%Z.

  Inductive benign : option bytes -> Prop :=
  | B_missing : benign None
  | B_short d : (length d < 12)%nat -> benign (Some d)
  | B_bad_magic d : slice 0 4 d <> importer_magic -> benign (Some d)
  | B_truncated m s c n : (n < length (bytecode m s c))%nat -> benign (Some (firstn n (bytecode m s c)))
  | B_complete m s c : registered m s c -> benign (Some (bytecode m s c)).

  Definition src_honest (f : fs) : Prop := registered (f_mtime f) (f_size f) (compile (f_src f)).
  Definition good (f : fs) : Prop := benign (f_cache f) /\ src_honest f.

  (** the kinds of damage of the correspondence keep a file benign *)
  Lemma benign_truncate d n : benign (Some d) -> benign (Some (firstn n d)).
  Proof.
    intro B. remember (Some d) as od eqn:E. destruct B as [|d' L|d' M|m s c k L|m s c R]; inversion E; subst.
    - apply B_short. rewrite firstn_length. lia.
    - destruct (Nat.lt_ge_cases n 4) as [Hn|Hn].
      + apply B_short. rewrite firstn_length. lia.
      + apply B_bad_magic. unfold slice in *. simpl skipn in *. change (4 - 0)%nat with 4%nat in *.
        rewrite firstn_firstn, Nat.min_l by lia. exact M.
    - rewrite firstn_firstn. apply B_truncated. lia.
    - destruct (Nat.lt_ge_cases n (length (bytecode m s c))) as [Hn|Hn].
      + now apply B_truncated.
      + rewrite firstn_all2 by lia. now apply B_complete.
  Qed.

  Lemma benign_other_magic b rest :
    length b = 4%nat -> b <> importer_magic -> benign (Some (b ++ rest)).
  Proof.
    intros L N. apply B_bad_magic.
    destruct b as [|? [|? [|? [|? [|]]]]]; try discriminate L. exact N.
  Qed.

  Lemma benign_crashed_write (f : fs) m s c k :
    (k < length (bytecode m s c))%nat -> benign (f_cache (crashed_write f (bytecode m s c) k)).
  Proof. intro H. simpl. now apply B_truncated. Qed.

  (** a benign cache is [unusable] (Proofs.v), or a complete file for registered content *)
  Lemma benign_cases f :
    benign (f_cache f) ->
    unusable f \/ exists m s c, f_cache f = Some (bytecode m s c) /\ registered m s c.
  Proof.
    intro B. remember (f_cache f) as oc eqn:E. symmetry in E.
    destruct B as [|d L|d M|m s c n L|m s c R].
    - left. now apply U_missing.
    - left. now apply (U_short _ _ _ f d).
    - left. now apply (U_bad_magic _ _ _ f d).
    - left. now apply (U_truncated _ _ _ f m s c n).
    - right. now exists m, s, c.
  Qed.

  Lemma exec_cases dwb f : good f ->
    let c := compile (f_src f) in
    (rejected (get_cached f) /\ exec dwb f = exec_source dwb f)
    \/ (get_cached f = Ok c /\ f_cache f = Some (written f)
        /\ exec dwb f = mkres [EvRunCached c] (run c) f).
  Proof.
    intros [B S] c0. subst c0.
    assert (FB : rejected (get_cached f) -> rejected (get_cached f) /\ exec dwb f = exec_source dwb f).
    { intro D. split; [exact D|]. now apply fallback_is_exec_source. }
    destruct (benign_cases f B) as [U|(m & s & c & Ec & R)].
    { left. apply FB. now apply (unusable_rejected code dumps loads H_marshal_prefix_fails). }
    destruct (complete_cache_cases code dumps loads H_marshal_roundtrip src f m s c Ec) as [(E & Em & Es)|E].
    - right.
      assert (c = compile (f_src f)) as ->.
      { unfold registered in R. unfold src_honest, registered in S.
        rewrite R, S, Em, Es, <- Em, <- Es.
        now rewrite !Z.mod_mod by (unfold two32; lia). }
      repeat split.
      + exact E.
      + rewrite Ec. unfold Proofs.written. now rewrite (bytecode_mod m s _ _ _ Em Es).
      + now apply exec_cached.
    - left. apply FB, rejected_header. now left.
  Qed.

  (** what the property requires of one (re)load that found the file system [f], returned
      [r] and left the process with Vars defined by [vars] *)
  Definition load_ok (dwb : bool) (f : fs) (r : result code src) (vars : option code) : Prop :=
    let c := compile (f_src f) in
    executed (r_trace r) = [c] /\ r_raised r = run c /\ vars = Some c
    /\ (forall c', In (EvRunCached c') (r_trace r) ->
          exists d, f_cache f = Some d /\ header_matches importer_magic (f_mtime f) (f_size f) d)
    /\ (f_cache f = Some (written f) -> in_range (f_mtime f) = true -> in_range (f_size f) = true ->
          r_trace r = [EvRunCached c])
    /\ (r_raised r = None -> dwb = false -> f_cache (r_fs r) = Some (written f))
    /\ (r_raised r <> None \/ dwb = true -> r_fs r = f)
    /\ f_src (r_fs r) = f_src f /\ f_mtime (r_fs r) = f_mtime f /\ f_size (r_fs r) = f_size f.

  Lemma get_cached_header f c :
    get_cached f = Ok c ->
    exists d, f_cache f = Some d /\ header_matches importer_magic (f_mtime f) (f_size f) d.
  Proof.
    unfold get_cached_code, get_data. destruct (f_cache f) as [d|]; [|discriminate].
    intro H. exists d. split; [reflexivity|]. now apply (get_ok_header code loads _ _ _ c).
  Qed.

  Lemma exec_source_load_ok dwb f before :
    (f_cache f = Some (written f) -> in_range (f_mtime f) = true -> in_range (f_size f) = true -> False) ->
    let r := exec_source dwb f in load_ok dwb f r (last_executed (r_trace r) before).
  Proof.
    (* every conjunct is read off [exec_source_eq], in each of its three cases *)
    intros NV r. subst r. rewrite exec_source_eq. unfold load_ok, Proofs.writes.
    destruct (run (compile (f_src f))) as [x|]; [|destruct dwb];
      cbn [r_trace r_raised r_fs negb executed flat_map app last_executed fold_left In set_cache
           f_cache f_src f_mtime f_size];
      repeat split; try congruence; intuition congruence.
  Qed.

  Lemma exec_load_ok dwb f before : good f ->
    let r := exec dwb f in
    load_ok dwb f r (last_executed (r_trace r) before) /\ good (r_fs r).
  Proof.
    intros G r. subst r. pose proof G as [B S].
    destruct (exec_cases dwb f G) as [((e & E & _) & X)|(E & Hc & X)]; rewrite X.
    - split.
      + apply exec_source_load_ok. intros Hc Hm Hs.
        pose proof (valid_cache_loads code dumps loads H_marshal_roundtrip src compile f Hc Hm Hs). congruence.
      + rewrite exec_source_eq. cbn [r_fs]. destruct (writes dwb f); [|exact G].
        split; [|exact S]. apply B_complete. exact S.
    - split; [|exact G]. unfold load_ok. cbn [r_trace r_raised r_fs].
      repeat split; try reflexivity; try assumption.
      + intros c' _. now apply (get_cached_header f (compile (f_src f))).
      + intros _ _. exact Hc.
  Qed.

  Notation step := (step src).
  Notation proc := (proc code).
  Notation state := (state code src).
  Notation do_step := (do_step code dumps loads src compile run false).
  Notation run_hist := (run_hist code dumps loads src compile run false).
  Notation exec_module_h := (exec_module_h code dumps loads src compile run).

  Fixpoint steps_honest (steps : list step) : Prop :=
    match steps with
    | [] => True
    | SEdit s m z :: r => registered m z (compile s) /\ steps_honest r
    | SSetCache d :: r => benign d /\ steps_honest r
    | _ :: r => steps_honest r
    end.

  Definition honest_history (f0 : fs) (steps : list step) : Prop := good f0 /\ steps_honest steps.

  (** what [steps_honest] asks of one step is [steps_honest] of the one-step history *)
  Lemma steps_honest_cons s r : steps_honest (s :: r) -> steps_honest [s] /\ steps_honest r.
  Proof. destruct s; cbn [steps_honest]; tauto. Qed.

  (** no spec of the process carries stats (the code as it is never puts them there) *)
  Definition no_stats (o : option mspec) : Prop := forall sp, o = Some sp -> sp_stats sp = None.
  Definition clean (p : proc) : Prop := no_stats (p_icache p) /\ no_stats (p_module p).

  Lemma no_stats_None : no_stats None.
  Proof. intros sp E. discriminate E. Qed.

  Lemma no_stats_Some sp : sp_stats sp = None -> no_stats (Some sp).
  Proof. intros H sp' E. now inversion E; subst. Qed.

  Lemma with_stats_same (f g : fs) :
    f_mtime g = f_mtime f -> f_size g = f_size f -> with_stats g (path_stats f) = g.
  Proof. intros Hm Hs. unfold with_stats, path_stats. cbn [fst snd]. rewrite <- Hm, <- Hs. now destruct g. Qed.

  Lemma exec_h_ok f p msp r p2 : good f -> clean p -> sp_stats msp = None ->
    exec_module_h f p msp = (r, p2) ->
    load_ok (p_dwb p) f r (p_vars p2) /\ good (r_fs r) /\ clean p2
    /\ p_module p2 = p_module p /\ p_dwb p2 = p_dwb p.
  Proof.
    intros G [Ci Cm] Hm. unfold Reload.exec_module_h.
    assert (Hsp : sp_stats (match p_icache p with Some s => s | None => msp end) = None).
    { destruct (p_icache p) as [s|] eqn:E; [now apply Ci|exact Hm]. }
    rewrite Hsp, (with_stats_same f f) by reflexivity.
    destruct (exec_load_ok (p_dwb p) f (p_vars p) G) as [L G'].
    rewrite with_stats_same by apply L.
    intro E. inversion E; subst r p2. cbn [r_fs p_module p_dwb].
    split; [exact L|]. split; [exact G'|]. split; [|split; reflexivity].
    split; [now apply no_stats_Some|exact Cm].
  Qed.

  Definition inv (st : state) : Prop := good (fst st) /\ clean (snd st).

  Definition obs_ok (x : fs * obs code src * state) : Prop :=
    match x with
    | (f, OLoad r, (f', p')) => load_ok (p_dwb p') f r (p_vars p') /\ f' = r_fs r
    | _ => True
    end.

  Lemma find_spec_none f p :
    sp_stats (fst (find_spec code src false f p)) = None
    /\ p_icache (snd (find_spec code src false f p)) = p_icache p
    /\ p_module (snd (find_spec code src false f p)) = p_module p.
  Proof. repeat split. Qed.

  Lemma step_ok st s : inv st -> steps_honest [s] ->
    obs_ok (fst st, fst (do_step st s), snd (do_step st s)) /\ inv (snd (do_step st s)).
  Proof.
    destruct st as [f p]. intros GI Hs. pose proof GI as [G [Ci Cm]]. cbn [fst snd] in *.
    destruct s as [| | |b|s' m z|d]; cbn [Reload.do_step].
    - (* import: create_module stores the new spec in both places *)
      destruct (p_module p) as [ms|]; [split; [exact I|exact GI]|].
      unfold find_spec, create_module. cbn [p_next p_icache p_module p_vars p_dwb].
      destruct (exec_module_h f _ _) as [r p2] eqn:Ex.
      apply exec_h_ok in Ex as (L & G' & [Ci' Cm'] & M' & D'); try assumption; try reflexivity;
        [|split; now apply no_stats_Some].
      cbn [p_dwb] in D'.
      destruct (r_raised r); cbn [fst snd obs_ok inv p_vars p_dwb p_icache p_module]; rewrite D';
        (split; [split; [exact L|reflexivity]|split; [exact G'|split]]); try assumption.
    - (* reload: only module.__spec__ is replaced *)
      destruct (p_module p) as [ms|]; [|split; [exact I|exact GI]].
      unfold find_spec. cbn [p_next p_icache p_module p_vars p_dwb].
      destruct (exec_module_h f _ _) as [r p2] eqn:Ex.
      apply exec_h_ok in Ex as (L & G' & C' & M' & D'); try assumption; try reflexivity;
        [|split; [exact Ci|now apply no_stats_Some]].
      cbn [p_dwb] in D'. cbn [fst snd obs_ok inv]. rewrite D'.
      split; [split; [exact L|reflexivity]|split; assumption].
    - split; [exact I|]. split; [exact G|]. split; [apply no_stats_None|exact Cm].
    - split; [exact I|]. split; [exact G|]. split; assumption.
    - split; [exact I|]. split; [|split; assumption]. split; [apply G|apply Hs].
    - split; [exact I|]. split; [|split; assumption]. split; [apply Hs|]. destruct G as [_ S]. now destruct f.
  Qed.

  Lemma hist_ok steps : forall st, inv st -> steps_honest steps -> Forall obs_ok (run_hist st steps).
  Proof.
    induction steps as [|s r IH]; intros st Hinv H; cbn [Reload.run_hist]; [constructor|].
    apply steps_honest_cons in H as [Hs Hr].
    destruct (step_ok st s Hinv Hs) as [O Hinv'].
    destruct (do_step st s) as [o st'] eqn:E. cbn [fst snd] in *.
    constructor; [exact O|]. now apply IH.
  Qed.

  Theorem reload_sees_current_source f0 steps :
    honest_history f0 steps ->
    forall f r f' p',
    In (f, OLoad r, (f', p')) (run_hist (f0, fresh) steps) ->
    let c := compile (f_src f) in
    executed (r_trace r) = [c] /\ r_raised r = run c /\ p_vars p' = Some c
    /\ (forall c', In (EvRunCached c') (r_trace r) ->
          exists d, f_cache f = Some d /\ header_matches importer_magic (f_mtime f) (f_size f) d)
    /\ (f_cache f = Some (written f) -> in_range (f_mtime f) = true -> in_range (f_size f) = true ->
          r_trace r = [EvRunCached c])
    /\ (r_raised r = None -> p_dwb p' = false -> f_cache f' = Some (written f))
    /\ (r_raised r <> None \/ p_dwb p' = true -> f' = f)
    /\ f_src f' = f_src f /\ f_mtime f' = f_mtime f /\ f_size f' = f_size f.
  Proof.
    intros [G H] f r f' p' Hin.
    assert (I0 : inv (f0, fresh)) by (split; [exact G|split; apply no_stats_None]).
    pose proof (hist_ok steps _ I0 H) as F. rewrite Forall_forall in F.
    destruct (F _ Hin) as [L ->]. exact L.
  Qed.
End Histories.
