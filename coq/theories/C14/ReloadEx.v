(** C14, histories: the premises of [reload_sees_current_source] are met by a non-trivial
    history (toy marshal codec of Corr.v), and the same history refutes the property for
    the other shape of the loader (stats taken by find_spec and kept in the spec). *)
From Coq Require Import List ZArith Lia.
Import ListNotations.
From Verif Require Import C14.Corr C14.ReloadProofs.

(** version 1 has mtime 1700000000, version 2 has mtime 1700000005, same size *)
Definition ex_reg (m s : Z) : tcode := if Z.eqb m 1700000000 then 1%N else 2%N.
Definition ex_f0 : fs N := mkfs 1%N 1700000000 100 None.
Definition ex_file2 : bytes := basilisp_bytecode tcode (t_dumps TL) 1700000005 100 2%N.

(** import; edit (same size, later mtime); reload; the cache is cut inside the payload;
    reload; invalidate_caches; reload *)
Definition ex_steps : list (step N) :=
  [SImport; SEdit 2%N 1700000005 100; SReload; SSetCache (Some (firstn 20 ex_file2)); SReload;
   SInvalidate; SReload].

Lemma ex_honest : honest_history tcode (t_dumps TL) N i_compile ex_reg ex_f0 ex_steps.
Proof.
  split; [split|].
  - apply B_missing.
  - reflexivity.
  - cbn [steps_honest ex_steps]. repeat split.
    apply (B_truncated tcode (t_dumps TL) ex_reg 1700000005 100 2%N 20). vm_compute. lia.
Qed.

(** per load of a history: the source version current at that moment, the code executed,
    whether it came from the cache, and the version the Vars show afterwards *)
Definition summary (l : list (fs N * obs tcode N * state tcode N)) : list (N * list tcode * bool * option tcode) :=
  flat_map (fun x => match x with
                     | (f, OLoad r, (_, p')) =>
                         [(f_src f, Corr.executed (r_trace r), existsb is_cached (r_trace r), p_vars p')]
                     | _ => []
                     end) l.

Definition ex_run (stats_in_spec : bool) :=
  run_hist tcode (t_dumps TL) (t_loads TL) N i_compile (fun _ => None) stats_in_spec (ex_f0, fresh) ex_steps.

Lemma ex_reload :
  honest_history tcode (t_dumps TL) N i_compile ex_reg ex_f0 ex_steps
  /\ summary (ex_run false)
     = [(1, [1], false, Some 1); (2, [2], false, Some 2); (2, [2], false, Some 2); (2, [2], true, Some 2)]%N
  /\ f_cache (fst (snd (last (ex_run false) (ex_f0, ONothing, (ex_f0, fresh))))) = Some ex_file2.
Proof. split; [exact ex_honest|]. vm_compute. split; reflexivity. Qed.

(** the other shape: the reload after the edit validates the cache against the stats of the
    first import, runs the code of version 1 and leaves version 1's Vars in place *)
Lemma reload_stale_when_stats_in_spec :
  honest_history tcode (t_dumps TL) N i_compile ex_reg ex_f0 ex_steps
  /\ exists f r f' p',
       In (f, OLoad r, (f', p')) (ex_run true)
       /\ f_src f = 2%N
       /\ Proofs.executed tcode (r_trace r) = [i_compile 1%N]
       /\ p_vars p' = Some (i_compile 1%N)
       /\ f_cache f' = Some (golden 1700000000 100).
Proof.
  split; [exact ex_honest|].
  pose (l := ex_run true). assert (E : ex_run true = l) by reflexivity.
  vm_compute in l. rewrite E. subst l.
  do 4 eexists. split; [right; right; left; reflexivity|].
  vm_compute. repeat split.
Qed.

(** ... the cut cache is then rejected (its header is not the one of the first import
    either), version 2 is compiled -- and written under the stats of the first import, a
    file no later process accepts; after invalidate_caches() exec_module falls back to the
    spec made by the reload itself and sees the file as it is *)
Lemma stats_in_spec_summary :
  summary (ex_run true)
  = [(1, [1], false, Some 1); (2, [1], true, Some 1); (2, [2], false, Some 2); (2, [2], false, Some 2)]%N.
Proof. vm_compute. reflexivity. Qed.
