(** C14 proofs: codec, header checks, truncation, staleness, the loader automaton. *)
From Coq Require Import List NArith ZArith Bool Lia.
Import ListNotations.
From Verif Require Import Common.ListX Gen.Tables C14.Cache C14.Spec.

Lemma magic_len : length importer_magic = 4%nat.
Proof. reflexivity. Qed.

Lemma magic_bytes : forallb (fun b => N.ltb b 256) importer_magic = true.
Proof. vm_compute. reflexivity. Qed.

Lemma table_checks : importer_header_checks = encode_checks model_checks.
Proof. vm_compute. reflexivity. Qed.

Lemma table_layout :
  importer_slices = [(0, 4); (4, 8); (8, 12); (12, 0)]%N
  /\ importer_write_layout = [1; 2; 3; 4]%N
  /\ importer_long_codec = [4294967295; 4; 1; 1]%N.
Proof. vm_compute. repeat split. Qed.

(** every class the cache-reading stage of the model can raise on an unusable file
    (see [unusable_rejected]) is in the [except] tuple of exec_module *)
Lemma table_caught_covers : forallb caught [EOFError; ImportError; OSError] = true.
Proof. vm_compute. reflexivity. Qed.

Lemma table_exec_outside_try : importer_exec_in_try = false.
Proof. reflexivity. Qed.

(** the cache-reading stage raised a class that the [except] of exec_module catches
    ([unusable_rejected] below has it written out) *)
Definition rejected {A} (r : res A) : Prop := exists e, r = Raise e /\ caught e = true.

Lemma rejected_header {A} (r : res A) : r = Raise ImportError \/ r = Raise EOFError -> rejected r.
Proof.
  pose proof table_caught_covers as T. cbn [forallb] in T. rewrite !andb_true_iff in T.
  intros [-> | ->]; eexists; (split; [reflexivity|tauto]).
Qed.

Lemma bytes_eqb_eq a b : bytes_eqb a b = true <-> a = b.
Proof. exact (str_eqb_eq a b). Qed.

Lemma to_le_length k : forall v, length (to_le k v) = k.
Proof. induction k; intro v; simpl; [reflexivity|]. now rewrite IHk. Qed.

Lemma r_long_to_le k : forall v, (v < 256 ^ N.of_nat k)%N -> r_long (to_le k v) = v.
Proof.
  induction k as [|k IH]; intros v Hv.
  - simpl in *. lia.
  - cbn [to_le r_long]. rewrite IH.
    + pose proof (N.div_mod' v 256). lia.
    + rewrite Nat2N.inj_succ, N.pow_succ_r' in Hv.
      apply N.div_lt_upper_bound; lia.
Qed.

Lemma w_long_length x : length (w_long x) = 4%nat.
Proof. apply to_le_length. Qed.

Lemma r_w_long x : Z.of_N (r_long (w_long x)) = (x mod two32)%Z.
Proof.
  unfold w_long. assert (B : (0 <= x mod two32 < two32)%Z) by now apply Z.mod_pos_bound.
  rewrite r_long_to_le.
  - rewrite Z2N.id; lia.
  - change (256 ^ N.of_nat 4)%N with (Z.to_N two32). apply Z2N.inj_lt; lia.
Qed.

Lemma in_range_mod x : in_range x = true <-> (x mod two32 = x)%Z.
Proof.
  unfold in_range. rewrite andb_true_iff, Z.leb_le, Z.ltb_lt. fold two32. split; intro H.
  - apply Z.mod_small; exact H.
  - rewrite <- H. apply Z.mod_pos_bound. reflexivity.
Qed.

Lemma mod_eqb_in_range x : Z.eqb (x mod two32) x = in_range x.
Proof. apply eq_true_iff_eq. now rewrite Z.eqb_eq, in_range_mod. Qed.

Lemma w_long_le32 x : in_range x = true -> w_long x = le32 (Z.to_N x).
Proof.
  intro H. apply in_range_mod in H. unfold w_long. rewrite H.
  unfold le32. cbn [to_le]. rewrite !N.div_div by lia. reflexivity.
Qed.

(** the twelve bytes in front of the payload *)
Definition hdr (m s : Z) : bytes := importer_magic ++ w_long m ++ w_long s.

Lemma hdr_length m s : length (hdr m s) = 12%nat.
Proof. unfold hdr. now rewrite !app_length, !w_long_length, magic_len. Qed.

Section Codec.
  Variable code : Type.
  Variable dumps : code -> bytes.
  Variable loads : bytes -> res code.

  Notation bytecode := (basilisp_bytecode code dumps).
  Notation get := (get_basilisp_bytecode code loads).

  Lemma get_is_run_checks m s d :
    get m s d = match run_checks model_checks m s d with
                | Some e => Raise e
                | None => loads (skipn 12 d)
                end.
  Proof.
    unfold get_basilisp_bytecode, run_checks, model_checks, check_fires.
    destruct (negb (bytes_eqb (slice 0 4 d) importer_magic)); [reflexivity|].
    destruct (negb (length (slice 4 8 d) =? 4)%nat); [reflexivity|].
    destruct (negb (Z.of_N (r_long (slice 4 8 d)) =? m)%Z); [reflexivity|].
    destruct (negb (length (slice 8 12 d) =? 4)%nat); [reflexivity|].
    now destruct (negb (Z.of_N (r_long (slice 8 12 d)) =? s)%Z).
  Qed.

  Lemma run_checks_None m s d :
    run_checks model_checks m s d = None -> header_matches importer_magic m s d.
  Proof.
    unfold run_checks, model_checks, check_fires, header_matches, slice.
    change (4 - 0)%nat with 4%nat. change (8 - 4)%nat with 4%nat. change (12 - 8)%nat with 4%nat.
    change (skipn 0 d) with d.
    (* [Spec.le_val] is the same fixpoint as [Cache.r_long] *)
    change le_val with r_long.
    destruct (bytes_eqb (firstn 4 d) importer_magic) eqn:E0; [|discriminate].
    destruct (Nat.eqb (length (firstn 4 (skipn 4 d))) 4); [|discriminate].
    destruct (Z.eqb (Z.of_N (r_long (firstn 4 (skipn 4 d)))) m) eqn:E2; [|discriminate].
    destruct (Nat.eqb (length (firstn 4 (skipn 8 d))) 4) eqn:E3; [|discriminate].
    destruct (Z.eqb (Z.of_N (r_long (firstn 4 (skipn 8 d)))) s) eqn:E4; [|discriminate].
    intros _. apply bytes_eqb_eq in E0. apply Nat.eqb_eq in E3. apply Z.eqb_eq in E2, E4.
    rewrite firstn_length, skipn_length in E3. repeat split; try assumption. lia.
  Qed.

  Lemma run_checks_Some cs m s d e : run_checks cs m s d = Some e -> In e (map snd cs).
  Proof.
    induction cs as [|[k e'] cs IH]; simpl; [discriminate|].
    destruct (check_fires k m s d); [intros [= <-]; now left|right; auto].
  Qed.

  Lemma get_ok_header m s d c : get m s d = Ok c -> header_matches importer_magic m s d.
  Proof.
    rewrite get_is_run_checks. intro H. apply run_checks_None.
    destruct (run_checks model_checks m s d); [discriminate|reflexivity].
  Qed.

  Lemma short_rejected m s d :
    (length d < 12)%nat ->
    get m s d = Raise ImportError \/ get m s d = Raise EOFError.
  Proof.
    intro L. rewrite get_is_run_checks.
    destruct (run_checks model_checks m s d) as [e|] eqn:E.
    - apply run_checks_Some in E. destruct E as [<-|[<-|[<-|[<-|[<-|[]]]]]]; auto.
    - apply run_checks_None in E. destruct E as (_ & L' & _). lia.
  Qed.

  Lemma bad_magic_rejected m s d :
    slice 0 4 d <> importer_magic -> get m s d = Raise ImportError.
  Proof.
    intro H. unfold get_basilisp_bytecode.
    destruct (bytes_eqb (slice 0 4 d) importer_magic) eqn:E; [|reflexivity].
    now apply bytes_eqb_eq in E.
  Qed.

  (** a file with a complete header: with the twelve bytes explicit the slices compute *)
  Lemma get_full_header (g a b p : bytes) m s :
    length g = 4%nat -> length a = 4%nat -> length b = 4%nat ->
    get m s (g ++ a ++ b ++ p) =
      if negb (bytes_eqb g importer_magic) then Raise ImportError
      else if negb (Z.eqb (Z.of_N (r_long a)) m) then Raise ImportError
      else if negb (Z.eqb (Z.of_N (r_long b)) s) then Raise ImportError
      else loads p.
  Proof.
    intros Hg Ha Hb.
    destruct g as [|? [|? [|? [|? [|]]]]]; try discriminate Hg.
    destruct a as [|? [|? [|? [|? [|]]]]]; try discriminate Ha.
    destruct b as [|? [|? [|? [|? [|]]]]]; try discriminate Hb.
    reflexivity.
  Qed.

  Lemma bytecode_hdr m s c : bytecode m s c = hdr m s ++ dumps c.
  Proof. unfold basilisp_bytecode, hdr. now rewrite <- !app_assoc. Qed.

  Lemma get_written m s m' s' (p : bytes) :
    get m' s' (hdr m s ++ p) =
      if negb (Z.eqb (m mod two32) m') then Raise ImportError
      else if negb (Z.eqb (s mod two32) s') then Raise ImportError
      else loads p.
  Proof.
    unfold hdr. rewrite <- !app_assoc.
    rewrite get_full_header by (try apply w_long_length; apply magic_len).
    rewrite (proj2 (bytes_eqb_eq _ _) eq_refl), !r_w_long. reflexivity.
  Qed.

  Lemma get_bytecode m s m' s' c :
    get m' s' (bytecode m s c) =
      if Z.eqb (m mod two32) m' && Z.eqb (s mod two32) s' then loads (dumps c) else Raise ImportError.
  Proof.
    rewrite bytecode_hdr, get_written.
    now destruct (Z.eqb (m mod two32) m'), (Z.eqb (s mod two32) s').
  Qed.

  Lemma stale_rejected_mod m s m' s' c :
    ((m mod two32)%Z, (s mod two32)%Z) <> (m', s') -> get m' s' (bytecode m s c) = Raise ImportError.
  Proof.
    intro Hne. rewrite get_bytecode.
    destruct (Z.eqb_spec (m mod two32) m') as [E1|]; [|reflexivity].
    destruct (Z.eqb_spec (s mod two32) s') as [E2|]; [|reflexivity]. congruence.
  Qed.

  Lemma stale_rejected m s m' s' c :
    in_range m = true -> in_range s = true -> (m, s) <> (m', s') ->
    get m' s' (bytecode m s c) = Raise ImportError.
  Proof.
    intros Hm Hs Hne. apply stale_rejected_mod. apply in_range_mod in Hm, Hs. now rewrite Hm, Hs.
  Qed.

  Hypothesis H_marshal_roundtrip : forall c, loads (dumps c) = Ok c.

  Lemma roundtrip m s c :
    get m s (bytecode m s c) =
      if in_range m && in_range s then Ok c else Raise ImportError.
  Proof.
    rewrite get_bytecode, !mod_eqb_in_range, H_marshal_roundtrip. reflexivity.
  Qed.

  Lemma stale_wraps m s m' s' c :
    (m mod two32 = m')%Z -> (s mod two32 = s')%Z -> get m' s' (bytecode m s c) = Ok c.
  Proof. intros <- <-. rewrite get_bytecode, !Z.eqb_refl. apply H_marshal_roundtrip. Qed.

  Hypothesis H_marshal_prefix_fails :
    forall c n, (n < length (dumps c))%nat -> loads (firstn n (dumps c)) = Raise EOFError.

  Lemma bytecode_length m s c : length (bytecode m s c) = (12 + length (dumps c))%nat.
  Proof. now rewrite bytecode_hdr, app_length, hdr_length. Qed.

  Lemma truncated_rejected m s c m' s' n :
    (n < length (bytecode m s c))%nat ->
    get m' s' (firstn n (bytecode m s c)) = Raise ImportError
    \/ get m' s' (firstn n (bytecode m s c)) = Raise EOFError.
  Proof.
    intro H. destruct (Nat.lt_ge_cases n 12) as [Hn|Hn].
    - apply short_rejected. rewrite firstn_length. lia.
    - rewrite bytecode_length in H.
      rewrite bytecode_hdr, firstn_app, firstn_all2, hdr_length, get_written by (rewrite hdr_length; exact Hn).
      destruct (negb _); [now left|]. destruct (negb _); [now left|].
      right. apply H_marshal_prefix_fails. lia.
  Qed.

  Lemma truncated_caught m s c m' s' n :
    (n < length (bytecode m s c))%nat ->
    rejected (get m' s' (firstn n (bytecode m s c))).
  Proof. intro H. now apply rejected_header, truncated_rejected. Qed.

  Variable src : Type.
  Variable compile : src -> code.
  Variable run : code -> option exc.

  Notation fs := (fs src).
  Notation get_cached := (get_cached_code code loads src).
  Notation exec_source := (exec_source code dumps src compile run).
  Notation exec_gen := (exec_module_gen code dumps loads src compile run).
  Notation exec := (exec_module code dumps loads src compile run).

  Definition executed (t : list (event code)) : list code :=
    flat_map (fun e => match e with EvRunCached c | EvRunSource c => [c] | EvWriteCache _ => [] end) t.

  (** the cache files the property calls unusable *)
  Inductive unusable (f : fs) : Prop :=
  | U_missing : f_cache f = None -> unusable f
  | U_short d : f_cache f = Some d -> (length d < 12)%nat -> unusable f
  | U_bad_magic d : f_cache f = Some d -> slice 0 4 d <> importer_magic -> unusable f
  | U_truncated m s c n :
      (n < length (bytecode m s c))%nat -> f_cache f = Some (firstn n (bytecode m s c)) -> unusable f
  | U_stale m s c :
      in_range m = true -> in_range s = true -> (m, s) <> (f_mtime f, f_size f) ->
      f_cache f = Some (bytecode m s c) -> unusable f.

  Lemma unusable_rejected f : unusable f -> exists e, get_cached f = Raise e /\ caught e = true.
  Proof.
    unfold get_cached_code, get_data.
    intros [H|d H L|d H M|m s c n L H|m s c Hm Hs Hne H]; rewrite H.
    - now exists OSError.
    - now apply rejected_header, short_rejected.
    - apply rejected_header. left. now apply bad_magic_rejected.
    - now apply truncated_caught.
    - apply rejected_header. left. now apply stale_rejected.
  Qed.

  Definition written (f : fs) : bytes := bytecode (f_mtime f) (f_size f) (compile (f_src f)).

  Lemma valid_cache_loads f :
    f_cache f = Some (written f) -> in_range (f_mtime f) = true -> in_range (f_size f) = true ->
    get_cached f = Ok (compile (f_src f)).
  Proof.
    intros H Hm Hs. unfold get_cached_code, get_data. rewrite H. unfold written.
    rewrite roundtrip, Hm, Hs. reflexivity.
  Qed.

  Lemma fallback_is_exec_source in_try dwb f :
    rejected (get_cached f) -> exec_gen in_try dwb f = exec_source dwb f.
  Proof. intros (e & H & C). unfold exec_module_gen. now rewrite H, C. Qed.

  Lemma exec_cached dwb f c :
    get_cached f = Ok c -> exec dwb f = mkres [EvRunCached c] (run c) f.
  Proof.
    intro H. unfold exec_module. rewrite table_exec_outside_try. unfold exec_module_gen. rewrite H.
    now destruct (run c).
  Qed.

  (** _exec_module writes the cache when the module ran to completion and bytecode writing
      is on; that decides both the trace and the file system it leaves *)
  Definition writes (dwb : bool) (f : fs) : bool :=
    match run (compile (f_src f)) with None => negb dwb | Some _ => false end.

  Lemma exec_source_eq dwb f :
    exec_source dwb f =
      mkres (EvRunSource (compile (f_src f)) :: if writes dwb f then [EvWriteCache (written f)] else [])
            (run (compile (f_src f)))
            (if writes dwb f then set_cache f (Some (written f)) else f).
  Proof.
    unfold Cache.exec_source, writes. destruct (run (compile (f_src f))); [|destruct dwb]; reflexivity.
  Qed.

  Lemma exec_source_runs_once dwb f :
    executed (r_trace (exec_source dwb f)) = [compile (f_src f)]
    /\ r_raised (exec_source dwb f) = run (compile (f_src f)).
  Proof. rewrite exec_source_eq. now destruct (writes dwb f). Qed.

  Lemma fallback_recompiles_and_rewrites in_try f :
    unusable f -> run (compile (f_src f)) = None ->
    let c := compile (f_src f) in
    let r := exec_gen in_try false f in
    r_trace r = [EvRunSource c; EvWriteCache (written f)]
    /\ r_raised r = None
    /\ r_fs r = set_cache f (Some (written f))
    /\ (in_range (f_mtime f) = true -> in_range (f_size f) = true ->
        exec_gen in_try false (r_fs r) = mkres [EvRunCached c] None (r_fs r)).
  Proof.
    intros U R c r. subst r c.
    rewrite (fallback_is_exec_source in_try false f (unusable_rejected f U)), exec_source_eq.
    unfold writes. rewrite R. cbn [negb r_trace r_raised r_fs]. repeat split.
    intros Hm Hs.
    pose proof (valid_cache_loads (set_cache f (Some (written f))) eq_refl Hm Hs) as V.
    unfold exec_module_gen. rewrite V. cbn [f_src set_cache]. now rewrite R.
  Qed.

  Lemma fallback_without_writing in_try f :
    unusable f ->
    let c := compile (f_src f) in
    let r := exec_gen in_try true f in
    r_trace r = [EvRunSource c] /\ r_raised r = run c /\ r_fs r = f.
  Proof.
    intros U c r. subst r c.
    rewrite (fallback_is_exec_source in_try true f (unusable_rejected f U)), exec_source_eq.
    unfold writes. now destruct (run (compile (f_src f))).
  Qed.

  Lemma crashed_write_unusable f m s c k :
    (k < length (bytecode m s c))%nat -> unusable (crashed_write f (bytecode m s c) k).
  Proof. intro H. eapply U_truncated; [exact H|reflexivity]. Qed.

  (** "mtime and size identify the content": a complete file made for stats that read as
      the current ones was made from the current source *)
  Definition honest (f : fs) : Prop :=
    forall m s c, f_cache f = Some (bytecode m s c) ->
      (m mod two32 = f_mtime f)%Z -> (s mod two32 = f_size f)%Z -> c = compile (f_src f).

  Lemma complete_cache_cases f m s c :
    f_cache f = Some (bytecode m s c) ->
    (get_cached f = Ok c /\ (m mod two32 = f_mtime f)%Z /\ (s mod two32 = f_size f)%Z)
    \/ get_cached f = Raise ImportError.
  Proof.
    intro H. unfold get_cached_code, get_data. rewrite H, get_bytecode, H_marshal_roundtrip.
    destruct (Z.eqb_spec (m mod two32) (f_mtime f)); [|now right].
    destruct (Z.eqb_spec (s mod two32) (f_size f)); [|now right]. now left.
  Qed.

  (** transparency: the code of the current source is executed, exactly once, and the
      import raises what that code raises -- as a from-source load does *)
  Lemma transparent dwb f :
    (unusable f \/ exists m s c, f_cache f = Some (bytecode m s c)) -> honest f ->
    let r := exec dwb f in
    executed (r_trace r) = [compile (f_src f)] /\ r_raised r = run (compile (f_src f)).
  Proof.
    intros Hc Hon.
    assert (D : rejected (get_cached f) \/ get_cached f = Ok (compile (f_src f))).
    { destruct Hc as [U|(m & s & c & Hc)]; [left; now apply unusable_rejected|].
      destruct (complete_cache_cases f m s c Hc) as [(E & Em & Es)|E].
      - right. now rewrite <- (Hon m s c Hc Em Es).
      - left. apply rejected_header. now left. }
    cbv zeta. destruct D as [D|E].
    - unfold exec_module. rewrite (fallback_is_exec_source _ dwb f D). apply exec_source_runs_once.
    - rewrite (exec_cached dwb f _ E). split; reflexivity.
  Qed.

  (** the shape of exec_module before the repair: an exception of a caught class raised
      by the cached code itself made the loader run the module a second time *)
  Lemma retried_when_in_try dwb f c e :
    get_cached f = Ok c -> run c = Some e -> caught e = true ->
    executed (r_trace (exec_gen true dwb f)) = [c; compile (f_src f)].
  Proof.
    intros H R C. unfold exec_module_gen. rewrite H, R, C. cbn [andb r_trace executed flat_map app].
    f_equal. apply exec_source_runs_once.
  Qed.

  Lemma not_retried dwb f c :
    get_cached f = Ok c ->
    r_trace (exec dwb f) = [EvRunCached c] /\ r_raised (exec dwb f) = run c /\ r_fs (exec dwb f) = f.
  Proof. intro H. rewrite (exec_cached dwb f c H). repeat split. Qed.
End Codec.
