(** C14: the hypotheses of the theorems are satisfiable and their premises are met by
    non-trivial states (the toy marshal codec of Corr.v; concrete file systems). *)
From Coq Require Import List ZArith Lia.
Import ListNotations.
From Verif Require Import C14.Corr C14.Proofs C14.KwProofs.

Lemma toy_roundtrip L c : (1 <= L)%nat -> t_loads L (t_dumps L c) = Ok c.
Proof.
  intro H. unfold t_loads, t_dumps. rewrite repeat_length, Nat.ltb_irrefl, Nat.eqb_refl.
  destruct L; [lia|reflexivity].
Qed.

Lemma toy_prefix_fails L c n :
  (n < length (t_dumps L c))%nat -> t_loads L (firstn n (t_dumps L c)) = Raise EOFError.
Proof.
  unfold t_loads, t_dumps. rewrite repeat_length. intro H.
  rewrite firstn_length, repeat_length, Nat.min_l by lia.
  apply Nat.ltb_lt in H. now rewrite H.
Qed.

Lemma hypotheses_satisfiable :
  (forall c, t_loads TL (t_dumps TL c) = Ok c)
  /\ (forall c n, (n < length (t_dumps TL c))%nat -> t_loads TL (firstn n (t_dumps TL c)) = Raise EOFError).
Proof.
  split; [intro c; apply toy_roundtrip; unfold TL; lia|apply toy_prefix_fails].
Qed.

(** a cache cut in the middle of its payload is [unusable]; [ex_fallback] evaluates what the
    loader does with it, which is what [fallback_recompiles_and_rewrites] states *)
Definition ex_fs : fs N :=
  mkfs 1%N 1700000000%Z 321%Z (Some (firstn 20 (golden 1700000000 321))).

Lemma ex_unusable : unusable tcode (t_dumps TL) N ex_fs.
Proof.
  apply (U_truncated tcode (t_dumps TL) N ex_fs 1700000000 321 1%N 20); [vm_compute; lia|reflexivity].
Qed.

Lemma ex_fallback :
  let r := i_exec (fun _ => None) false ex_fs in
  r_trace r = [EvRunSource 1%N; EvWriteCache (golden 1700000000 321)]
  /\ r_raised r = None
  /\ r_trace (i_exec (fun _ => None) false (r_fs r)) = [EvRunCached 1%N].
Proof. vm_compute. repeat split. Qed.

(** a history mixing literals compiled under two other seeds with run-time constructions
    meets the premise of [kw_semantics] *)
Lemma ex_keys_consistent :
  keys_consistentb (toy_hash 0)
    [KLit (toy_hash 1 (kwn 7)) (kwn 7); KNew (kwn 7); KLit (toy_hash 2 (kwn 7)) (kwn 7);
     KLit (toy_hash 0 (kwn 8)) (kwn 8); KNew (kwn 8)] = true.
Proof. vm_compute. reflexivity. Qed.
