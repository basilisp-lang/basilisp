(** Forward simulation for the first-order core with loop*/recur, throw and
    try/catch/finally, by strong induction on the evaluation fuel, over the invariant [inv]
    ([R] of C01/Sim.v, preserved when the loop locals are rebound). *)
From Coq Require Import List NArith Bool Lia Arith.
Import ListNotations.
From Verif Require Import C01.Sim C01X.XLisp C01X.XPy C01X.XGen C01X.XMono.
Local Open Scope N_scope.

Lemma set_all_total F ns vs : length ns = length vs -> exists F', set_all F ns vs = Some F'.
Proof.
  revert F vs. induction ns as [|n r IH]; intros F [|v vs] H; simpl in *; try discriminate.
  - eexists; reflexivity.
  - apply IH. lia.
Qed.

Lemma set_all_other F ns vs F' q : set_all F ns vs = Some F' -> ~ In q ns -> F' q = F q.
Proof.
  revert F vs. induction ns as [|n r IH]; intros F [|v vs] H Hq; simpl in *; try discriminate.
  - inversion H; reflexivity.
  - rewrite (IH _ _ H) by tauto. apply set_other. intro E; subst; tauto.
Qed.

Lemma R_rebinds : forall xs names vs rho sg F n rho2 F2,
  R rho sg F n ->
  Forall2 (fun x p => sg x = Some p /\ idx p < n) xs names ->
  NoDup names ->
  (forall y q, ~ In y xs -> sg y = Some q -> ~ In q names) ->
  rebind xs vs rho = Some rho2 -> set_all F names vs = Some F2 ->
  R rho2 sg F2 n.
Proof.
  induction xs as [|x xs IH]; intros names vs rho sg F n rho2 F2 HR HF ND Hout Hr Hs.
  - inversion HF; subst. destruct vs; [|discriminate]. simpl in *. inversion Hr; inversion Hs; subst. exact HR.
  - inversion HF as [|? p ? names' [Hsx Hix] HF']; subst.
    destruct vs as [|v vs]; [discriminate|]. simpl in Hr, Hs.
    inversion ND as [|? ? Hnin ND']; subst.
    assert (HR1 : R (upd rho x v) sg (set F p v) n).
    { intros y vy Hy. unfold upd in Hy. destruct (N.eqb y x) eqn:Eyx.
      - apply N.eqb_eq in Eyx. subst y. inversion Hy; subst. exists p. repeat split; auto. apply set_same.
      - destruct (HR y vy Hy) as (q & Hq1 & Hq2 & Hq3). exists q. repeat split; auto.
        rewrite set_other; auto. intro E; subst q.
        destruct (in_dec N.eq_dec y xs) as [Hin|Hnin'].
        + (* y is another loop local: its name is in names', but p is not *)
          clear - HF' Hin Hq1 Hnin.
          induction HF' as [|a b l l' [Ha _] HF'' IHf]; [destruct Hin|].
          destruct Hin as [->|Hin].
          * rewrite Hq1 in Ha. inversion Ha; subst. apply Hnin. left; reflexivity.
          * apply IHf; auto. intro X. apply Hnin. right; exact X.
        + apply (Hout y p); [|exact Hq1|left; reflexivity].
          intros [->|X]; [apply N.eqb_neq in Eyx; congruence|contradiction]. }
    eapply (IH names' vs (upd rho x v) sg (set F p v) n rho2 F2 HR1 HF' ND'); eauto.
    (* side condition for the remaining binders: relative to xs only *)
    intros y q Hy Hq Hin.
    destruct (N.eq_dec y x) as [->|Hne].
    + rewrite Hsx in Hq. inversion Hq; subst. contradiction.
    + apply (Hout y q); [|exact Hq|right; exact Hin]. intros [->|X]; [congruence|contradiction].
Qed.

(** the invariant of C01/Sim.v strengthened with: every Python name in the symbol table was
    generated below the current counter *)
Definition inv (rho : env) (sg : senv) (F : frame) (n : N) : Prop :=
  R rho sg F n /\ (forall x p, sg x = Some p -> idx p < n).

Lemma inv_empty : inv (fun _ => None) (fun _ => None) (fun _ => None) 0.
Proof. split; [intros x v H; discriminate|intros x p H; discriminate]. Qed.

Lemma inv_mono rho sg F F' n m : inv rho sg F n -> n <= m -> agree_below n F F' -> inv rho sg F' m.
Proof.
  intros [HR HB] L A. split; [eapply R_mono; eauto|]. intros x p Hx. specialize (HB x p Hx). lia.
Qed.

Lemma inv_let rho sg F n x v n1 F1 :
  inv rho sg F n -> n <= n1 -> agree_below n F F1 ->
  inv (upd rho x v) (upd sg x (NLocal x n1)) (set F1 (NLocal x n1) v) (n1 + 1).
Proof.
  intros [HR HB] L A. split; [eapply R_let; eauto|].
  intros y q Hy. unfold upd in Hy. destruct (N.eqb y x).
  - inversion Hy; subst. simpl. lia.
  - specialize (HB y q Hy). lia.
Qed.

Lemma inv_rebinds xs names vs rho sg F n rho2 F2 :
  inv rho sg F n ->
  Forall2 (fun x p => sg x = Some p /\ idx p < n) xs names ->
  NoDup names ->
  (forall y q, ~ In y xs -> sg y = Some q -> ~ In q names) ->
  rebind xs vs rho = Some rho2 -> set_all F names vs = Some F2 ->
  inv rho2 sg F2 n.
Proof. intros [HR HB] HF ND Hout Hr Hs. split; [eapply R_rebinds; eauto|exact HB]. Qed.

Lemma nodupb_NoDup l : nodupb l = true -> NoDup l.
Proof.
  induction l as [|x r IH]; simpl; intro H; [constructor|].
  apply andb_true_iff in H as [H1 H2]. constructor; [|apply IH; exact H2].
  intro Hin. apply negb_true_iff in H1.
  assert (E : existsb (N.eqb x) r = true) by (apply existsb_exists; exists x; split; [exact Hin|apply N.eqb_refl]).
  congruence.
Qed.

Lemma rebind_length xs vs rho rho' : rebind xs vs rho = Some rho' -> length xs = length vs.
Proof.
  revert vs rho. induction xs as [|x r IH]; intros [|v vs] rho H; simpl in *; try discriminate; auto.
  f_equal. eapply IH; eauto.
Qed.

Lemma Forall2_length {A B} (P : A -> B -> Prop) l1 l2 : Forall2 P l1 l2 -> length l1 = length l2.
Proof. induction 1; simpl; auto. Qed.

Section XexprInd.
  Variable P : xexpr -> Prop.
  Hypothesis HConst : forall v, P (XConst v).
  Hypothesis HLocal : forall x, P (XLocal x).
  Hypothesis HIf : forall c t e, P c -> P t -> P e -> P (XIf c t e).
  Hypothesis HDo : forall s r, P s -> P r -> P (XDo s r).
  Hypothesis HLet : forall x i b, P i -> P b -> P (XLet x i b).
  Hypothesis HCall : forall f args, Forall P args -> P (XCall f args).
  Hypothesis HLoop : forall binds body, Forall (fun xb => P (snd xb)) binds -> P body -> P (XLoop binds body).
  Hypothesis HRecur : forall args, Forall P args -> P (XRecur args).
  Hypothesis HThrow : forall e, P e -> P (XThrow e).
  Hypothesis HTry : forall b h hb hasfin fe, P b -> P hb -> P fe -> P (XTry b h hb hasfin fe).
  Fixpoint xexpr_ind' (e : xexpr) : P e :=
    match e with
    | XConst v => HConst v
    | XLocal x => HLocal x
    | XIf c t e => HIf c t e (xexpr_ind' c) (xexpr_ind' t) (xexpr_ind' e)
    | XDo s r => HDo s r (xexpr_ind' s) (xexpr_ind' r)
    | XLet x i b => HLet x i b (xexpr_ind' i) (xexpr_ind' b)
    | XCall f args =>
        HCall f args ((fix go (l : list xexpr) : Forall P l :=
                         match l with [] => Forall_nil P | a :: r => Forall_cons a (xexpr_ind' a) (go r) end) args)
    | XLoop binds body =>
        HLoop binds body
          ((fix go (l : list (N * xexpr)) : Forall (fun xb => P (snd xb)) l :=
              match l with [] => Forall_nil _ | xb :: r => Forall_cons xb (xexpr_ind' (snd xb)) (go r) end) binds)
          (xexpr_ind' body)
    | XRecur args =>
        HRecur args ((fix go (l : list xexpr) : Forall P l :=
                        match l with [] => Forall_nil P | a :: r => Forall_cons a (xexpr_ind' a) (go r) end) args)
    | XThrow e => HThrow e (xexpr_ind' e)
    | XTry b h hb hasfin fe => HTry b h hb hasfin fe (xexpr_ind' b) (xexpr_ind' hb) (xexpr_ind' fe)
    end.
End XexprInd.

Lemma xquiet_cons s r : xquiet (s :: r) = xquiet1 s && xquiet r.
Proof. reflexivity. Qed.
Lemma xquiet_normal : forall m,
  (forall F s o F' t, xquiet1 s = true -> xexec1 m F s = Some (o, F', t) -> o = Normal /\ t = []) /\
  (forall F l o F' t, xquiet l = true -> xexec m F l = Some (o, F', t) -> o = Normal /\ t = []).
Proof.
  induction m as [|m [IH1 IH2]].
  - split; [intros; discriminate|].
    intros F l o F' t Hq H. destruct l as [|s l]; [inversion H; auto|]. rewrite xexec_cons in H. discriminate.
  - assert (S1 : forall F s o F' t, xquiet1 s = true -> xexec1 (S m) F s = Some (o, F', t) -> o = Normal /\ t = []).
    { intros F s o F' t Hq H. destruct s; try discriminate; cbn [xquiet1] in Hq; cbn [xexec1] in H.
      - destruct (peval F e) as [[v t']|] eqn:E; [|discriminate]. inversion H; subst.
        split; [reflexivity|eapply atomic_no_trace; eauto].
      - destruct (peval F e) as [[v t']|] eqn:E; [|discriminate]. inversion H; subst.
        split; [reflexivity|eapply atomic_no_trace; eauto].
      - apply andb_true_iff in Hq as [Q1 Q2]. destruct (F test) as [v|]; [|discriminate].
        fold (xexec m) in H. eapply IH2; [|exact H]. destruct (falsey v); assumption. }
    split; [exact S1|].
    intros F l. revert F. induction l as [|s l IHl]; intros F o F' t Hq H.
    + inversion H; auto.
    + rewrite xquiet_cons in Hq. apply andb_true_iff in Hq as [Q1 Q2]. rewrite xexec_cons in H.
      destruct (xexec1 (S m) F s) as [[[o1 F1] t1]|] eqn:E1; [|discriminate].
      destruct (S1 F s o1 F1 t1 Q1 E1) as [-> ->].
      destruct (xexec (S m) F1 l) as [[[o2 F2] t2]|] eqn:E2; [|discriminate].
      destruct (IHl F1 o2 F2 t2 Q2 E2) as [-> ->]. inversion H; subst. auto.
Qed.

Lemma xquiet_silent m F l o F' t : xquiet l = true -> xexec m F l = Some (o, F', t) -> o = Normal /\ t = [].
Proof. apply (proj2 (xquiet_normal m)). Qed.

Lemma exec_assign_all m F lp es vs t F' :
  peval_list F es = Some (vs, t) -> set_all F lp vs = Some F' ->
  xexec1 (S m) F (assign_all lp es) = Some (Normal, F', t).
Proof.
  intros Hp Hs. unfold assign_all.
  destruct lp as [|x [|y r]]; try (cbn [xexec1]; rewrite Hp, Hs; reflexivity).
  destruct es as [|e1 [|e2 er]]; try (cbn [xexec1]; rewrite Hp, Hs; reflexivity).
  simpl in Hp. destruct (peval F e1) as [[v1 t1]|] eqn:E1; [|discriminate].
  inversion Hp; subst. simpl in Hs. inversion Hs; subst.
  cbn [xexec1]. rewrite E1, app_nil_r. reflexivity.
Qed.

Lemma agree_unset_r n F F' p : agree_below n F F' -> n <= idx p -> agree_below n F (unset F' p).
Proof.
  intros A L q Hq. unfold unset. destruct (pname_eqb q p) eqn:E; [|exact (A q Hq)].
  apply pname_eqb_eq in E. subst. lia.
Qed.

Lemma snoc_app {A} (l : list A) x r : l ++ x :: r = (l ++ [x]) ++ r.
Proof. rewrite <- app_assoc. reflexivity. Qed.

Lemma xexec_single m F s r : xexec1 m F s = Some r -> xexec m F [s] = Some r.
Proof. intro H. rewrite xexec_cons, H. destruct r as [[[] ?] ?]; rewrite ?xexec_nil, ?app_nil_r; reflexivity. Qed.

Lemma xexec_assign1 F p e v t : peval F e = Some (v, t) -> xexec 1 F [XAssign p e] = Some (Normal, set F p v, t).
Proof. intro P. apply xexec_single, xexec1_S_assign, P. Qed.

Lemma xexec_expr1 F e v t : peval F e = Some (v, t) -> xexec 1 F [XExpr e] = Some (Normal, F, t).
Proof. intro P. apply xexec_single, (xexec1_S_expr 0 F e v t P). Qed.

(** What the statements [d] and the inline expression [pe], generated from counter [n] up to [n'],
    do from frame [F], for each outcome of the source. *)
Definition post (n : N) (lp : list pname) (F : frame) (d : list xstmt) (pe : pexpr) (n' : N)
    (o : outcome) (tr : trace) : Prop :=
  match o with
  | OVal v =>
      exists m F' t1 t2,
        xexec m F d = Some (Normal, F', t1) /\ peval F' pe = Some (v, t2) /\ tr = t1 ++ t2 /\
        agree_below n F F' /\ nb n' pe = true
  | ORec vs =>
      length vs = length lp ->
      exists m F' F'', xexec m F d = Some (Cont, F'', tr) /\ agree_below n F F' /\ set_all F' lp vs = Some F''
  | OExc c p => exists m F', xexec m F d = Some (Exc c p, F', tr) /\ agree_below n F F'
  end.

Definition xsim_at (fuel : nat) : Prop :=
  forall e sg lp n rho F o tr d pe n',
    inv rho sg F n -> xeval fuel rho e = Some (o, tr) -> xgen sg lp n e = (d, pe, n', true) ->
    post n lp F d pe n' o tr.

Definition xsim_list (fuel : nat) : Prop :=
  forall l sg lp n rho F res tr ds es n',
    inv rho sg F n -> evals (xeval fuel) rho l = Some (res, tr) -> xgen_list sg lp n l = (ds, es, n', true) ->
    n <= n' /\
    match res with
    | LVals vs =>
        exists m F' t1 t2,
          xexec m F ds = Some (Normal, F', t1) /\ peval_list F' es = Some (vs, t2) /\ tr = t1 ++ t2 /\
          agree_below n F F' /\ forallb (nb n') es = true
    | LExc c p => exists m F', xexec m F ds = Some (Exc c p, F', tr) /\ agree_below n F F'
    end.

Lemma post_prefix n n1 lp F F1 m1 d1 t0 d2 pe n' o tr :
  xexec m1 F d1 = Some (Normal, F1, t0) -> agree_below n F F1 -> n <= n1 ->
  post n1 lp F1 d2 pe n' o tr -> post n lp F (d1 ++ d2) pe n' o (t0 ++ tr).
Proof.
  intros X A L H. destruct o as [v|vs|c p]; cbn [post] in *.
  - destruct H as (m & F' & t1 & t2 & X2 & P & -> & A2 & Nb).
    exists (Nat.max m1 m), F', (t0 ++ t1), t2. rewrite app_assoc.
    repeat split; eauto using xexec_seq, agree_step.
  - intro Hl. destruct (H Hl) as (m & F' & F'' & X2 & A2 & Sa).
    exists (Nat.max m1 m), F', F''. repeat split; eauto using xexec_seq, agree_step.
  - destruct H as (m & F' & X2 & A2). exists (Nat.max m1 m), F'. split; eauto using xexec_seq, agree_step.
Qed.

Lemma post_raise n lp F m d1 c p F1 tr d2 pe n' :
  xexec m F d1 = Some (Exc c p, F1, tr) -> agree_below n F F1 -> post n lp F (d1 ++ d2) pe n' (OExc c p) tr.
Proof. intros X A. exists m, F1. split; [apply xexec_stop; [discriminate|exact X]|exact A]. Qed.

Lemma run_into k n lp F d pe n' v tr res :
  post n lp F d pe n' (OVal v) tr -> k <= n -> k <= idx res ->
  exists m F', xexec m F (d ++ [XAssign res pe]) = Some (Normal, F', tr) /\ F' res = Some v /\ agree_below k F F'.
Proof.
  intros (m & F' & t1 & t2 & X & P & -> & A & _) L Lr. exists (Nat.max m 1), (set F' res v).
  split; [exact (xexec_seq _ _ _ _ _ _ _ _ _ _ X (xexec_assign1 _ res _ _ _ P))|]. split; [apply set_same|].
  apply agree_set_r; [exact (agree_weaken k n F F' L A)|exact Lr].
Qed.

Lemma post_assign k n lp F d pe n' o tr res m' :
  post n lp F d pe n' o tr -> k <= n -> k <= idx res -> idx res < m' ->
  post k lp F (d ++ [XAssign res pe]) (PName res) m' o tr.
Proof.
  intros H L Lr Lm. destruct o as [v|vs|c p]; cbn [post] in *.
  - destruct (run_into k n lp F d pe n' v tr res H L Lr) as (m & F' & X & Fr & A). exists m, F', tr, [].
    split; [exact X|]. split; [simpl; rewrite Fr; reflexivity|]. split; [rewrite app_nil_r; reflexivity|].
    split; [exact A|apply N.ltb_lt, Lm].
  - intro Hl. destruct (H Hl) as (m & F' & F'' & X & A & Sa). exists m, F', F''.
    split; [apply xexec_stop; [discriminate|exact X]|]. split; [exact (agree_weaken k n F F' L A)|exact Sa].
  - destruct H as (m & F' & X & A). exists m, F'.
    split; [apply xexec_stop; [discriminate|exact X]|exact (agree_weaken k n F F' L A)].
Qed.

Lemma post_if n lp F test v fb tb pe n' o tr :
  F test = Some v -> post n lp F (if falsey v then fb else tb) pe n' o tr -> post n lp F [XSIf test fb tb] pe n' o tr.
Proof.
  intros Ft H.
  assert (X : forall m r, xexec m F (if falsey v then fb else tb) = Some r -> xexec (S m) F [XSIf test fb tb] = Some r).
  { intros m [[o' F'] t] Hx. apply xexec_single. rewrite (xexec1_S_if m F test fb tb v Ft). exact Hx. }
  destruct o as [w|vs|c p]; cbn [post] in *.
  - destruct H as (m & F' & t1 & t2 & Hx & H). exists (S m), F', t1, t2. split; [exact (X _ _ Hx)|exact H].
  - intro Hl. destruct (H Hl) as (m & F' & F'' & Hx & H'). exists (S m), F', F''. split; [exact (X _ _ Hx)|exact H'].
  - destruct H as (m & F' & Hx & A). exists (S m), F'. split; [exact (X _ _ Hx)|exact A].
Qed.

Lemma xgen_args_mono (g : N -> xexpr -> xout) l :
  Forall (fun a => forall n d e n' k, g n a = (d, e, n', k) -> n <= n') l ->
  forall n ds es n' k, xgen_args g l n = (ds, es, n', k) -> n <= n'.
Proof.
  induction 1 as [|a r Ha _ IH]; intros n ds es n' k G; cbn [xgen_args] in G.
  - inversion G; lia.
  - destruct (g n a) as [[[? ?] n1] ?] eqn:Ga. destruct (xgen_args g r n1) as [[[? ?] n2] ?] eqn:Gr.
    inversion G; subst. apply Ha in Ga. apply IH in Gr. lia.
Qed.

Lemma xgen_binds_with_mono (g : senv -> N -> xexpr -> xout) l :
  Forall (fun xb => forall sg n d e n' k, g sg n (snd xb) = (d, e, n', k) -> n <= n') l ->
  forall sg n dbs names sg1 n1 k, xgen_binds_with g l sg n = (dbs, names, sg1, n1, k) -> n <= n1.
Proof.
  induction 1 as [|[x i] r Hi _ IH]; intros sg n dbs names sg1 n1 k G; cbn [xgen_binds_with] in G.
  - inversion G; lia.
  - destruct (g sg n i) as [[[? ?] b1] ?] eqn:Gi. cbv zeta in G.
    destruct (xgen_binds_with g r (upd sg x (NLocal x b1)) (b1 + 1)) as [[[[? ?] ?] b2] ?] eqn:Gr.
    inversion G; subst. apply Hi in Gi. apply IH in Gr. lia.
Qed.

Lemma xgen_mono : forall e sg lp n d pe n' k, xgen sg lp n e = (d, pe, n', k) -> n <= n'.
Proof.
  induction e as [c|x|c t e IHc IHt IHe|s r IHs IHr|x i b IHi IHb|f args IHargs|binds body IHbinds IHbody|args IHargs
                  |e IHe|b h hb hasfin fe IHb IHh IHf]
    using xexpr_ind'; intros sg lp n d pe n' k G; cbn [xgen] in G.
  - inversion G; lia.
  - inversion G; lia.
  - destruct (xgen sg lp n c) as [[[? ?] a1] ?] eqn:G1.
    destruct (xgen sg lp (a1 + 2) t) as [[[? ?] a2] ?] eqn:G2.
    destruct (xgen sg lp a2 e) as [[[? ?] a3] ?] eqn:G3. cbv beta iota zeta in G. inversion G; subst.
    apply IHc in G1. apply IHt in G2. apply IHe in G3. lia.
  - destruct (xgen sg lp n s) as [[[? ?] a1] ?] eqn:G1.
    destruct (xgen sg lp a1 r) as [[[? ?] a2] ?] eqn:G2. cbv beta iota in G. inversion G; subst.
    apply IHs in G1. apply IHr in G2. lia.
  - destruct (xgen sg lp n i) as [[[? ?] a1] ?] eqn:G1. cbv zeta in G.
    destruct (xgen (upd sg x (NLocal x a1)) lp (a1 + 1) b) as [[[? ?] a2] ?] eqn:G2. cbv beta iota in G. inversion G; subst.
    apply IHi in G1. apply IHb in G2. lia.
  - destruct (xgen_args _ args n) as [[[ds es] a1] ka] eqn:G1. inversion G; subst.
    eapply xgen_args_mono; [|exact G1]. eapply Forall_impl; [|exact IHargs]. intros a Ha m. apply Ha.
  - cbv zeta in G.
    destruct (xgen_binds_with _ binds sg (n + 1)) as [[[[dbs names] sg1] n1] k1] eqn:Gb.
    destruct (xgen sg1 names n1 body) as [[[db eb] n2] k2] eqn:Gbody. inversion G; subst.
    apply IHbody in Gbody. eapply xgen_binds_with_mono in Gb; [lia|].
    eapply Forall_impl; [|exact IHbinds]. intros xb Hb sg0 m. apply Hb.
  - destruct (xgen_args _ args n) as [[[ds es] a1] ka] eqn:G1. inversion G; subst.
    eapply xgen_args_mono; [|exact G1]. eapply Forall_impl; [|exact IHargs]. intros a Ha m. apply Ha.
  - destruct (xgen sg lp n e) as [[[? ?] a1] ?] eqn:G1. inversion G; subst. apply IHe in G1. exact G1.
  - cbv zeta in G.
    destruct (xgen sg lp (n + 1) b) as [[[db eb] n1] k1] eqn:Gb. apply IHb in Gb.
    destruct h as [[cls x]|]; cbv zeta in G;
      [destruct (xgen (upd sg x (NLocal x n1)) lp (n1 + 1) hb) as [[[dh eh] n2] k2] eqn:Gh; apply IHh in Gh|];
      (destruct hasfin; [destruct (xgen sg lp _ fe) as [[[df ef] n3] k3] eqn:Gf; apply IHf in Gf|]);
      inversion G; subst; lia.
Qed.

Lemma xgen_list_mono r sg lp m ds es n' k : xgen_list sg lp m r = (ds, es, n', k) -> m <= n'.
Proof. apply xgen_args_mono, Forall_forall. intros a _ n. apply xgen_mono. Qed.

Lemma xgen_binds_mono l sg lp n dbs names sg1 n1 k :
  xgen_binds sg lp n l = (dbs, names, sg1, n1, k) -> n <= n1.
Proof. apply xgen_binds_with_mono, Forall_forall. intros xb _ sg0 m. apply xgen_mono. Qed.

Lemma xsim_list_of fuel : xsim_at fuel -> xsim_list fuel.
Proof.
  intros HS l. induction l as [|a r IH]; intros sg lp n rho F res tr ds es n' HR He Hg.
  - simpl in He. inversion He; subst. cbv in Hg. inversion Hg; subst.
    split; [lia|]. exists 1%nat, F, [], []. repeat split; auto using agree_refl.
  - simpl in He. rewrite xgen_list_cons in Hg.
    destruct (xgen sg lp n a) as [[[d e] n1] k1] eqn:Ga.
    destruct (xgen_list sg lp n1 r) as [[[ds' es'] n2] k2] eqn:Gr.
    cbv beta iota in Hg. injection Hg as <- <- <- Hk.
    apply andb_true_iff in Hk as [Hk Hhz]. apply andb_true_iff in Hk as [-> ->].
    pose proof (xgen_mono _ _ _ _ _ _ _ _ Ga) as La.
    pose proof (xgen_list_mono _ _ _ _ _ _ _ _ Gr) as Lr.
    split; [lia|].
    destruct (xeval fuel rho a) as [[[va|?|ca pa] ta]|] eqn:Ea; try discriminate;
      pose proof (HS _ _ _ _ _ _ _ _ _ _ _ HR Ea Ga) as H.
    + destruct H as (m1 & F1 & ta1 & ta2 & X1 & P1 & -> & A1 & N1).
      destruct (evals (xeval fuel) rho r) as [[res' trr]|] eqn:Er; [|discriminate].
      destruct (IH _ _ _ _ _ _ _ _ _ _ (inv_mono _ _ _ _ _ _ HR La A1) Er Gr) as (_ & H2).
      (* the hazard flag: the head's inline expression is silent, or the later statements
         run to completion silently; either way the two commute *)
      assert (Hz : forall m2 o2 F2 ts, xexec m2 F1 ds' = Some (o2, F2, ts) -> ta2 = [] \/ o2 = Normal /\ ts = []).
      { intros m2 o2 F2 ts X2. apply orb_true_iff in Hhz as [Hat|Hq];
          [left; exact (atomic_no_trace _ _ _ _ Hat P1)|right; exact (xquiet_silent _ _ _ _ _ _ Hq X2)]. }
      destruct res' as [vr|cr pr]; injection He as <- <-.
      * destruct H2 as (m2 & F2 & ts1 & ts2 & X2 & P2 & -> & A2 & N2).
        exists (Nat.max m1 m2), F2, (ta1 ++ ts1), (ta2 ++ ts2).
        split; [exact (xexec_seq _ _ _ _ _ _ _ _ _ _ X1 X2)|].
        split; [simpl; rewrite (peval_agree n1 F1 F2 e N1 A2), P1, P2; reflexivity|].
        split; [destruct (Hz _ _ _ _ X2) as [->|[_ ->]]; rewrite ?app_assoc, ?app_nil_r; reflexivity|].
        split; [exact (agree_step _ _ _ _ _ A1 A2 La)|]. simpl. rewrite (nb_mono n1 _ e Lr N1). exact N2.
      * destruct H2 as (m2 & F2 & X2 & A2). exists (Nat.max m1 m2), F2.
        split; [|exact (agree_step _ _ _ _ _ A1 A2 La)].
        destruct (Hz _ _ _ _ X2) as [->|[Habs _]]; [|discriminate].
        rewrite app_nil_r. exact (xexec_seq _ _ _ _ _ _ _ _ _ _ X1 X2).
    + injection He as <- <-. destruct H as (m1 & F1 & X1 & A1).
      exists m1, F1. split; [apply xexec_stop; [discriminate|exact X1]|exact A1].
Qed.

Definition xsim_binds (fuel : nat) : Prop :=
  forall l sg lp n rho F b tr dbs names sg1 n1,
    inv rho sg F n -> evbinds (xeval fuel) rho l = Some (b, tr) ->
    xgen_binds sg lp n l = (dbs, names, sg1, n1, true) -> NoDup (map fst l) ->
    n <= n1 /\
    match b with
    | BEnv rho1 =>
        exists m F1,
          xexec m F dbs = Some (Normal, F1, tr) /\ inv rho1 sg1 F1 n1 /\ agree_below n F F1 /\
          Forall2 (fun x p => sg1 x = Some p /\ idx p < n1) (map fst l) names /\
          Forall (fun p => n <= idx p) names /\ NoDup names /\
          (forall y, ~ In y (map fst l) -> sg1 y = sg y)
    | BExc c p => exists m F1, xexec m F dbs = Some (Exc c p, F1, tr) /\ agree_below n F F1
    end.

Lemma xsim_binds_of fuel : xsim_at fuel -> xsim_binds fuel.
Proof.
  intros HS l. induction l as [|[x i] r IH]; intros sg lp n rho F b tr dbs names sg1 n1 HR He Hg ND.
  - simpl in He. inversion He; subst. cbv in Hg. inversion Hg; subst.
    split; [lia|]. exists 1%nat, F. split; [reflexivity|]. split; [exact HR|].
    repeat split; auto using agree_refl; constructor.
  - simpl in He.
    pose proof (xgen_binds_mono _ _ _ _ _ _ _ _ _ Hg) as Lall.
    rewrite xgen_binds_cons in Hg.
    destruct (xgen sg lp n i) as [[[di ei] n1'] k1] eqn:Gi. cbv zeta in Hg.
    destruct (xgen_binds (upd sg x (NLocal x n1')) lp (n1' + 1) r) as [[[[ds ps] sg2] n2] k2] eqn:Gr.
    cbv beta iota in Hg. injection Hg as Hg1 Hg2 Hg3 Hg4 Hk. subst.
    apply andb_true_iff in Hk as [Hk1 Hk2]. subst.
    simpl in ND. inversion ND as [|? ? Hnin ND']; subst.
    split; [exact Lall|].
    destruct (xeval fuel rho i) as [[[v|?|ci pi] t1]|] eqn:Ei; try discriminate.
    + pose proof (xgen_mono _ _ _ _ _ _ _ _ Gi) as L1.
      destruct (HS i sg lp n rho F (OVal v) t1 di ei n1' HR Ei Gi)
        as (m1 & F1 & ti1 & ti2 & X1 & P1 & -> & A1 & N1).
      set (p := NLocal x n1') in *.
      assert (HR1 : inv (upd rho x v) (upd sg x p) (set F1 p v) (n1' + 1)) by (eapply inv_let; eauto).
      assert (Ap : agree_below n F (set F1 p v)) by (apply agree_set_r; [exact A1|simpl; lia]).
      destruct (evbinds (xeval fuel) (upd rho x v) r) as [[b' t2]|] eqn:Er; [|discriminate].
      injection He as <- <-.
      assert (Xall : forall m2 o2 F2, xexec m2 (set F1 p v) ds = Some (o2, F2, t2) ->
                xexec (Nat.max m1 (Nat.max 1 m2)) F (di ++ [XAssign p ei] ++ ds) = Some (o2, F2, (ti1 ++ ti2) ++ t2)).
      { intros m2 o2 F2 X2. rewrite <- app_assoc.
        exact (xexec_seq _ _ _ _ _ _ _ _ _ _ X1 (xexec_seq _ _ _ _ _ _ _ _ _ _ (xexec_assign1 _ p _ _ _ P1) X2)). }
      assert (Ag : forall F2, agree_below (n1' + 1) (set F1 p v) F2 -> agree_below n F F2)
        by (intros F2 A2; exact (agree_step n (n1' + 1) _ _ _ Ap A2 ltac:(lia))).
      destruct (IH (upd sg x p) lp (n1' + 1) (upd rho x v) (set F1 p v) b' t2 ds ps sg1 n1 HR1 Er Gr ND') as (L2 & Hrest).
      destruct b' as [rho1|cb pb].
      * destruct Hrest as (m2 & F2 & X2 & HR2 & A2 & FA & FN & NDp & Hout).
        exists (Nat.max m1 (Nat.max 1 m2)), F2.
        split; [exact (Xall _ _ _ X2)|]. split; [exact HR2|]. split; [exact (Ag _ A2)|].
        split.
        { constructor; [|exact FA]. split; [|unfold p; simpl; lia].
          rewrite Hout by exact Hnin. unfold upd. rewrite N.eqb_refl. reflexivity. }
        split.
        { constructor; [unfold p; simpl; lia|]. eapply Forall_impl; [|exact FN]. intros q Hq. cbv beta in *. lia. }
        split.
        { constructor; [|exact NDp]. intro Hin. rewrite Forall_forall in FN. specialize (FN _ Hin). unfold p in FN. simpl in FN. lia. }
        intros y Hy. rewrite Hout by (intro X; apply Hy; right; exact X).
        unfold upd. destruct (N.eqb y x) eqn:E; [|reflexivity].
        apply N.eqb_eq in E. subst. exfalso. apply Hy. left; reflexivity.
      * destruct Hrest as (m2 & F2 & X2 & A2).
        exists (Nat.max m1 (Nat.max 1 m2)), F2. split; [exact (Xall _ _ _ X2)|exact (Ag _ A2)].
    + inversion He; subst; clear He.
      destruct (HS i sg lp n rho F (OExc ci pi) tr di ei n1' HR Ei Gi) as (m1 & F1 & X1 & A1).
      exists m1, F1. split; [|exact A1]. apply xexec_stop; [discriminate|exact X1].
Qed.

(** one source iteration is one iteration of `while True`, left by break or by an exception *)
Lemma loop_core : forall k, (forall j, (j < k)%nat -> xsim_at j) ->
  forall xs rho1 body o t sg1 names n1 F1 db eb n2 res,
    xloop k xs rho1 body = Some (o, t) ->
    inv rho1 sg1 F1 n1 -> xgen sg1 names n1 body = (db, eb, n2, true) ->
    Forall2 (fun x p => sg1 x = Some p /\ idx p < n1) xs names -> NoDup names ->
    (forall y q, ~ In y xs -> sg1 y = Some q -> ~ In q names) ->
    Forall (fun p => idx res < idx p) names -> idx res < n1 ->
    match o with
    | OVal v => exists m F2, xwhile m F1 (db ++ [XAssign res eb; XBreak]) = Some (Normal, F2, t) /\
                             F2 res = Some v /\ agree_below (idx res) F1 F2
    | OExc c p => exists m F2, xwhile m F1 (db ++ [XAssign res eb; XBreak]) = Some (Exc c p, F2, t) /\
                               agree_below (idx res) F1 F2
    | ORec _ => False
    end.
Proof.
  induction k as [|k IHk]; intros HS xs rho1 body o t sg1 names n1 F1 db eb n2 res
                                        Hl HR Hg HF ND Hout Hres Hres2; [discriminate|].
  cbn [xloop] in Hl.
  destruct (xeval k rho1 body) as [[[vb|vs|cb pb] t1]|] eqn:Eb; try discriminate;
    pose proof (HS k (Nat.lt_succ_diag_r k) _ _ _ _ _ _ _ _ _ _ _ HR Eb Hg) as H.
  - injection Hl as <- <-. destruct H as (m & F' & tb1 & tb2 & X & P & -> & A & _).
    exists (S (Nat.max m 1)), (set F' res vb).
    split; [|split; [apply set_same|apply agree_set_r; [exact (agree_weaken (idx res) n1 _ _ ltac:(lia) A)|apply N.le_refl]]].
    apply xwhile_break. eapply xexec_seq; [exact X|].
    rewrite xexec_cons, (xexec1_S_assign 0 F' res eb vb tb2 P), xexec_cons. cbn [xexec1]. rewrite app_nil_r. reflexivity.
  - destruct (rebind xs vs rho1) as [rho2|] eqn:Er; [|discriminate].
    destruct (xloop k xs rho2 body) as [[o2 t2]|] eqn:El; [|discriminate]. injection Hl as <- <-.
    assert (Hlen : length vs = length names).
    { rewrite <- (rebind_length _ _ _ _ Er). apply (Forall2_length _ _ _ HF). }
    destruct (H Hlen) as (m & F' & F'' & X & A & Sa).
    assert (HR2 : inv rho2 sg1 F'' n1).
    { apply (inv_rebinds xs names vs rho1 sg1 F' n1 rho2 F''); auto.
      eapply inv_mono; [exact HR|apply N.le_refl|exact A]. }
    pose proof (IHk (fun j Hj => HS j (Nat.lt_lt_succ_r _ _ Hj)) xs rho2 body o2 t2 sg1 names n1 F'' db eb n2 res El HR2 Hg HF ND Hout Hres Hres2) as Hnext.
    pose proof (xexec_stop m F1 db [XAssign res eb; XBreak] Cont F'' t1 ltac:(discriminate) X) as X'.
    (* the rebinding touches only the loop locals, which are younger than [res] *)
    assert (Ag : forall F2, agree_below (idx res) F'' F2 -> agree_below (idx res) F1 F2).
    { intros F2 A2. apply (agree_step _ (idx res) F1 F'' F2); [|exact A2|apply N.le_refl].
      intros q Hq. rewrite (set_all_other _ _ _ _ q Sa).
      + apply A. lia.
      + intro Hin. rewrite Forall_forall in Hres. specialize (Hres _ Hin). lia. }
    destruct o2 as [v|?|c p]; [|exact Hnext|].
    + destruct Hnext as (m2 & F2 & W & Fr & A2). exists (S (Nat.max m m2)), F2.
      split; [exact (xwhile_again _ _ _ _ _ _ _ _ _ X' W)|]. split; [exact Fr|exact (Ag _ A2)].
    + destruct Hnext as (m2 & F2 & W & A2). exists (S (Nat.max m m2)), F2.
      split; [exact (xwhile_again _ _ _ _ _ _ _ _ _ X' W)|exact (Ag _ A2)].
  - injection Hl as <- <-. destruct H as (m & F' & X & A). exists (S m), F'.
    split; [apply xwhile_exc, xexec_stop; [discriminate|exact X]|exact (agree_weaken (idx res) n1 _ _ ltac:(lia) A)].
Qed.

Definition py_protected (m : nat) (F : frame) (body : list xstmt) (handler : option (N * pname * list xstmt))
  : option (sout * frame * trace) :=
  match xexec m F body with
  | Some (Exc c p, F1, t1) =>
      match handler with
      | Some (hc, x, hb) =>
          if catches hc c then
            match xexec m (set F1 x (VExc c p)) hb with
            | Some (o, F2, t2) => Some (o, unset F2 x, t1 ++ t2)
            | None => None
            end
          else Some (Exc c p, F1, t1)
      | None => Some (Exc c p, F1, t1)
      end
  | other => other
  end.

Definition py_fin (m : nat) (r1 : option (sout * frame * trace)) (fin : list xstmt) :=
  match r1 with
  | Some (o, F1, t1) =>
      match xexec m F1 fin with
      | Some (Normal, F2, t2) => Some (o, F2, t1 ++ t2)
      | Some (o2, F2, t2) => Some (o2, F2, t1 ++ t2)
      | None => None
      end
  | None => None
  end.

Lemma py_protected_mono m m' F b h r : (m <= m')%nat -> py_protected m F b h = Some r -> py_protected m' F b h = Some r.
Proof.
  intros L H. unfold py_protected in *.
  destruct (xexec m F b) as [[[o F1] t1]|] eqn:E; [|discriminate].
  rewrite (xexec_mono m m' _ _ _ L E).
  destruct o; try exact H.
  destruct h as [[[hc x] hb]|]; [|exact H].
  destruct (catches hc cls); [|exact H].
  destruct (xexec m (set F1 x (VExc cls payload)) hb) as [[[o2 F2] t2]|] eqn:E2; [|discriminate].
  rewrite (xexec_mono m m' _ _ _ L E2). exact H.
Qed.

(** the whole statement: the finally part keeps the pending outcome unless it ends abnormally itself *)
Lemma xtry_run m1 m2 F b h f o1 F1 t1 o2 F2 t2 :
  py_protected m1 F b h = Some (o1, F1, t1) -> xexec m2 F1 f = Some (o2, F2, t2) ->
  xexec (S (Nat.max m1 m2)) F [XSTry b h f] = Some (match o2 with Normal => o1 | _ => o2 end, F2, t1 ++ t2).
Proof.
  intros Hp Xf. apply xexec_single.
  change (py_fin (Nat.max m1 m2) (py_protected (Nat.max m1 m2) F b h) f = Some (match o2 with Normal => o1 | _ => o2 end, F2, t1 ++ t2)).
  rewrite (py_protected_mono m1 _ _ _ _ _ (Nat.le_max_l _ _) Hp). unfold py_fin.
  rewrite (xexec_mono m2 _ _ _ _ (Nat.le_max_r _ _) Xf). destruct o2; reflexivity.
Qed.

Definition src_protected (fuel : nat) (rho : env) (body : xexpr) (h : option (N * N)) (hb : xexpr) :=
  match xeval fuel rho body with
  | Some (OExc c p, t1) =>
      match h with
      | Some (hc, x) =>
          if catches hc c then
            match xeval fuel (upd rho x (VExc c p)) hb with
            | Some (ORec _, _) => None
            | Some (o, t2) => Some (o, t1 ++ t2)
            | None => None
            end
          else Some (OExc c p, t1)
      | None => Some (OExc c p, t1)
      end
  | Some (ORec _, _) => None
  | other => other
  end.

Definition src_try (fuel : nat) (rho : env) (body : xexpr) (h : option (N * N)) (hb : xexpr) (hasfin : bool) (fe : xexpr) :=
  if negb hasfin then src_protected fuel rho body h hb else
    match src_protected fuel rho body h hb with
    | Some (o, t1) =>
        match xeval fuel rho fe with
        | Some (OVal _, t2) => Some (o, t1 ++ t2)
        | Some (OExc c p, t2) => Some (OExc c p, t1 ++ t2)
        | _ => None
        end
    | None => None
    end.

Lemma xeval_S_try fuel rho body h hb hasfin fe :
  xeval (S fuel) rho (XTry body h hb hasfin fe) = src_try fuel rho body h hb hasfin fe.
Proof. reflexivity. Qed.

Lemma xgen_try_inv sg lp n body h hb hasfin fe d pe n' :
  xgen sg lp n (XTry body h hb hasfin fe) = (d, pe, n', true) ->
  exists db eb n1 hh n2 f,
    xgen sg lp (n + 1) body = (db, eb, n1, true) /\
    match h with
    | Some (cls, x) =>
        exists dh eh, xgen (upd sg x (NLocal x n1)) lp (n1 + 1) hb = (dh, eh, n2, true) /\
                      hh = Some (cls, NLocal x n1, dh ++ [XAssign (NTemp n) eh])
    | None => hh = None /\ n2 = n1
    end /\
    (if hasfin then exists df ef, xgen sg lp n2 fe = (df, ef, n', true) /\ f = df ++ [XExpr ef]
     else f = [] /\ n' = n2) /\
    d = [XSTry (db ++ [XAssign (NTemp n) eb]) hh f] /\ pe = PName (NTemp n) /\
    n + 1 <= n1 /\ n1 <= n2 /\ n2 <= n'.
Proof.
  intro G. cbn [xgen] in G. cbv zeta in G.
  destruct (xgen sg lp (n + 1) body) as [[[db eb] n1] k1] eqn:Gb.
  pose proof (xgen_mono _ _ _ _ _ _ _ _ Gb) as Lb.
  destruct h as [[cls x]|]; cbv zeta in G;
    [destruct (xgen (upd sg x (NLocal x n1)) lp (n1 + 1) hb) as [[[dh eh] n2] k2] eqn:Gh;
     pose proof (xgen_mono _ _ _ _ _ _ _ _ Gh) as Lh|];
    (destruct hasfin;
      [destruct (xgen sg lp _ fe) as [[[df ef] n3] k3] eqn:Gf; pose proof (xgen_mono _ _ _ _ _ _ _ _ Gf) as Lf|]);
    injection G as <- <- <- Hk;
    apply andb_true_iff in Hk as [Hk _]; apply andb_true_iff in Hk as [Hk Hk3];
    apply andb_true_iff in Hk as [Hk1 Hk2]; subst.
  - exists db, eb, n1, (Some (cls, NLocal x n1, dh ++ [XAssign (NTemp n) eh])), n2, (df ++ [XExpr ef]).
    split; [reflexivity|]. split; [exists dh, eh; auto|]. split; [exists df, ef; auto|]. repeat split; lia.
  - exists db, eb, n1, (Some (cls, NLocal x n1, dh ++ [XAssign (NTemp n) eh])), n2, [].
    split; [reflexivity|]. split; [exists dh, eh; auto|]. repeat split; lia.
  - exists db, eb, n1, None, n1, (df ++ [XExpr ef]).
    split; [reflexivity|]. split; [auto|]. split; [exists df, ef; auto|]. repeat split; lia.
  - exists db, eb, n1, None, n1, []. repeat split; lia.
Qed.

Lemma try_protected_sim fuel : xsim_at fuel ->
  forall rho sg lp F n body h hb db eb n1 n2 o t hh,
    inv rho sg F n ->
    xgen sg lp (n + 1) body = (db, eb, n1, true) ->
    match h with
    | Some (cls, x) =>
        exists dh eh, xgen (upd sg x (NLocal x n1)) lp (n1 + 1) hb = (dh, eh, n2, true) /\
                      hh = Some (cls, NLocal x n1, dh ++ [XAssign (NTemp n) eh])
    | None => hh = None /\ n2 = n1
    end ->
    src_protected fuel rho body h hb = Some (o, t) ->
    exists m F1,
      match o with
      | OVal v => py_protected m F (db ++ [XAssign (NTemp n) eb]) hh = Some (Normal, F1, t) /\ F1 (NTemp n) = Some v
      | OExc c p => py_protected m F (db ++ [XAssign (NTemp n) eb]) hh = Some (Exc c p, F1, t)
      | ORec _ => False
      end /\ agree_below n F F1.
Proof.
  intros HS rho sg lp F n body h hb db eb n1 n2 o t hh HR Gb Hh Hsrc.
  set (res := NTemp n) in *.
  assert (HR0 : inv rho sg F (n + 1)) by (eapply inv_mono; [exact HR|lia|apply agree_refl]).
  pose proof (xgen_mono _ _ _ _ _ _ _ _ Gb) as Lb.
  unfold src_protected in Hsrc.
  destruct (xeval fuel rho body) as [[[vb|vs|cb pb] tb]|] eqn:Eb; try discriminate;
    pose proof (HS _ _ _ _ _ _ _ _ _ _ _ HR0 Eb Gb) as H.
  - injection Hsrc as <- <-.
    destruct (run_into n (n + 1) lp F db eb n1 vb tb res H ltac:(lia) ltac:(simpl; lia)) as (m & F1 & Xs & Fr & A).
    exists m, F1. split; [split; [unfold py_protected; rewrite Xs; reflexivity|exact Fr]|exact A].
  - destruct H as (m1 & F1 & X & A).
    pose proof (xexec_stop m1 F db [XAssign res eb] (Exc cb pb) F1 tb ltac:(discriminate) X) as Xs.
    assert (A0 : agree_below n F F1) by (apply (agree_weaken n (n + 1)); [lia|exact A]).
    destruct h as [[cls x]|];
      [destruct Hh as (dh & eh & Gh & ->); destruct (catches cls cb) eqn:Ec|destruct Hh as [-> _]].
    + (* caught: the handler's local is bound, and unbound again on the way out *)
      set (p := NLocal x n1) in *. set (ex := VExc cb pb) in *.
      assert (HR1 : inv (upd rho x ex) (upd sg x p) (set F1 p ex) (n1 + 1)) by (eapply inv_let; eauto; lia).
      assert (Ap : agree_below n F (set F1 p ex)) by (apply agree_set_r; [exact A0|simpl; lia]).
      destruct (xeval fuel (upd rho x ex) hb) as [[[vh|?|ch ph] th]|] eqn:Eh; try discriminate;
        injection Hsrc as <- <-; pose proof (HS _ _ _ _ _ _ _ _ _ _ _ HR1 Eh Gh) as H.
      * destruct (run_into n (n1 + 1) lp (set F1 p ex) dh eh n2 vh th res H ltac:(lia) ltac:(simpl; lia)) as (m2 & F2 & Xh & Fr & A2).
        exists (Nat.max m1 m2), (unset F2 p). split; [split|].
        -- unfold py_protected. rewrite (xexec_mono m1 _ _ _ _ (Nat.le_max_l _ _) Xs), Ec. fold ex.
           rewrite (xexec_mono m2 _ _ _ _ (Nat.le_max_r _ _) Xh). reflexivity.
        -- exact Fr.
        -- apply agree_unset_r; [exact (agree_step n n _ _ _ Ap A2 (N.le_refl n))|simpl; lia].
      * destruct H as (m2 & F2 & X2 & A2).
        pose proof (xexec_stop m2 (set F1 p ex) dh [XAssign res eh] (Exc ch ph) F2 th ltac:(discriminate) X2) as Xh.
        exists (Nat.max m1 m2), (unset F2 p). split.
        -- unfold py_protected. rewrite (xexec_mono m1 _ _ _ _ (Nat.le_max_l _ _) Xs), Ec. fold ex.
           rewrite (xexec_mono m2 _ _ _ _ (Nat.le_max_r _ _) Xh). reflexivity.
        -- apply agree_unset_r; [exact (agree_step n (n1 + 1) _ _ _ Ap A2 ltac:(lia))|simpl; lia].
    + injection Hsrc as <- <-. exists m1, F1. split; [|exact A0]. unfold py_protected. rewrite Xs, Ec. reflexivity.
    + injection Hsrc as <- <-. exists m1, F1. split; [|exact A0]. unfold py_protected. rewrite Xs. reflexivity.
Qed.

Theorem xsim_core : forall fuel, xsim_at fuel.
Proof.
  induction fuel as [fuel IH] using lt_wf_ind.
  destruct fuel as [|fuel]; [intros e sg lp n rho F o tr d pe n' HR He; discriminate|].
  assert (HS : xsim_at fuel) by (apply IH; lia).
  pose proof (xsim_list_of fuel HS) as HL.
  pose proof (xsim_binds_of fuel HS) as HB.
  intros e sg lp n rho F o tr d pe n' HR He Hg.
  destruct e as [c|x|c t e|s r|x i b|f args|binds body|args|e|body h hb hasfin fe].
  - cbn [xeval] in He. inversion He; subst. cbn [xgen] in Hg. inversion Hg; subst.
    exists 1%nat, F, [], []. simpl. repeat split; auto using agree_refl.
  - cbn [xeval] in He.
    destruct (rho x) as [vx|] eqn:Ex; [|discriminate]. inversion He; subst; clear He.
    cbn [xgen] in Hg. inversion Hg; subst; clear Hg.
    destruct (proj1 HR x vx Ex) as (p & Hs & Hi & Hf). rewrite Hs.
    exists 1%nat, F, [], []. simpl. rewrite Hf. repeat split; auto using agree_refl.
    apply N.ltb_lt. exact Hi.
  - cbn [xeval] in He. cbn [xgen] in Hg.
    destruct (xgen sg lp n c) as [[[dc ec] n1] k1] eqn:Gc.
    destruct (xgen sg lp (n1 + 2) t) as [[[dt et] n2] k2] eqn:Gt.
    destruct (xgen sg lp n2 e) as [[[de ee] n3] k3] eqn:Ge.
    cbv beta iota zeta in Hg. injection Hg as <- <- <- Hk.
    apply andb_true_iff in Hk as [Hk ->]. apply andb_true_iff in Hk as [-> ->].
    pose proof (xgen_mono _ _ _ _ _ _ _ _ Gc) as Lc.
    pose proof (xgen_mono _ _ _ _ _ _ _ _ Gt) as Lt.
    pose proof (xgen_mono _ _ _ _ _ _ _ _ Ge) as Le.
    destruct (xeval fuel rho c) as [[[vc|?|cc pc] tc]|] eqn:Ec; try discriminate.
    + destruct (HS _ _ _ _ _ _ _ _ _ _ _ HR Ec Gc) as (m1 & F1 & tc1 & tc2 & X1 & P1 & -> & A1 & _).
      set (test := NTemp n1). set (res := NTemp (n1 + 1)).
      assert (A1' : agree_below n F (set F1 test vc)) by (apply agree_set_r; [exact A1|simpl; lia]).
      pose proof (xexec_seq _ _ _ _ _ _ _ _ _ _ X1 (xexec_assign1 _ test _ _ _ P1)) as Xt.
      (* the `if` runs the branch the source takes, which ends by assigning [res] *)
      assert (Hbr : post n lp (set F1 test vc)
                      (if falsey vc then de ++ [XAssign res ee] else dt ++ [XAssign res et]) (PName res) n3 o
                      (match (if falsey vc then xeval fuel rho e else xeval fuel rho t) with Some (_, tb) => tb | None => [] end)).
      { destruct (falsey vc).
        - destruct (xeval fuel rho e) as [[ob tb]|] eqn:Eb; [|discriminate]. injection He as <- _.
          eapply post_assign; [eapply HS; [|exact Eb|exact Ge]; eapply inv_mono; [exact HR| |exact A1']| | |]; simpl; lia.
        - destruct (xeval fuel rho t) as [[ob tb]|] eqn:Eb; [|discriminate]. injection He as <- _.
          eapply post_assign; [eapply HS; [|exact Eb|exact Gt]; eapply inv_mono; [exact HR| |exact A1']| | |]; simpl; lia. }
      destruct (if falsey vc then xeval fuel rho e else xeval fuel rho t) as [[ob tb]|]; [|discriminate].
      injection He as _ <-.
      rewrite snoc_app.
      eapply post_prefix; [exact Xt|exact A1'|apply N.le_refl|]. eapply post_if; [apply set_same|exact Hbr].
    + injection He as <- <-.
      destruct (HS _ _ _ _ _ _ _ _ _ _ _ HR Ec Gc) as (m1 & F1 & X1 & A1). eapply post_raise; eauto.
  - cbn [xeval] in He. cbn [xgen] in Hg.
    destruct (xgen sg lp n s) as [[[ds es] n1] k1] eqn:Gs. destruct (xgen sg lp n1 r) as [[[dr er] n2] k2] eqn:Gr.
    injection Hg as <- <- <- Hk. apply andb_true_iff in Hk as [-> ->].
    pose proof (xgen_mono _ _ _ _ _ _ _ _ Gs) as Ls. pose proof (xgen_mono _ _ _ _ _ _ _ _ Gr) as Lr.
    destruct (xeval fuel rho s) as [[[vs0|?|cs ps] ts]|] eqn:Es; try discriminate.
    + destruct (xeval fuel rho r) as [[orr trr]|] eqn:Er; [|discriminate]. injection He as <- <-.
      destruct (HS _ _ _ _ _ _ _ _ _ _ _ HR Es Gs) as (m1 & F1 & ts1 & ts2 & X1 & P1 & -> & A1 & _).
      rewrite snoc_app.
      eapply post_prefix; [exact (xexec_seq _ _ _ _ _ _ _ _ _ _ X1 (xexec_expr1 _ _ _ _ P1))|exact A1|exact Ls|].
      eapply HS; eauto using inv_mono.
    + injection He as <- <-.
      destruct (HS _ _ _ _ _ _ _ _ _ _ _ HR Es Gs) as (m1 & F1 & X1 & A1). eapply post_raise; eauto.
  - cbn [xeval] in He. cbn [xgen] in Hg.
    destruct (xgen sg lp n i) as [[[di ei] n1] k1] eqn:Gi. cbv zeta in Hg.
    destruct (xgen (upd sg x (NLocal x n1)) lp (n1 + 1) b) as [[[db eb] n2] k2] eqn:Gb.
    injection Hg as <- <- <- Hk. apply andb_true_iff in Hk as [-> ->].
    pose proof (xgen_mono _ _ _ _ _ _ _ _ Gi) as Li. pose proof (xgen_mono _ _ _ _ _ _ _ _ Gb) as Lb.
    destruct (xeval fuel rho i) as [[[vi|?|ci pi] ti]|] eqn:Ei; try discriminate.
    + destruct (xeval fuel (upd rho x vi) b) as [[ob tb]|] eqn:Eb; [|discriminate]. injection He as <- <-.
      destruct (HS _ _ _ _ _ _ _ _ _ _ _ HR Ei Gi) as (m1 & F1 & ti1 & ti2 & X1 & P1 & -> & A1 & _).
      rewrite snoc_app.
      eapply (post_prefix n (n1 + 1));
        [exact (xexec_seq _ _ _ _ _ _ _ _ _ _ X1 (xexec_assign1 _ (NLocal x n1) _ _ _ P1))
        |apply agree_set_r; [exact A1|simpl; lia]|lia|].
      eapply HS; eauto. eapply inv_let; eauto.
    + injection He as <- <-.
      destruct (HS _ _ _ _ _ _ _ _ _ _ _ HR Ei Gi) as (m1 & F1 & X1 & A1). eapply post_raise; eauto.
  - cbn [xeval] in He. cbn [xgen] in Hg.
    change (xgen_args (fun n a => xgen sg lp n a) args n) with (xgen_list sg lp n args) in Hg.
    destruct (xgen_list sg lp n args) as [[[ds es] n1] k1] eqn:Gl. injection Hg as <- <- <- ->.
    destruct (evals (xeval fuel) rho args) as [[[vs|ca pa] ta]|] eqn:Ea; [| |discriminate];
      destruct (HL _ _ _ _ _ _ _ _ _ _ _ HR Ea Gl) as (_ & H).
    + destruct (apply_prim f vs) as [[vr tp]|] eqn:Ep; [|discriminate]. injection He as <- <-.
      destruct H as (m & F1 & t1 & t2 & X1 & P1 & -> & A1 & N1).
      exists m, F1, t1, (t2 ++ tp). rewrite peval_call, P1, Ep, app_assoc. auto.
    + injection He as <- <-. exact H.
  - cbn [xeval] in He. cbn [xgen] in Hg.
    change (xgen_binds_with (fun sg n i => xgen sg lp n i) binds sg (n + 1)) with (xgen_binds sg lp (n + 1) binds) in Hg.
    cbv zeta in Hg.
    destruct (xgen_binds sg lp (n + 1) binds) as [[[[dbs names] sg1] n1] k1] eqn:Gb.
    destruct (xgen sg1 names n1 body) as [[[db eb] n2] k2] eqn:Gbody.
    injection Hg as <- <- <- Hk.
    apply andb_true_iff in Hk as [Hk Hnd]. apply andb_true_iff in Hk as [-> ->]. apply nodupb_NoDup in Hnd.
    set (res := NTemp n). set (F0 := set F res VNil).
    assert (A0 : agree_below n F F0) by (apply agree_set; simpl; lia).
    assert (HR0 : inv rho sg F0 (n + 1)) by (eapply inv_mono; [exact HR|lia|exact A0]).
    pose proof (xexec_assign1 F res (PConst VNil) VNil [] eq_refl) as X0.
    pose proof (xgen_mono _ _ _ _ _ _ _ _ Gbody) as Lb.
    pose proof (xgen_binds_mono _ _ _ _ _ _ _ _ _ Gb) as Lbs.
    change (post n lp F (([XAssign res (PConst VNil)] ++ dbs) ++ [XWhile (db ++ [XAssign res eb; XBreak])]) (PName res) n2 o tr).
    destruct (evbinds (xeval fuel) rho binds) as [[[rho1|cb pb] t1]|] eqn:Ebd; [| |discriminate];
      destruct (HB _ _ _ _ _ _ _ _ _ _ _ _ HR0 Ebd Gb Hnd) as (_ & H).
    + destruct H as (m1 & F1 & X1 & HR1 & A1 & FA & FN & NDn & Hout).
      destruct (xloop fuel (map fst binds) rho1 body) as [[ol t2]|] eqn:El; [|discriminate]. injection He as <- <-.
      eapply (post_prefix n n); [exact (xexec_seq _ _ _ _ _ _ _ _ _ _ X0 X1)| |apply N.le_refl|].
      { eapply agree_step; [exact A0|exact A1|lia]. }
      (* the names of the loop locals are younger than every name in scope and than the result name *)
      assert (Hout' : forall y q, ~ In y (map fst binds) -> sg1 y = Some q -> ~ In q names).
      { intros y q Hy Hq Hin. rewrite (Hout y Hy) in Hq.
        rewrite Forall_forall in FN. specialize (FN _ Hin). pose proof (proj2 HR0 y q Hq). lia. }
      assert (Hres : Forall (fun p => idx res < idx p) names).
      { eapply Forall_impl; [|exact FN]. intros q Hq. cbv beta in *. simpl. lia. }
      pose proof (loop_core fuel (fun k Hk => IH k (Nat.lt_lt_succ_r _ _ Hk)) (map fst binds) rho1 body ol t2 sg1 names n1 F1
                       db eb n2 res El HR1 Gbody FA NDn Hout' Hres ltac:(simpl; lia)) as Hloop.
      destruct ol as [v|?|cl pl]; [|destruct Hloop|].
      * destruct Hloop as (m2 & F2 & W & Fr & A2). exists (S m2), F2, t2, [].
        split; [apply xexec_single; exact W|]. split; [simpl; rewrite Fr; reflexivity|].
        split; [rewrite app_nil_r; reflexivity|]. split; [exact A2|]. apply N.ltb_lt. simpl. lia.
      * destruct Hloop as (m2 & F2 & W & A2). exists (S m2), F2. split; [apply xexec_single; exact W|exact A2].
    + injection He as <- <-. destruct H as (m1 & F1 & X1 & A1).
      eapply post_raise; [exact (xexec_seq _ _ _ _ _ _ _ _ _ _ X0 X1)|].
      eapply agree_step; [exact A0|exact A1|lia].
  - cbn [xeval] in He. cbn [xgen] in Hg.
    change (xgen_args (fun n a => xgen sg lp n a) args n) with (xgen_list sg lp n args) in Hg.
    destruct (xgen_list sg lp n args) as [[[ds es] n1] k1] eqn:Gl. injection Hg as <- <- <- ->.
    destruct (evals (xeval fuel) rho args) as [[[vs|ca pa] ta]|] eqn:Ea; [| |discriminate]; injection He as <- <-;
      destruct (HL _ _ _ _ _ _ _ _ _ _ _ HR Ea Gl) as (_ & H).
    + destruct H as (m & F1 & t1 & t2 & X1 & P1 & -> & A1 & N1). intro Hlen.
      destruct (set_all_total F1 lp vs (eq_sym Hlen)) as [F'' Sa].
      exists (Nat.max m 2), F1, F''. split; [|split; [exact A1|exact Sa]].
      eapply xexec_seq; [exact X1|].
      rewrite xexec_cons, (exec_assign_all 1 F1 lp es vs t2 F'' P1 Sa), xexec_cons. cbn [xexec1].
      rewrite app_nil_r. reflexivity.
    + destruct H as (m & F1 & X1 & A1). eapply post_raise; eauto.
  - cbn [xeval] in He. cbn [xgen] in Hg.
    destruct (xgen sg lp n e) as [[[dx ex] n1] k1] eqn:Gx. injection Hg as <- <- <- ->.
    destruct (xeval fuel rho e) as [[[v|?|ce pe0] te]|] eqn:Ee; try discriminate.
    + destruct v as [| | | |cv pv]; try discriminate. injection He as <- <-.
      destruct (HS _ _ _ _ _ _ _ _ _ _ _ HR Ee Gx) as (m1 & F1 & t1 & t2 & X1 & P1 & -> & A1 & _).
      exists (Nat.max m1 1), F1. split; [|exact A1].
      eapply xexec_seq; [exact X1|]. apply xexec_single, xexec1_S_raise, P1.
    + injection He as <- <-.
      destruct (HS _ _ _ _ _ _ _ _ _ _ _ HR Ee Gx) as (m1 & F1 & X1 & A1).
      eapply post_raise; eauto.
  - rewrite xeval_S_try in He.
    apply xgen_try_inv in Hg as (db & eb & n1 & hh & n2 & f & Gb & Hh & Hf & -> & -> & L1 & L2 & L3).
    set (res := NTemp n) in *.
    unfold src_try in He.
    destruct (src_protected fuel rho body h hb) as [[o1 t1]|] eqn:E1; [|destruct hasfin; discriminate].
    destruct (try_protected_sim fuel HS rho sg lp F n body h hb db eb n1 n2 o1 t1 hh HR Gb Hh E1) as (m1 & F1 & Hm & A1).
    fold res in Hm.
    assert (Hp : exists o1', py_protected m1 F (db ++ [XAssign res eb]) hh = Some (o1', F1, t1) /\
                 match o1 with OVal v => o1' = Normal /\ F1 res = Some v | OExc c p => o1' = Exc c p | ORec _ => False end).
    { destruct o1 as [v|?|c p]; [destruct Hm as [Hm Fr]; exists Normal; auto|destruct Hm|exists (Exc c p); auto]. }
    clear Hm. destruct Hp as (o1' & Hp & Ho).
    assert (Hfin : exists m2 o2 F2 tf,
               xexec m2 F1 f = Some (o2, F2, tf) /\ agree_below (n + 1) F1 F2 /\ tr = t1 ++ tf /\
               (o2 = Normal /\ o = o1 \/ exists c p, o2 = Exc c p /\ o = OExc c p)).
    { destruct hasfin; cbn [negb] in He; cbv iota in He.
      - destruct Hf as (df & ef & Gf & ->).
        assert (HRf : inv rho sg F1 n2) by (eapply inv_mono; [exact HR|lia|exact A1]).
        destruct (xeval fuel rho fe) as [[[vf|?|cf pf] tf]|] eqn:Ef; try discriminate; injection He as <- <-;
          pose proof (HS _ _ _ _ _ _ _ _ _ _ _ HRf Ef Gf) as H.
        + destruct H as (m2 & F2 & tf1 & tf2 & X2 & P2 & -> & A2 & _).
          exists (Nat.max m2 1), Normal, F2, (tf1 ++ tf2).
          split; [exact (xexec_seq _ _ _ _ _ _ _ _ _ _ X2 (xexec_expr1 _ _ _ _ P2))|].
          split; [exact (agree_weaken (n + 1) n2 _ _ ltac:(lia) A2)|auto].
        + destruct H as (m2 & F2 & X2 & A2). exists m2, (Exc cf pf), F2, tf.
          split; [apply xexec_stop; [discriminate|exact X2]|].
          split; [exact (agree_weaken (n + 1) n2 _ _ ltac:(lia) A2)|]. split; [reflexivity|right; eauto].
      - destruct Hf as [-> ->]. injection He as <- <-. exists 0%nat, Normal, F1, [].
        rewrite app_nil_r. repeat split; auto using agree_refl. }
    destruct Hfin as (m2 & o2 & F2 & tf & Xf & A2 & -> & Ho2).
    pose proof (xtry_run m1 m2 F _ hh f o1' F1 t1 o2 F2 tf Hp Xf) as Xall.
    assert (Ag : agree_below n F F2) by exact (agree_step n (n + 1) _ _ _ A1 A2 ltac:(lia)).
    destruct Ho2 as [[-> ->]|(c & p & -> & ->)]; [destruct o1 as [v|?|c p]; [destruct Ho as [-> Fr]|destruct Ho|subst o1']|].
    + exists (S (Nat.max m1 m2)), F2, (t1 ++ tf), [].
      split; [exact Xall|]. split; [simpl; rewrite (A2 res) by (simpl; lia); rewrite Fr; reflexivity|].
      split; [rewrite app_nil_r; reflexivity|]. split; [exact Ag|]. apply N.ltb_lt. simpl. lia.
    + exists (S (Nat.max m1 m2)), F2. split; [exact Xall|exact Ag].
    + exists (S (Nat.max m1 m2)), F2. split; [exact Xall|exact Ag].
Qed.

Definition xloop_sim k := loop_core k (fun j _ => xsim_core j).
