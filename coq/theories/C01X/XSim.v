(** Forward simulation for the first-order core with loop*/recur, throw and
    try/catch/finally.  This file only states the results, over the invariant [R2] of
    C01L/LSim.v (the [inv] of C01X/XCore.v), for Properties/C01.v and C02.v: [xsim] is
    [xsim_at] with [post] written out and the bound of [xgen_mono] attached, [py_r1] is
    [py_protected], [src_r1] is [src_protected]; [xsim_all], [loop_sim], [try_r1_sim] are
    [xsim_core], [xloop_sim], [try_protected_sim] of C01X/XCore.v. *)
From Coq Require Import List NArith Bool.
Import ListNotations.
From Verif Require Import C01.Sim C01L.LSim C01X.XLisp C01X.XPy C01X.XGen.
From Verif Require Export C01X.XCore.
Local Open Scope N_scope.

Lemma xquiet_app a b : xquiet (a ++ b) = xquiet a && xquiet b.
Proof. exact (forallb_app xquiet1 a b). Qed.

Definition xsim (fuel : nat) : Prop :=
  forall e sg lp n rho F o tr d pe n',
    R2 rho sg F n -> xeval fuel rho e = Some (o, tr) -> xgen sg lp n e = (d, pe, n', true) ->
    n <= n' /\
    match o with
    | OVal v =>
        exists m F' t1 t2,
          xexec m F d = Some (Normal, F', t1) /\ peval F' pe = Some (v, t2) /\ tr = t1 ++ t2 /\
          agree_below n F F' /\ nb n' pe = true
    | ORec vs =>
        length vs = length lp ->
        exists m F' F'', xexec m F d = Some (Cont, F'', tr) /\ agree_below n F F' /\ set_all F' lp vs = Some F''
    | OExc c p => exists m F', xexec m F d = Some (Exc c p, F', tr) /\ agree_below n F F'
    end.

Theorem xsim_all : forall fuel, xsim fuel.
Proof.
  intros fuel e sg lp n rho F o tr d pe n' HR He Hg.
  split; [exact (xgen_mono _ _ _ _ _ _ _ _ Hg)|exact (xsim_core fuel _ _ _ _ _ _ _ _ _ _ _ HR He Hg)].
Qed.

Lemma loop_sim fuel0 : (forall k, (k < fuel0)%nat -> xsim k) ->
  forall k, (k <= fuel0)%nat ->
  forall xs rho1 body o t sg1 names n1 F1 db eb n2 res,
    xloop k xs rho1 body = Some (o, t) ->
    R2 rho1 sg1 F1 n1 -> xgen sg1 names n1 body = (db, eb, n2, true) ->
    Forall2 (fun x p => sg1 x = Some p /\ idx p < n1) xs names -> NoDup names ->
    (forall y q, ~ In y xs -> sg1 y = Some q -> ~ In q names) ->
    Forall (fun p => idx res < idx p) names -> idx res < n1 ->
    match o with
    | OVal v => exists m F2, xwhile m F1 (db ++ [XAssign res eb; XBreak]) = Some (Normal, F2, t) /\
                             F2 res = Some v /\ agree_below (idx res) F1 F2
    | OExc c p => exists m F2, xwhile m F1 (db ++ [XAssign res eb; XBreak]) = Some (Exc c p, F2, t) /\
                               agree_below (idx res) F1 F2
    | ORec _ => False
    end.
Proof. intros _ k _. exact (xloop_sim k). Qed.

Definition py_r1 (m : nat) (F : frame) (body : list xstmt) (handler : option (N * pname * list xstmt))
  : option (sout * frame * trace) :=
  match xexec m F body with
  | Some (Exc c p, F1, t1) =>
      match handler with
      | Some (hc, x, hb) =>
          if catches hc c then
            match xexec m (set F1 x (VExc c p)) hb with
            | Some (o, F2, t2) => Some (o, unset F2 x, t1 ++ t2)
            | None => None
            end
          else Some (Exc c p, F1, t1)
      | None => Some (Exc c p, F1, t1)
      end
  | other => other
  end.


Lemma xexec1_S_try m F b h f : xexec1 (S m) F (XSTry b h f) = py_fin m (py_r1 m F b h) f.
Proof. reflexivity. Qed.

Definition src_r1 (fuel : nat) (rho : env) (body : xexpr) (h : option (N * N)) (hb : xexpr) :=
  match xeval fuel rho body with
  | Some (OExc c p, t1) =>
      match h with
      | Some (hc, x) =>
          if catches hc c then
            match xeval fuel (upd rho x (VExc c p)) hb with
            | Some (ORec _, _) => None
            | Some (o, t2) => Some (o, t1 ++ t2)
            | None => None
            end
          else Some (OExc c p, t1)
      | None => Some (OExc c p, t1)
      end
  | Some (ORec _, _) => None
  | other => other
  end.

Lemma try_r1_sim fuel : xsim fuel ->
  forall rho sg lp F n body h hb db eb n1 n2 o t hh,
    R2 rho sg F n ->
    xgen sg lp (n + 1) body = (db, eb, n1, true) ->
    match h with
    | Some (cls, x) =>
        exists dh eh, xgen (upd sg x (NLocal x n1)) lp (n1 + 1) hb = (dh, eh, n2, true) /\
                      hh = Some (cls, NLocal x n1, dh ++ [XAssign (NTemp n) eh])
    | None => hh = None /\ n2 = n1
    end ->
    src_r1 fuel rho body h hb = Some (o, t) ->
    exists m F1,
      match o with
      | OVal v => py_r1 m F (db ++ [XAssign (NTemp n) eb]) hh = Some (Normal, F1, t) /\ F1 (NTemp n) = Some v
      | OExc c p => py_r1 m F (db ++ [XAssign (NTemp n) eb]) hh = Some (Exc c p, F1, t)
      | ORec _ => False
      end /\ agree_below n F F1.
Proof. intros _. exact (try_protected_sim fuel (xsim_core fuel)). Qed.
