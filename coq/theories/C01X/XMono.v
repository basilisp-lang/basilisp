(** Fuel monotonicity of the Python semantics and sequencing lemmas. *)
From Coq Require Import List Arith.
Import ListNotations.
From Verif Require Import C01X.XPy.

Definition ext (f g : frame -> xstmt -> option (sout * frame * trace)) : Prop :=
  forall F s r, f F s = Some r -> g F s = Some r.

Lemma xexecs_ext f g : ext f g -> forall l F r, xexecs f F l = Some r -> xexecs g F l = Some r.
Proof.
  intros E. induction l as [|s l IH]; intros F r H; simpl in *; [exact H|].
  destruct (f F s) as [[[o F1] t1]|] eqn:E1; [|discriminate].
  rewrite (E _ _ _ E1).
  destruct o; try exact H.
  destruct (xexecs f F1 l) as [[[o2 F2] t2]|] eqn:E2; [|discriminate].
  rewrite (IH _ _ E2). exact H.
Qed.

Lemma xexecs_ext' f g : ext f g -> forall l F, match xexecs f F l with Some r => xexecs g F l = Some r | None => True end.
Proof. intros E l F. destruct (xexecs f F l) eqn:X; [|exact I]. eapply xexecs_ext; eauto. Qed.

Lemma mono_step : forall m,
  (forall F s r, xexec1 m F s = Some r -> xexec1 (S m) F s = Some r) /\
  (forall F b r, xwhile m F b = Some r -> xwhile (S m) F b = Some r).
Proof.
  induction m as [|m [IH1 IH2]]; [split; intros; discriminate|].
  assert (E : ext (xexec1 m) (xexec1 (S m))) by (intros F s r; apply IH1).
  split.
  - intros F s r H. destruct s; try exact H.
    + cbn [xexec1] in *. destruct (F test) as [v|]; [|discriminate].
      eapply xexecs_ext; [exact E|exact H].
    + cbn [xexec1] in *. apply IH2. exact H.
    + (* try: the three runs inside (body, handler, finally) each keep their result *)
      cbn [xexec1] in H. remember (S m) as m' eqn:Em. cbn [xexec1]. cbv zeta in H |- *.
      assert (Fin : forall o F1 t1,
                 match xexecs (xexec1 m) F1 fin with
                 | Some (Normal, F2, t2) => Some (o, F2, t1 ++ t2)
                 | Some (o2, F2, t2) => Some (o2, F2, t1 ++ t2)
                 | None => None
                 end = Some r ->
                 match xexecs (xexec1 m') F1 fin with
                 | Some (Normal, F2, t2) => Some (o, F2, t1 ++ t2)
                 | Some (o2, F2, t2) => Some (o2, F2, t1 ++ t2)
                 | None => None
                 end = Some r).
      { intros o F1' t1' Hf. destruct (xexecs (xexec1 m) F1' fin) as [[[of F2] t2]|] eqn:Ef; [|discriminate].
        rewrite (xexecs_ext _ _ E _ _ _ Ef). exact Hf. }
      destruct (xexecs (xexec1 m) F body) as [[[ob F1] t1]|] eqn:Eb; [|discriminate].
      rewrite (xexecs_ext _ _ E _ _ _ Eb).
      destruct ob as [| | |c p]; try (apply Fin; exact H).
      destruct handler as [[[hc x] hb]|]; [|apply Fin; exact H].
      destruct (XLisp.catches hc c); [|apply Fin; exact H].
      destruct (xexecs (xexec1 m) (set F1 x (VExc c p)) hb) as [[[oh F2] t2]|] eqn:Eh; [|discriminate].
      rewrite (xexecs_ext _ _ E _ _ _ Eh). apply Fin. exact H.
  - intros F b r H. cbn [xwhile] in H.
    destruct (xexecs (xexec1 m) F b) as [[[o F1] t1]|] eqn:Eb; [|discriminate].
    remember (S m) as m' eqn:Em. cbn [xwhile].
    rewrite (xexecs_ext _ _ E _ _ _ Eb).
    destruct o; try exact H;
      (destruct (xwhile m F1 b) as [[[o2 F2] t2]|] eqn:Ew; [|discriminate];
       rewrite (IH2 _ _ _ Ew); exact H).
Qed.

Lemma xexec1_mono m m' F s r : m <= m' -> xexec1 m F s = Some r -> xexec1 m' F s = Some r.
Proof.
  intros L H. induction L as [|m' L IH]; [exact H|]. apply (proj1 (mono_step m')). exact IH.
Qed.

Lemma xwhile_mono m m' F b r : m <= m' -> xwhile m F b = Some r -> xwhile m' F b = Some r.
Proof.
  intros L H. induction L as [|m' L IH]; [exact H|]. apply (proj2 (mono_step m')). exact IH.
Qed.

Lemma xexec_mono m m' F l r : m <= m' -> xexec m F l = Some r -> xexec m' F l = Some r.
Proof.
  intros L. unfold xexec. apply xexecs_ext. intros F0 s r0. apply xexec1_mono. exact L.
Qed.

Lemma xexec_nil m F : xexec m F [] = Some (Normal, F, []).
Proof. reflexivity. Qed.

Lemma xexec_cons m F s r :
  xexec m F (s :: r) =
    match xexec1 m F s with
    | Some (Normal, F1, t1) =>
        match xexec m F1 r with Some (o, F2, t2) => Some (o, F2, t1 ++ t2) | None => None end
    | other => other
    end.
Proof. reflexivity. Qed.

Lemma xexec_app m F l1 l2 :
  xexec m F (l1 ++ l2) =
    match xexec m F l1 with
    | Some (Normal, F1, t1) =>
        match xexec m F1 l2 with Some (o, F2, t2) => Some (o, F2, t1 ++ t2) | None => None end
    | other => other
    end.
Proof.
  revert F. induction l1 as [|s r IH]; intro F.
  - cbn [app]. rewrite xexec_nil. destruct (xexec m F l2) as [[[o F2] t2]|]; reflexivity.
  - rewrite <- app_comm_cons, !xexec_cons.
    destruct (xexec1 m F s) as [[[o F1] t1]|]; [|reflexivity].
    destruct o; try reflexivity.
    rewrite IH. destruct (xexec m F1 r) as [[[o2 F2] t2]|]; [|reflexivity].
    destruct o2; try reflexivity.
    destruct (xexec m F2 l2) as [[[o3 F3] t3]|]; [|reflexivity].
    rewrite app_assoc. reflexivity.
Qed.

Lemma xexec_seq m1 m2 F l1 l2 F1 t1 o F2 t2 :
  xexec m1 F l1 = Some (Normal, F1, t1) -> xexec m2 F1 l2 = Some (o, F2, t2) ->
  xexec (Nat.max m1 m2) F (l1 ++ l2) = Some (o, F2, t1 ++ t2).
Proof.
  intros H1 H2. rewrite xexec_app.
  rewrite (xexec_mono m1 (Nat.max m1 m2) _ _ _ (Nat.le_max_l _ _) H1).
  rewrite (xexec_mono m2 (Nat.max m1 m2) _ _ _ (Nat.le_max_r _ _) H2). reflexivity.
Qed.

Lemma xexec_stop m F l1 l2 o F1 t1 :
  o <> Normal -> xexec m F l1 = Some (o, F1, t1) -> xexec m F (l1 ++ l2) = Some (o, F1, t1).
Proof.
  intros Hn H. rewrite xexec_app, H. destruct o; congruence.
Qed.

(** one iteration of `while True` *)
Lemma xwhile_break m F b F1 t : xexec m F b = Some (Brk, F1, t) -> xwhile (S m) F b = Some (Normal, F1, t).
Proof. intro X. cbn [xwhile]. unfold xexec in X. rewrite X. reflexivity. Qed.

Lemma xwhile_exc m F b c p F1 t : xexec m F b = Some (Exc c p, F1, t) -> xwhile (S m) F b = Some (Exc c p, F1, t).
Proof. intro X. cbn [xwhile]. unfold xexec in X. rewrite X. reflexivity. Qed.

Lemma xwhile_again m1 m2 F b F1 t1 o F2 t2 :
  xexec m1 F b = Some (Cont, F1, t1) -> xwhile m2 F1 b = Some (o, F2, t2) ->
  xwhile (S (Nat.max m1 m2)) F b = Some (o, F2, t1 ++ t2).
Proof.
  intros X W. cbn [xwhile]. apply (xexec_mono m1 (Nat.max m1 m2)) in X; [|apply Nat.le_max_l].
  unfold xexec in X. rewrite X, (xwhile_mono m2 _ _ _ _ (Nat.le_max_r m1 m2) W). reflexivity.
Qed.

Lemma xexec1_S_assign m F x e v t :
  peval F e = Some (v, t) -> xexec1 (S m) F (XAssign x e) = Some (Normal, set F x v, t).
Proof. intro H. cbn [xexec1]. rewrite H. reflexivity. Qed.

Lemma xexec1_S_expr m F e v t :
  peval F e = Some (v, t) -> xexec1 (S m) F (XExpr e) = Some (Normal, F, t).
Proof. intro H. cbn [xexec1]. rewrite H. reflexivity. Qed.

Lemma xexec1_S_if m F tst fb tb v :
  F tst = Some v -> xexec1 (S m) F (XSIf tst fb tb) = xexec m F (if falsey v then fb else tb).
Proof. intro H. cbn [xexec1]. rewrite H. reflexivity. Qed.

Lemma xexec1_S_raise m F e c p t :
  peval F e = Some (VExc c p, t) -> xexec1 (S m) F (XRaise e) = Some (Exc c p, F, t).
Proof. intro H. cbn [xexec1]. rewrite H. reflexivity. Qed.
