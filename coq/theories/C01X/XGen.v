(** Generator model for the exception extension (generator.py: _throw_to_py_ast,
    _try_to_py_ast / __catch_to_py_ast on top of the loop fragment). *)
From Coq Require Import List NArith Bool.
Import ListNotations.
From Verif Require Import C01X.XLisp C01X.XPy.
From Verif Require C01.Gen C01L.LGen.
Local Open Scope N_scope.

Definition senv := N -> option pname.
Definition atomic := Verif.C01.Gen.atomic.

Definition xquiet_with (q : xstmt -> bool) : list xstmt -> bool :=
  fix go (l : list xstmt) : bool := match l with [] => true | s :: r => q s && go r end.

Fixpoint xquiet1 (s : xstmt) : bool :=
  match s with
  | XAssign _ e | XExpr e => atomic e
  | XSIf _ fb tb => xquiet_with xquiet1 fb && xquiet_with xquiet1 tb
  | _ => false
  end.
Definition xquiet := xquiet_with xquiet1.

Definition xout := (list xstmt * pexpr * N * bool)%type.

Definition xgen_args (g : N -> xexpr -> xout) : list xexpr -> N -> list xstmt * list pexpr * N * bool :=
  fix go (l : list xexpr) (n : N) :=
    match l with
    | [] => ([], [], n, true)
    | a :: r =>
        let '(d, e, n1, k1) := g n a in
        let '(ds, es, n2, k2) := go r n1 in
        (d ++ ds, e :: es, n2, k1 && k2 && (atomic e || xquiet ds))
    end.

Definition assign_all (names : list pname) (es : list pexpr) : xstmt :=
  match names, es with
  | [x], [e1] => XAssign x e1
  | _, _ => XAssignTuple names es
  end.

Notation nodupb := Verif.C01L.LGen.nodupb.

Definition xgen_binds_with (g : senv -> N -> xexpr -> xout)
  : list (N * xexpr) -> senv -> N -> list xstmt * list pname * senv * N * bool :=
  fix go (l : list (N * xexpr)) (sg : senv) (n : N) :=
    match l with
    | [] => ([], [], sg, n, true)
    | (x, i) :: r =>
        let '(di, ei, n1, k1) := g sg n i in
        let p := NLocal x n1 in
        let '(ds, ps, sg2, n2, k2) := go r (upd sg x p) (n1 + 1) in
        (di ++ [XAssign p ei] ++ ds, p :: ps, sg2, n2, k1 && k2)
    end.

(** does the expression contain a `recur` in tail position (one that would cross a try)? *)
Fixpoint tail_recur (e : xexpr) : bool :=
  match e with
  | XRecur _ => true
  | XIf _ t e => tail_recur t || tail_recur e
  | XDo _ r => tail_recur r
  | XLet _ _ b => tail_recur b
  | XTry b h hb _ _ => tail_recur b || match h with Some _ => tail_recur hb | None => false end
  | _ => false
  end.

Fixpoint xgen (sg : senv) (lp : list pname) (n : N) (e : xexpr) : xout :=
  match e with
  | XConst v => ([], PConst v, n, true)
  | XLocal x => ([], PName (match sg x with Some p => p | None => NLocal x 0 end), n, true)
  | XIf c t e =>
      let '(dc, ec, n1, k1) := xgen sg lp n c in
      let test := NTemp n1 in
      let res := NTemp (n1 + 1) in
      let '(dt, et, n2, k2) := xgen sg lp (n1 + 2) t in
      let '(de, ee, n3, k3) := xgen sg lp n2 e in
      (dc ++ [XAssign test ec; XSIf test (de ++ [XAssign res ee]) (dt ++ [XAssign res et])],
       PName res, n3, k1 && k2 && k3)
  | XDo s r =>
      let '(ds, es, n1, k1) := xgen sg lp n s in
      let '(dr, er, n2, k2) := xgen sg lp n1 r in
      (ds ++ [XExpr es] ++ dr, er, n2, k1 && k2)
  | XLet x i b =>
      let '(di, ei, n1, k1) := xgen sg lp n i in
      let p := NLocal x n1 in
      let '(db, eb, n2, k2) := xgen (upd sg x p) lp (n1 + 1) b in
      (di ++ [XAssign p ei] ++ db, eb, n2, k1 && k2)
  | XCall f args =>
      let '(ds, es, n', k) := xgen_args (fun n a => xgen sg lp n a) args n in
      (ds, PCall f es, n', k)
  | XLoop binds body =>
      let res := NTemp n in
      let '(dbs, names, sg1, n1, k1) := xgen_binds_with (fun sg n i => xgen sg lp n i) binds sg (n + 1) in
      let '(db, eb, n2, k2) := xgen sg1 names n1 body in
      ([XAssign res (PConst VNil)] ++ dbs ++ [XWhile (db ++ [XAssign res eb; XBreak])], PName res, n2,
       k1 && k2 && nodupb (map fst binds))
  | XRecur args =>
      let '(ds, es, n', k) := xgen_args (fun n a => xgen sg lp n a) args n in
      (ds ++ [assign_all lp es; XContinue], PConst VNil, n', k)
  | XThrow x =>
      let '(dx, ex, n1, k1) := xgen sg lp n x in
      (dx ++ [XRaise ex], PConst VNil, n1, k1)
  | XTry body h hb hasfin fe =>
      let res := NTemp n in
      let '(db, eb, n1, k1) := xgen sg lp (n + 1) body in
      let '(hh, n2, k2) :=
        match h with
        | Some (cls, x) =>
            let p := NLocal x n1 in
            let '(dh, eh, n2, k2) := xgen (upd sg x p) lp (n1 + 1) hb in
            (Some (cls, p, dh ++ [XAssign res eh]), n2, k2)
        | None => (None, n1, true)
        end in
      let '(f, n3, k3) :=
        if hasfin then let '(df, ef, n3, k3) := xgen sg lp n2 fe in (df ++ [XExpr ef], n3, k3)
        else ([], n2, true) in
      ([XSTry (db ++ [XAssign res eb]) hh f], PName res, n3,
       k1 && k2 && k3 && negb (tail_recur e))
  end.

Definition xgen_list (sg : senv) (lp : list pname) (n : N) (l : list xexpr) := xgen_args (xgen sg lp) l n.
Definition xgen_binds (sg : senv) (lp : list pname) (n : N) (l : list (N * xexpr)) :=
  xgen_binds_with (fun sg n i => xgen sg lp n i) l sg n.

Lemma xgen_binds_cons sg lp n x i r :
  xgen_binds sg lp n ((x, i) :: r) =
    let '(di, ei, n1, k1) := xgen sg lp n i in
    let p := NLocal x n1 in
    let '(ds, ps, sg2, n2, k2) := xgen_binds (upd sg x p) lp (n1 + 1) r in
    (di ++ [XAssign p ei] ++ ds, p :: ps, sg2, n2, k1 && k2).
Proof. reflexivity. Qed.

Lemma xgen_list_cons sg lp n a r :
  xgen_list sg lp n (a :: r) =
    let '(d, e, n1, k1) := xgen sg lp n a in
    let '(ds, es, n2, k2) := xgen_list sg lp n1 r in
    (d ++ ds, e :: es, n2, k1 && k2 && (atomic e || xquiet ds)).
Proof. reflexivity. Qed.

Definition hazard_free (e : xexpr) : bool :=
  let '(_, _, _, k) := xgen (fun _ => None) [] 0 e in k.

Inductive xresult := XRVal (v : value) (t : trace) | XRExc (cls : N) (t : trace).

Definition xrun (fuel : nat) (e : xexpr) : option xresult :=
  let '(d, pe, _, _) := xgen (fun _ => None) [] 0 e in
  match xexec fuel (fun _ => None) d with
  | Some (Normal, F, t1) => match peval F pe with Some (v, t2) => Some (XRVal v (t1 ++ t2)) | None => None end
  | Some (Exc c _, _, t1) => Some (XRExc c t1)
  | _ => None
  end.
