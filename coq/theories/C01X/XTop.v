(** Whole-program theorem for the first-order core with loop*/recur, throw and
    try/catch/finally. *)
From Coq Require Import List ZArith.
Import ListNotations.
From Verif Require Import C01.Sim C01X.XLisp C01X.XGen C01X.XMono C01X.XSim.
Local Open Scope N_scope.

(** If the evaluation rules give an outcome for a closed hazard-free program -- a value, or
    an exception that leaves the program -- then for every sufficiently large fuel the compiled
    code yields exactly that outcome with exactly that trace: a raised exception skips the
    rest of every enclosing form up to the nearest matching catch, the handler runs with its
    local bound to the exception, the finally clause runs exactly once on every way out (and
    an exception raised by it replaces the pending outcome), and an exception leaves any
    number of enclosing loops. *)
Theorem xcompile_correct fuel e o tr :
  xeval fuel (fun _ => None) e = Some (o, tr) -> hazard_free e = true ->
  match o with
  | OVal v => exists m, forall m', (m <= m')%nat -> xrun m' e = Some (XRVal v tr)
  | OExc c _ => exists m, forall m', (m <= m')%nat -> xrun m' e = Some (XRExc c tr)
  | ORec _ => True
  end.
Proof.
  intros He Hh. unfold hazard_free, xrun in *.
  destruct (xgen (fun _ => None) [] 0 e) as [[[d pe] n'] k] eqn:G. subst k.
  destruct (xsim_all fuel e _ _ _ _ _ _ _ _ _ _ inv_empty He G) as (_ & Hrest).
  destruct o as [v|vs|c p]; [| exact I |].
  - destruct Hrest as (m & F' & t1 & t2 & X & P & T & _).
    exists m. intros m' Hm. rewrite (xexec_mono m m' _ _ _ Hm X), P, T. reflexivity.
  - destruct Hrest as (m & F' & X & _).
    exists m. intros m' Hm. rewrite (xexec_mono m m' _ _ _ Hm X). reflexivity.
Qed.

Definition tr1 (z : Z) : xexpr := XCall PTrace [XConst (VInt z)].

(** (try (do (t 1) (throw (ex 1 7)) (t 2)) (catch C1 x (do (t 3) x)) (finally (t 4))) *)
Definition caught : xexpr :=
  XTry (XDo (tr1 1) (XDo (XThrow (XCall (PMkExc 1) [XConst (VInt 7)])) (tr1 2)))
       (Some (1, 0)) (XDo (tr1 3) (XLocal 0)) true (tr1 4).

(** (loop* [i 0] (do (try (if (< i 2) nil (throw (ex 2 i))) (finally (t i))) (recur (inc i)))) *)
Definition escaping : xexpr :=
  XLoop [(0, XConst (VInt 0))]
    (XDo (XTry (XIf (XCall PLt [XLocal 0; XConst (VInt 2)]) (XConst VNil) (XThrow (XCall (PMkExc 2) [XLocal 0])))
               None (XConst VNil) true (XCall PTrace [XLocal 0]))
         (XRecur [XCall PInc [XLocal 0]])).
Example caught_ok :
  hazard_free caught = true /\
  xeval 30 (fun _ => None) caught = Some (OVal (VExc 1 (VInt 7)), [VInt 1; VInt 3; VInt 4]) /\
  xrun 30 caught = Some (XRVal (VExc 1 (VInt 7)) [VInt 1; VInt 3; VInt 4]).
Proof. repeat split; vm_compute; reflexivity. Qed.

Example escaping_ok :
  hazard_free escaping = true /\
  xeval 60 (fun _ => None) escaping = Some (OExc 2 (VInt 2), [VInt 0; VInt 1; VInt 2]) /\
  xrun 60 escaping = Some (XRExc 2 [VInt 0; VInt 1; VInt 2]).
Proof. repeat split; vm_compute; reflexivity. Qed.
