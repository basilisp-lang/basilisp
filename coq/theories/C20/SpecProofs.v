(** C20: laws of the reference semantics (Spec.v) -- canonical forms, truncation, the
    quot/rem/mod identities and sign laws over all rationals, and agreement with Coq's
    [Z.quot], [Z.rem], [Z.modulo] on integers. *)
From Coq Require Import Qround Qabs Lqa Lia.
From Verif Require Import C20.Model C20.Spec.
Open Scope Q_scope.

Lemma Qred_inject_Z z : Qred (inject_Z z) = inject_Z z.
Proof.
  unfold Qred, inject_Z.
  pose proof (Z.ggcd_gcd z 1) as Hg. pose proof (Z.ggcd_correct_divisors z 1) as Hd.
  destruct (Z.ggcd z 1) as [g [aa bb]]. simpl in *. destruct Hd as [H1 H2].
  rewrite Z.gcd_1_r in Hg. subst g. rewrite Z.mul_1_l in H1, H2. subst. reflexivity.
Qed.

Lemma Qred_idem q : Qred (Qred q) = Qred q.
Proof. apply Qred_complete, Qred_correct. Qed.

Lemma canon_comp p q : p == q -> canon p = canon q.
Proof. intro H. unfold canon. rewrite (Qred_complete _ _ H). reflexivity. Qed.

Lemma canon_cases q :
  (Qden (Qred q) = 1%positive /\ canon q = PInt (Qnum (Qred q)) /\ q == inject_Z (Qnum (Qred q)))
  \/ (Qden (Qred q) <> 1%positive /\ canon q = PFrac (Qred q)).
Proof.
  unfold canon. cbv zeta. destruct (Pos.eqb_spec (Qden (Qred q)) 1) as [E|E]; [left|right; auto].
  repeat split; [exact E|]. rewrite <- (Qred_correct q) at 1. destruct (Qred q) as [n d]. simpl in E. subst d. reflexivity.
Qed.

Lemma canon_frac q : Qden (Qred q) <> 1%positive -> canon q = PFrac (Qred q).
Proof. intro D. destruct (canon_cases q) as [[E _]|[_ E]]; [contradiction|exact E]. Qed.

Lemma den_canon q : den (canon q) == q.
Proof.
  destruct (canon_cases q) as [(_ & -> & E)|[_ ->]]; cbn [den]; [symmetry; exact E|apply Qred_correct].
Qed.

Lemma normal_canon q : normal (canon q).
Proof.
  destruct (canon_cases q) as [(_ & -> & _)|[D ->]]; [exact I|]. split; [apply Qred_idem|exact D].
Qed.

Lemma canon_int q z : q == inject_Z z -> canon q = PInt z.
Proof.
  intro H. rewrite (canon_comp _ _ H). unfold canon. rewrite Qred_inject_Z. reflexivity.
Qed.

Lemma canon_den v : normal v -> canon (den v) = v.
Proof.
  destruct v; simpl; try tauto.
  - intros _. apply canon_int. reflexivity.
  - intros [R D]. rewrite canon_frac; rewrite R; [reflexivity|exact D].
Qed.

Lemma normal_unique v w : normal v -> normal w -> den v == den w -> v = w.
Proof.
  intros Hv Hw E. rewrite <- (canon_den v Hv), <- (canon_den w Hw). apply canon_comp, E.
Qed.

Lemma Qtrunc_nonneg q : 0 <= q -> Qtrunc q = Qfloor q.
Proof.
  destruct q as [n d]. unfold Qle, Qtrunc, Qfloor; simpl. intro H.
  apply Z.quot_div_nonneg; lia.
Qed.

Lemma Qtrunc_nonpos q : q <= 0 -> Qtrunc q = (- Qfloor (- q))%Z.
Proof.
  destruct q as [n d]. unfold Qle, Qtrunc, Qfloor, Qopp; simpl. intro H.
  rewrite <- (Z.opp_involutive n) at 1. rewrite Z.quot_opp_l by lia.
  f_equal. apply Z.quot_div_nonneg; lia.
Qed.

Lemma Qtrunc_comp p q : p == q -> Qtrunc p = Qtrunc q.
Proof.
  intro E. destruct (Qlt_le_dec p 0) as [L|L].
  - rewrite !Qtrunc_nonpos; try lra. f_equal. apply Qfloor_comp. rewrite E. reflexivity.
  - rewrite !Qtrunc_nonneg; try lra. apply Qfloor_comp, E.
Qed.

Lemma Qfloor_bounds q : inject_Z (Qfloor q) <= q /\ q < inject_Z (Qfloor q) + 1.
Proof.
  split. apply Qfloor_le. pose proof (Qlt_floor q) as H.
  rewrite inject_Z_plus in H. exact H.
Qed.

(** the part [f] cut off by truncation lies between 0 and [q], strictly inside (-1, 1) *)
Lemma Qtrunc_frac q (f := q - inject_Z (Qtrunc q)) :
  (0 <= q /\ 0 <= f /\ f <= q /\ f < 1) \/ (q <= 0 /\ q <= f /\ f <= 0 /\ -(1) < f).
Proof.
  assert (N : forall p, 0 <= p -> 0 <= inject_Z (Qfloor p)).
  { intros p Hp. change 0 with (inject_Z 0). rewrite <- Zle_Qle, <- (Qfloor_Z 0). apply Qfloor_resp_le, Hp. }
  subst f. destruct (Qlt_le_dec q 0) as [L|L]; [right|left].
  - rewrite Qtrunc_nonpos, inject_Z_opp by lra. destruct (Qfloor_bounds (- q)). specialize (N (- q)). lra.
  - rewrite Qtrunc_nonneg by exact L. destruct (Qfloor_bounds q). specialize (N q L). lra.
Qed.

Lemma Qtrunc_inject_Z z : Qtrunc (inject_Z z) = z.
Proof. unfold Qtrunc, inject_Z; simpl. apply Z.quot_1_r. Qed.

(** truncation and floor differ by at most one: below zero truncation is the ceiling *)
Lemma Qtrunc_floor q : Qtrunc q = Qfloor q \/ Qtrunc q = (Qfloor q + 1)%Z.
Proof.
  destruct (Qlt_le_dec q 0) as [L|L]; [|left; apply Qtrunc_nonneg, L].
  rewrite Qtrunc_nonpos by lra. fold (Qceiling q).
  pose proof (Qfloor_le q). pose proof (Qle_ceiling q). pose proof (Qceiling_lt q). pose proof (Qlt_floor q).
  assert (inject_Z (Qfloor q) <= inject_Z (Qceiling q)) by lra.
  assert (inject_Z (Qceiling q - 1) < inject_Z (Qfloor q + 1)) by lra.
  rewrite <- Zle_Qle in *. rewrite <- Zlt_Qlt in *. lia.
Qed.

Section Laws.
  Variables x y : Q.
  Hypothesis Hy : ~ y == 0.

  Lemma ref_quot_rem : x == y * inject_Z (ref_quot x y) + ref_rem x y.
  Proof. unfold ref_rem, ref_quot. ring. Qed.

  Lemma ref_rem_form : ref_rem x y == y * (x / y - inject_Z (Qtrunc (x / y))).
  Proof. unfold ref_rem. field. exact Hy. Qed.

  Lemma y_sign : 0 < y \/ y < 0.
  Proof. destruct (Qlt_le_dec 0 y); auto. destruct (Qlt_le_dec y 0); auto. exfalso; apply Hy; lra. Qed.

  (** rem has the sign of the dividend (or is zero) *)
  Lemma ref_rem_sign : (0 <= x -> 0 <= ref_rem x y) /\ (x <= 0 -> ref_rem x y <= 0).
  Proof.
    pose proof ref_rem_form as F. assert (X : x == y * (x / y)) by (field; exact Hy). set (q := x / y) in *.
    pose proof (Qtrunc_frac q) as T. set (f := q - inject_Z (Qtrunc q)) in *.
    rewrite F. destruct T as [T|T], y_sign as [Y|Y]; split; intro Hx; nra.
  Qed.

  (** and is smaller in magnitude than the divisor *)
  Lemma ref_rem_bound : Qabs (ref_rem x y) < Qabs y.
  Proof.
    pose proof ref_rem_form as F. set (q := x / y) in *.
    pose proof (Qtrunc_frac q) as T. set (f := q - inject_Z (Qtrunc q)) in *.
    rewrite F. apply Qabs_Qlt_condition.
    destruct y_sign as [Y|Y]; [rewrite (Qabs_pos y) by lra|rewrite (Qabs_neg y) by lra];
      destruct T; split; nra.
  Qed.

  (** mod has the sign of the divisor (or is zero) and is smaller in magnitude *)
  Lemma ref_mod_range : (0 < y -> 0 <= ref_mod x y /\ ref_mod x y < y)
                     /\ (y < 0 -> y < ref_mod x y /\ ref_mod x y <= 0).
  Proof.
    assert (F : ref_mod x y == y * (x / y - inject_Z (Qfloor (x / y)))) by (unfold ref_mod; field; exact Hy).
    set (q := x / y) in *. destruct (Qfloor_bounds q) as [F1 F2].
    set (f := q - inject_Z (Qfloor q)) in *.
    assert (0 <= f) by (unfold f; lra). assert (f < 1) by (unfold f; lra).
    split; intro Y; rewrite F; split; nra.
  Qed.

  (** mod is congruent to the dividend *)
  Lemma ref_mod_congr : x == y * inject_Z (Qfloor (x / y)) + ref_mod x y.
  Proof. unfold ref_mod. ring. Qed.

  (** mod is rem, or rem shifted by the divisor; it is rem exactly when rem is zero or has
      the divisor's sign *)
  Lemma ref_mod_rem : ref_mod x y == ref_rem x y \/ ref_mod x y == ref_rem x y + y.
  Proof.
    unfold ref_mod, ref_rem. destruct (Qtrunc_floor (x / y)) as [-> | ->]; [left; reflexivity|right].
    rewrite inject_Z_plus. change (inject_Z 1) with 1. ring.
  Qed.

  Lemma ref_mod_is_rem_iff :
    ref_mod x y == ref_rem x y <->
    ref_rem x y == 0 \/ (0 < y /\ 0 < ref_rem x y) \/ (y < 0 /\ ref_rem x y < 0).
  Proof.
    pose proof ref_mod_rem as C. pose proof ref_mod_range as [P N].
    pose proof ref_rem_bound as B. apply Qabs_Qlt_condition in B.
    destruct y_sign as [L|L].
    - specialize (P L). rewrite (Qabs_pos y) in B by lra. split; [intro|intros [|[[]|[]]]; destruct C]; lra.
    - specialize (N L). rewrite (Qabs_neg y) in B by lra. split; [intro|intros [|[[]|[]]]; destruct C]; lra.
  Qed.
End Laws.

(** ** on integers the reference is Coq's [Z.quot], [Z.rem], [Z.modulo] *)
Lemma inject_Z_div_trunc a b : b <> 0%Z -> Qtrunc (inject_Z a / inject_Z b) = Z.quot a b.
Proof.
  intro Hb. unfold Qdiv, Qmult, Qinv, inject_Z, Qtrunc. simpl.
  destruct b as [|p|p]; [congruence| |]; simpl.
  - rewrite Z.mul_1_r. reflexivity.
  - rewrite <- (Z.quot_opp_opp a (Z.neg p)) by lia.
    f_equal; lia.
Qed.

Lemma inject_Z_zero b : Qeq_bool (inject_Z b) 0 = Z.eqb b 0.
Proof. unfold Qeq_bool, inject_Z. simpl. rewrite Z.mul_1_r. destruct b; reflexivity. Qed.

Lemma inject_Z_sub_mul a b c : inject_Z a - inject_Z b * inject_Z c = inject_Z (a - b * c).
Proof. unfold Qminus, Z.sub. rewrite <- inject_Z_mult, <- inject_Z_opp, <- inject_Z_plus. reflexivity. Qed.

Lemma ref_divop_int o a b : b <> 0%Z ->
  ref_divop o (inject_Z a) (inject_Z b) =
  Val (PInt match o with OQuot => Z.quot a b | ORem => Z.rem a b | OMod => a mod b end).
Proof.
  intro Hb. unfold ref_divop, ref_quot, ref_rem, ref_mod.
  rewrite inject_Z_zero, (proj2 (Z.eqb_neq b 0) Hb), <- Zdiv_Qdiv, inject_Z_div_trunc by exact Hb.
  destruct o; [reflexivity| |]; rewrite inject_Z_sub_mul; f_equal; apply canon_int, inject_Z_injective.
  - pose proof (Z.quot_rem' a b). lia.
  - pose proof (Z.mod_eq a b Hb). lia.
Qed.
